(** Shared algebra vocabulary: commutative-ring scalars and finite sums ([vsum], the
    left fold of [fadd] from [f0], Model/Elementwise.v). *)

From Coq Require Import List Arith Lia Permutation Ring_theory Ring.
From Corgi Require Import Lib.OptionMonad Model.Scalar Model.Elementwise.
Import ListNotations.

(** the scalar operations form a commutative ring (for Leibniz equality) *)
Definition is_cring {F} (O : ScalarOps F) : Prop :=
  ring_theory (f0 O) (f1 O) (fadd O) (fmul O) (fsub O) (fneg O) (@eq F).

Lemma seq_shift_map : forall s n, seq s n = map (fun y => s + y) (seq 0 n).
Proof.
  intros s n. revert s. induction n as [|n IH]; intros s; [reflexivity|].
  cbn [seq map]. rewrite Nat.add_0_r. f_equal.
  rewrite (IH (S s)), (IH 1), map_map. apply map_ext. intros y. lia.
Qed.

Section Sums.
  Context {F : Type} (O : ScalarOps F) (R : is_cring O).

  Let Rth : ring_theory (f0 O) (f1 O) (fadd O) (fmul O) (fsub O) (fneg O) (@eq F) := R.
  Add Ring cring_ring : Rth.

  Local Notation "0" := (f0 O).
  Local Notation "x + y" := (fadd O x y).
  Local Notation "x * y" := (fmul O x y).

  Lemma cr_add_0_l : forall x, 0 + x = x.            Proof. intros; ring. Qed.
  Lemma cr_add_0_r : forall x, x + 0 = x.            Proof. intros; ring. Qed.
  Lemma cr_add_comm : forall x y, x + y = y + x.     Proof. intros; ring. Qed.
  Lemma cr_add_assoc : forall x y z, x + (y + z) = (x + y) + z. Proof. intros; ring. Qed.
  Lemma cr_mul_0_l : forall x, 0 * x = 0.            Proof. intros; ring. Qed.
  Lemma cr_mul_0_r : forall x, x * 0 = 0.            Proof. intros; ring. Qed.
  Lemma cr_mul_1_l : forall x, f1 O * x = x.         Proof. intros; ring. Qed.
  Lemma cr_mul_1_r : forall x, x * f1 O = x.         Proof. intros; ring. Qed.
  Lemma cr_mul_comm : forall x y, x * y = y * x.     Proof. intros; ring. Qed.
  Lemma cr_mul_assoc : forall x y z, x * (y * z) = (x * y) * z. Proof. intros; ring. Qed.
  Lemma cr_distr_l : forall x y z, (x + y) * z = x * z + y * z. Proof. intros; ring. Qed.
  Lemma cr_distr_r : forall x y z, x * (y + z) = x * y + x * z. Proof. intros; ring. Qed.
  Lemma cr_sub_def : forall x y, fsub O x y = x + fneg O y.     Proof. intros; ring. Qed.
  Lemma cr_opp_def : forall x, x + fneg O x = 0.     Proof. intros; ring. Qed.
  Lemma cr_mul_m1 : forall x, x * fneg O (f1 O) = fneg O x.     Proof. intros; ring. Qed.

  Lemma fold_fadd_acc : forall l acc, fold_left (fadd O) l acc = acc + vsum O l.
  Proof.
    unfold vsum. induction l as [|x l IH]; intros acc; cbn [fold_left].
    - ring.
    - rewrite (IH (acc + x)), (IH (0 + x)). ring.
  Qed.

  Lemma vsum_nil : vsum O [] = 0.
  Proof. reflexivity. Qed.

  Lemma vsum_cons : forall x l, vsum O (x :: l) = x + vsum O l.
  Proof.
    intros x l. unfold vsum at 1. cbn [fold_left]. rewrite fold_fadd_acc. ring.
  Qed.

  Lemma vsum_single : forall x, vsum O [x] = x.
  Proof. intros x. rewrite vsum_cons, vsum_nil. ring. Qed.

  Lemma vsum_app : forall l1 l2, vsum O (l1 ++ l2) = vsum O l1 + vsum O l2.
  Proof.
    induction l1 as [|x l1 IH]; intros l2; cbn [app].
    - rewrite vsum_nil. ring.
    - rewrite !vsum_cons, IH. ring.
  Qed.

  Lemma vsum_perm : forall l1 l2, Permutation l1 l2 -> vsum O l1 = vsum O l2.
  Proof.
    intros l1 l2 H. induction H as [|x l l' H IH|x y l|l l' l'' H1 IH1 H2 IH2].
    - reflexivity.
    - rewrite !vsum_cons, IH. reflexivity.
    - rewrite !vsum_cons. ring.
    - congruence.
  Qed.

  Lemma vsum_rev : forall l, vsum O (rev l) = vsum O l.
  Proof. intros l. apply vsum_perm. apply Permutation_sym, Permutation_rev. Qed.

  Lemma vsum_zeros : forall l, (forall x, In x l -> x = 0) -> vsum O l = 0.
  Proof.
    induction l as [|x l IH]; intros H; [reflexivity|].
    rewrite vsum_cons, IH by (intros y Hy; apply H; right; exact Hy).
    rewrite (H x) by (left; reflexivity). ring.
  Qed.

  Lemma vsum_repeat_0 : forall n, vsum O (repeat 0 n) = 0.
  Proof. intros n. apply vsum_zeros. intros x Hx. apply repeat_spec in Hx. exact Hx. Qed.

  Lemma vsum_map_0 : forall {A} (l : list A), vsum O (map (fun _ => 0) l) = 0.
  Proof.
    intros A l. apply vsum_zeros. intros x Hx. apply in_map_iff in Hx.
    destruct Hx as (_ & E & _). symmetry. exact E.
  Qed.

  Lemma vsum_map_ext : forall {A} (f g : A -> F) l,
      (forall x, In x l -> f x = g x) -> vsum O (map f l) = vsum O (map g l).
  Proof. intros A f g l H. f_equal. apply map_ext_in. exact H. Qed.

  Lemma vsum_map_add : forall {A} (f g : A -> F) l,
      vsum O (map (fun p => f p + g p) l) = vsum O (map f l) + vsum O (map g l).
  Proof.
    intros A f g l. induction l as [|p l IH]; cbn [map].
    - rewrite vsum_nil. ring.
    - rewrite !vsum_cons, IH. ring.
  Qed.

  Lemma vsum_map_hom : forall (h : F -> F),
      h 0 = 0 -> (forall x y, h (x + y) = h x + h y) ->
      forall l, vsum O (map h l) = h (vsum O l).
  Proof.
    intros h H0 Hadd l. induction l as [|x l IH]; cbn [map].
    - rewrite vsum_nil. symmetry. exact H0.
    - rewrite !vsum_cons, IH, Hadd. reflexivity.
  Qed.

  Lemma vsum_map_mul_l : forall c l, vsum O (map (fun x => c * x) l) = c * vsum O l.
  Proof. intros c. apply vsum_map_hom; intros; ring. Qed.

  Lemma vsum_map_mul_r : forall c l, vsum O (map (fun x => x * c) l) = vsum O l * c.
  Proof. intros c. apply vsum_map_hom; intros; ring. Qed.

  Lemma vsum_map_scale_l : forall {A} c (f : A -> F) l,
      vsum O (map (fun p => c * f p) l) = c * vsum O (map f l).
  Proof. intros A c f l. rewrite <- vsum_map_mul_l, map_map. reflexivity. Qed.

  Lemma vsum_map_scale_r : forall {A} c (f : A -> F) l,
      vsum O (map (fun p => f p * c) l) = vsum O (map f l) * c.
  Proof. intros A c f l. rewrite <- vsum_map_mul_r, map_map. reflexivity. Qed.

  Lemma vsum_map_neg : forall l, vsum O (map (fneg O) l) = fneg O (vsum O l).
  Proof. apply vsum_map_hom; intros; ring. Qed.

  Lemma vsum_concat : forall ls, vsum O (concat ls) = vsum O (map (vsum O) ls).
  Proof.
    induction ls as [|l ls IH]; cbn [concat map]; [reflexivity|].
    rewrite vsum_app, vsum_cons, IH. reflexivity.
  Qed.

  Lemma vsum_flat_map : forall {A} (f : A -> list F) l,
      vsum O (flat_map f l) = vsum O (map (fun x => vsum O (f x)) l).
  Proof. intros A f l. rewrite flat_map_concat_map, vsum_concat, map_map. reflexivity. Qed.

  Lemma vsum_exchange : forall {A B} (h : A -> B -> F) (is_ : list A) (js : list B),
      vsum O (map (fun i => vsum O (map (fun j => h i j) js)) is_)
      = vsum O (map (fun j => vsum O (map (fun i => h i j) is_)) js).
  Proof.
    intros A B h is_ js. induction is_ as [|i is_ IH]; cbn [map].
    - rewrite vsum_nil. symmetry. apply vsum_map_0.
    - rewrite vsum_cons, IH. rewrite <- vsum_map_add.
      apply vsum_map_ext. intros j _. rewrite vsum_cons. reflexivity.
  Qed.

  Lemma vsum_filter_ind : forall {A} (p : A -> bool) (f : A -> F) l,
      vsum O (map f (filter p l)) = vsum O (map (fun x => if p x then f x else 0) l).
  Proof.
    intros A p f l. induction l as [|x l IH]; cbn [map filter]; [reflexivity|].
    destruct (p x); cbn [map]; rewrite !vsum_cons, IH; ring.
  Qed.

  Lemma vsum_filter_split : forall {A} (p : A -> bool) (f : A -> F) l,
      vsum O (map f l)
      = vsum O (map f (filter p l)) + vsum O (map f (filter (fun x => negb (p x)) l)).
  Proof.
    intros A p f l. rewrite !vsum_filter_ind, <- vsum_map_add.
    apply vsum_map_ext. intros x _. destruct (p x); cbn [negb]; ring.
  Qed.

  Lemma vsum_ind_false : forall {A} (p : A -> bool) (f : A -> F) l,
      (forall x, In x l -> p x = false) ->
      vsum O (map (fun x => if p x then f x else 0) l) = 0.
  Proof.
    intros A p f l H. apply vsum_zeros. intros y Hy. apply in_map_iff in Hy.
    destruct Hy as (x & <- & Hx). rewrite (H x Hx). reflexivity.
  Qed.

  Lemma vsum_ind_in : forall {A} (c : bool) (f : A -> F) l,
      (if c then vsum O (map f l) else 0) = vsum O (map (fun x => if c then f x else 0) l).
  Proof. intros A c f l. destruct c; [reflexivity|]. symmetry. apply vsum_map_0. Qed.

  Lemma fold_acc_ind : forall {A} (p : A -> bool) (f : A -> F) l init,
      fold_left (fun acc i => if p i then acc + f i else acc) l init
      = init + vsum O (map (fun i => if p i then f i else 0) l).
  Proof.
    intros A p f l. induction l as [|i l IH]; intros init; cbn [fold_left map].
    - rewrite vsum_nil. ring.
    - rewrite IH, vsum_cons. destruct (p i); ring.
  Qed.

  Lemma vsum_delta_seq : forall (v : nat -> F) k n,
      k < n -> vsum O (map (fun o => if k =? o then v o else 0) (seq 0 n)) = v k.
  Proof.
    intros v k n. induction n as [|n IH]; intros Hk; [lia|].
    rewrite seq_S, map_app, vsum_app. cbn [Nat.add map]. rewrite vsum_single.
    destruct (Nat.eq_dec k n) as [->|Hne].
    - rewrite Nat.eqb_refl. rewrite vsum_ind_false; [ring|].
      intros x Hx. apply in_seq in Hx. apply Nat.eqb_neq. lia.
    - rewrite IH by lia. replace (k =? n) with false by (symmetry; apply Nat.eqb_neq; exact Hne).
      ring.
  Qed.

  (** summing fibre by fibre: [sum_j [p (g j)] f j = sum_{o < P} [p o] sum_j [g j = o] f j] *)
  Lemma vsum_fiber : forall {A} (g : A -> nat) (p : nat -> bool) (f : A -> F) P l,
      (forall j, In j l -> g j < P) ->
      vsum O (map (fun j => if p (g j) then f j else 0) l)
      = vsum O (map (fun o => if p o
                              then vsum O (map (fun j => if g j =? o then f j else 0) l)
                              else 0) (seq 0 P)).
  Proof.
    intros A g p f P l Hg.
    transitivity (vsum O (map (fun o => vsum O (map (fun j => if p o then (if g j =? o then f j else 0) else 0) l)) (seq 0 P))).
    2:{ apply vsum_map_ext. intros o _. symmetry. apply vsum_ind_in. }
    rewrite vsum_exchange. f_equal. apply map_ext_in. intros j Hj.
    rewrite <- (vsum_delta_seq (fun o => if p o then f j else 0) (g j) P (Hg j Hj)).
    f_equal. apply map_ext. intros o. destruct (p o), (g j =? o); reflexivity.
  Qed.

  Lemma vsum_seq_mul : forall (f : nat -> F) (A B : nat),
      vsum O (map f (seq 0 (Nat.mul A B)))
      = vsum O (map (fun i => vsum O (map (fun y => f (Nat.add (Nat.mul B i) y)) (seq 0 B)))
                    (seq 0 A)).
  Proof.
    intros f A B. induction A as [|A IH]; [reflexivity|].
    replace (Nat.mul (S A) B) with (Nat.add (Nat.mul A B) B) by lia.
    rewrite seq_app, map_app, vsum_app, IH. rewrite seq_S, map_app, vsum_app.
    cbn [Nat.add map]. rewrite vsum_single. f_equal. f_equal.
    rewrite (seq_shift_map (Nat.mul A B) B), map_map. apply map_ext. intros y. f_equal. lia.
  Qed.
End Sums.
