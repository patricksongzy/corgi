(** Mixed-radix index arithmetic: unranking and the carry counter. *)

From Coq Require Import List Arith Bool Lia.
From Corgi Require Import Lib.OptionMonad Lib.IdxDefs Lib.ListFacts.
Import ListNotations.

Lemma Forall_rev : forall {A} (P : A -> Prop) l, Forall P l -> Forall P (rev l).
Proof. intros A. exact (@List.Forall_rev A). Qed.

Lemma prod_app : forall a b, prod (a ++ b) = prod a * prod b.
Proof. induction a as [|x a IH]; intros b; simpl; [lia|]. rewrite IH. lia. Qed.

Lemma prod_single : forall x, prod [x] = x.
Proof. intros x. apply Nat.mul_1_r. Qed.

Lemma prod_pos : forall d, Forall (fun x => 1 <= x) d -> 1 <= prod d.
Proof. induction d as [|x d IH]; intros H; simpl; [lia|]. inversion H; subst. specialize (IH H3). nia. Qed.

Lemma fold_horner_app : forall (f : nat -> nat * nat -> nat) l1 l2 acc,
    fold_left f (l1 ++ l2) acc = fold_left f l2 (fold_left f l1 acc).
Proof. intros. apply fold_left_app. Qed.

(** * [unrank]: the last coordinate is the remainder *)

Lemma unrank_snoc : forall d l n, unrank (d ++ [l]) n = unrank d (n / l) ++ [n mod l].
Proof. intros d l n. unfold unrank. rewrite rev_app_distr. reflexivity. Qed.

Lemma unrank_length : forall d n, length (unrank d n) = length d.
Proof.
  induction d as [|l d IH] using rev_ind; intros n; [reflexivity|].
  rewrite unrank_snoc, !app_length, IH. reflexivity.
Qed.

Lemma unrank_zero : forall d, Forall (fun x => 1 <= x) d -> unrank d 0 = repeat 0 (length d).
Proof.
  induction d as [|l d IH] using rev_ind; intros H; [reflexivity|].
  apply Forall_app in H. destruct H as [Hd Hl]. apply Forall_inv in Hl.
  rewrite unrank_snoc, Nat.div_0_l, Nat.mod_0_l, IH by (exact Hd || lia).
  rewrite app_length, repeat_app. reflexivity.
Qed.

Lemma unrank_lt : forall d n, Forall (fun x => 1 <= x) d -> Forall2 lt (unrank d n) d.
Proof.
  induction d as [|l d IH] using rev_ind; intros n H; [constructor|].
  apply Forall_app in H. destruct H as [Hd Hl]. apply Forall_inv in Hl.
  rewrite unrank_snoc. apply Forall2_app; [apply IH; exact Hd|].
  constructor; [apply Nat.mod_upper_bound; lia|constructor].
Qed.

Lemma succ_divmod_carry : forall d n,
    1 <= d -> n mod d = d - 1 -> S n mod d = 0 /\ S n / d = S (n / d).
Proof.
  intros d n Hd E. pose proof (Nat.div_mod n d ltac:(lia)) as H.
  assert (H2 : S n = d * S (n / d) + 0) by lia.
  split; symmetry.
  - apply (Nat.mod_unique (S n) d (S (n / d)) 0); [lia|exact H2].
  - apply (Nat.div_unique (S n) d (S (n / d)) 0); [lia|exact H2].
Qed.

Lemma succ_divmod_nocarry : forall d n,
    1 <= d -> n mod d <> d - 1 -> S n mod d = S (n mod d) /\ S n / d = n / d.
Proof.
  intros d n Hd E. pose proof (Nat.div_mod n d ltac:(lia)) as H.
  pose proof (Nat.mod_upper_bound n d ltac:(lia)) as Hlt.
  assert (H2 : S n = d * (n / d) + S (n mod d)) by lia.
  split; symmetry.
  - apply (Nat.mod_unique (S n) d (n / d) (S (n mod d))); [lia|exact H2].
  - apply (Nat.div_unique (S n) d (n / d) (S (n mod d))); [lia|exact H2].
Qed.

Lemma incr_le_unrank : forall ds n,
    Forall (fun x => 1 <= x) ds ->
    incr_le (unrank_le ds n) ds = unrank_le ds (S n).
Proof.
  induction ds as [|d ds IH]; intros n H; simpl; [reflexivity|].
  inversion H as [|? ? Hd Hds]; subst.
  destruct (n mod d =? d - 1) eqn:E.
  - apply Nat.eqb_eq in E. rewrite IH by assumption.
    destruct (succ_divmod_carry d n Hd E) as [H1 H2]. congruence.
  - apply Nat.eqb_neq in E.
    destruct (succ_divmod_nocarry d n Hd E) as [H1 H2]. congruence.
Qed.

Lemma incr_be_unrank : forall d n,
    Forall (fun x => 1 <= x) d -> incr_be (unrank d n) d = unrank d (S n).
Proof.
  intros d n H. unfold incr_be, unrank. rewrite rev_involutive.
  rewrite incr_le_unrank by (apply Forall_rev; exact H). reflexivity.
Qed.
