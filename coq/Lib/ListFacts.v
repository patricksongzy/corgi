(** Facts about lists ([nth_error], [firstn]/[skipn], [seq], [Forall2]) and about the
    option monad ([obind], [mapM]) shared by the whole development, with the two inductions
    over an option-valued fold ([ofold_inv]: a successful fold keeps an invariant;
    [fold_total]: a fold whose steps succeed under an invariant succeeds) and the in-place
    write [put_at] with the scatter loop built on it. *)

From Coq Require Import List Arith Bool Lia.
From Corgi Require Import Lib.OptionMonad.
Import ListNotations.

Section Lists.
  Context {A : Type}.

  Lemma nth_error_ext : forall (l1 l2 : list A),
      (forall i, nth_error l1 i = nth_error l2 i) -> l1 = l2.
  Proof.
    induction l1 as [|x l1 IH]; intros [|y l2] H.
    - reflexivity.
    - specialize (H 0). discriminate.
    - specialize (H 0). discriminate.
    - f_equal.
      + specialize (H 0). simpl in H. congruence.
      + apply IH. intros i. exact (H (S i)).
  Qed.

  Lemma nth_error_firstn_lt : forall n (l : list A) i,
      i < n -> nth_error (firstn n l) i = nth_error l i.
  Proof.
    induction n as [|n IH]; intros l i Hi; [lia|].
    destruct l as [|x l]; [reflexivity|].
    destruct i as [|i]; [reflexivity|]. simpl. apply IH. lia.
  Qed.

  Lemma nth_error_firstn_ge : forall n (l : list A) i,
      n <= i -> nth_error (firstn n l) i = None.
  Proof.
    intros n l i Hi. apply nth_error_None. rewrite firstn_length. lia.
  Qed.

  Lemma nth_error_skipn_add : forall n (l : list A) i,
      nth_error (skipn n l) i = nth_error l (n + i).
  Proof.
    induction n as [|n IH]; intros l i; [reflexivity|].
    destruct l as [|x l]; simpl.
    - destruct i; reflexivity.
    - apply IH.
  Qed.

  Lemma nth_nth_error : forall (l : list A) n d,
      nth n l d = match nth_error l n with Some v => v | None => d end.
  Proof.
    induction l as [|x l IH]; intros [|n] d; simpl; try reflexivity. apply IH.
  Qed.

  Lemma firstn_app_len : forall (l1 l2 : list A), firstn (length l1) (l1 ++ l2) = l1.
  Proof.
    intros l1 l2. rewrite firstn_app, Nat.sub_diag, firstn_all. cbn [firstn]. apply app_nil_r.
  Qed.

  Lemma skipn_app_len : forall (l1 l2 : list A), skipn (length l1) (l1 ++ l2) = l2.
  Proof.
    intros l1 l2. rewrite skipn_app, Nat.sub_diag, skipn_all. reflexivity.
  Qed.

  Lemma skipn_app_len_add : forall (l1 l2 : list A) n,
      skipn (length l1 + n) (l1 ++ l2) = skipn n l2.
  Proof. induction l1 as [|x l1 IH]; intros l2 n; [reflexivity|apply IH]. Qed.

  Lemma Forall_firstn : forall (P : A -> Prop) n l, Forall P l -> Forall P (firstn n l).
  Proof.
    intros P n. induction n as [|n IH]; intros l H; [constructor|].
    destruct H; simpl; constructor; auto.
  Qed.

  Lemma Forall_skipn : forall (P : A -> Prop) n l, Forall P l -> Forall P (skipn n l).
  Proof.
    intros P n. induction n as [|n IH]; intros l H; [exact H|].
    destruct H; simpl; [constructor|auto].
  Qed.
End Lists.

Lemma nth_error_seq : forall s n i, i < n -> nth_error (seq s n) i = Some (s + i).
Proof.
  intros s n i Hi. rewrite (nth_error_nth' _ 0) by (rewrite seq_length; exact Hi).
  rewrite seq_nth by exact Hi. reflexivity.
Qed.

Lemma nth_error_map_seq : forall {B} (g : nat -> B) m p,
    p < m -> nth_error (map g (seq 0 m)) p = Some (g p).
Proof. intros B g m p Hp. rewrite nth_error_map, nth_error_seq by exact Hp. reflexivity. Qed.

Lemma Forall2_rev : forall {A B} (R : A -> B -> Prop) l1 l2,
    Forall2 R l1 l2 -> Forall2 R (rev l1) (rev l2).
Proof.
  intros A B R l1 l2 H. induction H; simpl; [constructor|].
  apply Forall2_app; [assumption|]. constructor; [assumption|constructor].
Qed.

Lemma Forall2_rev_iff : forall {A B} (R : A -> B -> Prop) l1 l2,
    Forall2 R (rev l1) (rev l2) <-> Forall2 R l1 l2.
Proof.
  intros A B R l1 l2. split; intros H; [|apply Forall2_rev; exact H].
  rewrite <- (rev_involutive l1), <- (rev_involutive l2). apply Forall2_rev. exact H.
Qed.

Lemma Forall2_len : forall {A B} (R : A -> B -> Prop) l1 l2, Forall2 R l1 l2 -> length l1 = length l2.
Proof. intros A B R l1 l2 H. induction H; simpl; congruence. Qed.

Lemma fold_right_ext : forall {A B} (f g : A -> B -> B) b l,
    (forall a acc, f a acc = g a acc) -> fold_right f b l = fold_right g b l.
Proof. intros A B f g b l H. induction l as [|a l IH]; simpl; [reflexivity|]. rewrite IH. apply H. Qed.

Lemma Forall2_skipn : forall {A B} (R : A -> B -> Prop) n l1 l2,
    Forall2 R l1 l2 -> Forall2 R (skipn n l1) (skipn n l2).
Proof.
  intros A B R n. induction n as [|n IH]; intros l1 l2 H; [exact H|].
  destruct H; simpl; [constructor|apply IH; assumption].
Qed.

Lemma Forall2_snoc_inv : forall {A B} (R : A -> B -> Prop) l1 x l2 y,
    Forall2 R (l1 ++ [x]) (l2 ++ [y]) -> Forall2 R l1 l2 /\ R x y.
Proof.
  intros A B R l1 x l2 y H. apply Forall2_rev in H. rewrite !rev_app_distr in H.
  simpl in H. inversion H; subst. split; [|assumption]. apply Forall2_rev_iff. assumption.
Qed.

Lemma combine_app_eq : forall {A B} (a1 a2 : list A) (b1 b2 : list B),
    length a1 = length b1 ->
    combine (a1 ++ a2) (b1 ++ b2) = combine a1 b1 ++ combine a2 b2.
Proof.
  intros A B a1. induction a1 as [|x a1 IH]; intros a2 b1 b2 H; destruct b1; simpl in *;
    try discriminate; [reflexivity|]. f_equal. apply IH. lia.
Qed.

Lemma obind_some : forall {A B} (x : option A) (f : A -> option B) b,
    obind x f = Some b <-> exists a, x = Some a /\ f a = Some b.
Proof.
  intros A B [a|] f b; simpl; split.
  - intros H. exists a. auto.
  - intros (a' & E & H). inversion E; subst. exact H.
  - discriminate.
  - intros (a' & E & _). discriminate.
Qed.

(** the same inversion in continuation form, for `revert H; apply obind_elim; intros a Ha H`:
    the proof term mentions the rest of the monadic program once, where the existential
    form copies it three times per bind *)
Lemma obind_elim : forall {A B} (x : option A) (f : A -> option B) y (P : Prop),
    (forall a, x = Some a -> f a = Some y -> P) -> obind x f = Some y -> P.
Proof.
  intros A B x f y P H E. destruct x as [a|]; [exact (H a eq_refl E) | discriminate E].
Qed.

Lemma mapM_some_F2 : forall {A B} (f : A -> option B) l r,
    mapM f l = Some r <-> Forall2 (fun x y => f x = Some y) l r.
Proof.
  intros A B f. induction l as [|x l IH]; intros r; simpl.
  - split; intros H; [inversion H; constructor|inversion H; reflexivity].
  - split; intros H.
    + destruct (f x) as [y|] eqn:E; simpl in H; [|discriminate].
      destruct (mapM f l) as [ys|] eqn:E2; simpl in H; [|discriminate].
      inversion H; subst. constructor; [exact E|]. apply IH. reflexivity.
    + inversion H as [|? y ? ys Hy Hys]; subst. rewrite Hy. simpl.
      apply IH in Hys. rewrite Hys. reflexivity.
Qed.

Lemma mapM_ext : forall {A B} (f g : A -> option B) l,
    (forall x, In x l -> f x = g x) -> mapM f l = mapM g l.
Proof.
  intros A B f g l. induction l as [|x l IH]; intros H; simpl; [reflexivity|].
  rewrite (H x) by (left; reflexivity). rewrite IH; [reflexivity|].
  intros y Hy. apply H. right. exact Hy.
Qed.

Lemma mapM_some_map : forall {A B} (f : A -> option B) (g : A -> B) l,
    (forall x, In x l -> f x = Some (g x)) -> mapM f l = Some (map g l).
Proof.
  intros A B f g l. induction l as [|x l IH]; intros H; [reflexivity|].
  cbn [mapM map]. rewrite (H x (or_introl eq_refl)). cbn [obind].
  rewrite IH by (intros y Hy; apply H; right; exact Hy). reflexivity.
Qed.

Lemma mapM_none_in : forall {A B} (f : A -> option B) l x,
    In x l -> f x = None -> mapM f l = None.
Proof.
  intros A B f l x. induction l as [|y l IH]; intros Hin Hx; [destruct Hin|].
  cbn [mapM]. destruct Hin as [->|Hin].
  - rewrite Hx. reflexivity.
  - destruct (f y); cbn [obind]; [|reflexivity]. rewrite (IH Hin Hx). reflexivity.
Qed.

Lemma mapM_length : forall {A B} (f : A -> option B) l r,
    mapM f l = Some r -> length r = length l.
Proof.
  intros A B f l r H. apply mapM_some_F2 in H. induction H; simpl; congruence.
Qed.

Lemma mapM_nth_error : forall {A B} (f : A -> option B) l r j x,
    mapM f l = Some r -> nth_error l j = Some x ->
    exists y, f x = Some y /\ nth_error r j = Some y.
Proof.
  intros A B f l r j x H. apply mapM_some_F2 in H. revert j.
  induction H as [|a y l r Hy H IH]; intros [|j] Hj; try discriminate.
  - inversion Hj; subst. exists y. auto.
  - apply IH. exact Hj.
Qed.

Lemma fold_left_none : forall {A B} (f : option A -> B -> option A) (l : list B),
    (forall b, f None b = None) -> fold_left f l None = None.
Proof.
  intros A B f l Hf. induction l as [|b l IH]; simpl.
  - reflexivity.
  - rewrite Hf. exact IH.
Qed.

(** a property kept by every successful step holds at the end of a successful fold *)
Lemma ofold_inv : forall {A B} (step : A -> B -> option A) (P : A -> Prop) (l : list B) a a',
    fold_left (fun acc x => st <- acc ;; step st x) l (Some a) = Some a' ->
    P a -> (forall a x a1, P a -> In x l -> step a x = Some a1 -> P a1) -> P a'.
Proof.
  intros A B step P l. induction l as [|x l IH]; intros a a' H Ha Hstep.
  - injection H as <-. exact Ha.
  - cbn [fold_left obind] in H. destruct (step a x) as [a1|] eqn:E.
    + apply (IH a1 a' H); [exact (Hstep a x a1 Ha (or_introl eq_refl) E) |].
      intros b y b1 Hb Hy. apply Hstep; [exact Hb | right; exact Hy].
    + rewrite fold_left_none in H by reflexivity. discriminate H.
Qed.

Lemma fold_total : forall {A S} (step : S -> A -> option S) (I : S -> Prop) l s,
    I s -> (forall s a, In a l -> I s -> exists s', step s a = Some s' /\ I s') ->
    exists r, fold_left (fun acc a => s <- acc ;; step s a) l (Some s) = Some r /\ I r.
Proof.
  intros A S step I l. induction l as [|a l IH]; intros s Hs Hstep.
  - exists s. split; [reflexivity | exact Hs].
  - destruct (Hstep s a (or_introl eq_refl) Hs) as (s' & Hs' & HI).
    cbn [fold_left obind]. rewrite Hs'. apply IH; [exact HI |].
    intros s0 a0 Ha0. apply Hstep. right. exact Ha0.
Qed.

Definition put_at {A} (p : nat) (v : A) (l : list A) : list A := firstn p l ++ v :: skipn (S p) l.

Lemma set_nth_put_at : forall {A} p (v : A) l, p < length l -> set_nth p v l = Some (put_at p v l).
Proof.
  intros A p v l H. unfold set_nth. apply Nat.ltb_lt in H. rewrite H. reflexivity.
Qed.

Lemma put_at_length : forall {A} p (v : A) l, p < length l -> length (put_at p v l) = length l.
Proof.
  intros A p v l H. unfold put_at. rewrite app_length, firstn_length. cbn [length].
  rewrite skipn_length. lia.
Qed.

Lemma put_at_nth : forall {A} p (v : A) l q d,
    p < length l -> nth q (put_at p v l) d = if q =? p then v else nth q l d.
Proof.
  intros A p v l q d H. unfold put_at. rewrite !nth_nth_error.
  assert (Hf : length (firstn p l) = p) by (rewrite firstn_length; lia).
  destruct (Nat.eqb_spec q p) as [->|Hne].
  - rewrite nth_error_app2 by lia. rewrite Hf, Nat.sub_diag. reflexivity.
  - destruct (Nat.lt_ge_cases q p) as [Hlt|Hge].
    + rewrite nth_error_app1 by lia. rewrite nth_error_firstn_lt by exact Hlt. reflexivity.
    + rewrite nth_error_app2 by lia. rewrite Hf.
      replace (q - p) with (S (q - S p)) by lia. cbn [nth_error].
      rewrite nth_error_skipn_add. replace (S p + (q - S p)) with q by lia. reflexivity.
Qed.

Lemma set_nth_total : forall {A} i (x : A) (l : list A),
    i < length l -> exists l', set_nth i x l = Some l' /\ length l' = length l.
Proof.
  intros A i x l H. exists (put_at i x l). split; [apply set_nth_put_at|apply put_at_length]; exact H.
Qed.

(** one step [out[oi] := h out[oi] s[ii]] of a scatter loop *)
Lemma scatter_step : forall {A} (h : A -> A -> A) (s out : list A) n ii oi,
    length out = n -> ii < length s -> oi < n ->
    exists out', (x <- nth_error s ii ;; o <- nth_error out oi ;; set_nth oi (h o x) out)
                 = Some out' /\ length out' = n.
Proof.
  intros A h s out n ii oi Hlo Hii Hoi. subst n.
  destruct (nth_error s ii) as [x|] eqn:Hx; [| apply nth_error_None in Hx; lia].
  destruct (nth_error out oi) as [o|] eqn:Ho; [| apply nth_error_None in Ho; lia].
  apply set_nth_total. exact Hoi.
Qed.
