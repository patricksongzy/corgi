(** A characterisation of the sweep table independent of the order of accumulation:
    given a set of "fired" records (node, adjoint) whose adjoints are the accumulation,
    in ANY order, of the contributions of the fired consumers, [adjoints] succeeds and
    its table holds exactly those adjoints. *)

From Coq Require Import List Arith Bool Lia PeanoNat Permutation.
From Corgi Require Import Lib.OptionMonad Model.Engine Proofs.EngineDefs Proofs.EngineBase
     Proofs.Propagate Proofs.AdjointSpec Proofs.ValueAlg Proofs.SweepBase.
Import ListNotations.

(** * Firing records: (node, adjoint it fired with, keep flag of the call) *)

Definition fired (D : Type) : Type := (nat * D * bool)%type.
Definition fnode {D} (f : fired D) : nat := fst (fst f).
Definition fdel {D} (f : fired D) : D := snd (fst f).
Definition fkeep {D} (f : fired D) : bool := snd f.

Fixpoint lk {D} (m : nat) (FT : list (fired D)) : option (D * bool) :=
  match FT with
  | [] => None
  | f :: FT' => if fnode f =? m then Some (fdel f, fkeep f) else lk m FT'
  end.

Lemma lk_app : forall {D} m (F1 F2 : list (fired D)),
    lk m (F1 ++ F2) = match lk m F1 with Some x => Some x | None => lk m F2 end.
Proof.
  intros D m F1 F2. induction F1 as [|f F1 IH]; simpl.
  - reflexivity.
  - destruct (fnode f =? m); [reflexivity | exact IH].
Qed.

Lemma lk_in : forall {D} m (FT : list (fired D)) d k, lk m FT = Some (d, k) -> In (m, d, k) FT.
Proof.
  intros D m FT d k. induction FT as [|f FT IH]; simpl; intro H.
  - discriminate H.
  - destruct (fnode f =? m) eqn:Hn.
    + apply Nat.eqb_eq in Hn. injection H as Hd Hk. left.
      destruct f as [[n x] b]. unfold fnode, fdel, fkeep in *. simpl in *. congruence.
    + right. apply IH. exact H.
Qed.

Lemma lk_none : forall {D} m (FT : list (fired D)), lk m FT = None <-> ~ In m (map fnode FT).
Proof.
  intros D m FT. induction FT as [|f FT IH]; simpl.
  - split; [intros _ [] | reflexivity].
  - destruct (fnode f =? m) eqn:Hn.
    + apply Nat.eqb_eq in Hn. split; [discriminate | intro H; exfalso; apply H; left; exact Hn].
    + apply Nat.eqb_neq in Hn. rewrite IH. tauto.
Qed.

Lemma lk_nodup : forall {D} (FT : list (fired D)) m d k,
    NoDup (map fnode FT) -> In (m, d, k) FT -> lk m FT = Some (d, k).
Proof.
  intros D FT m d k. induction FT as [|f FT IH]; simpl; intros Hnd Hin.
  - destruct Hin.
  - inversion Hnd as [|x l Hx Hl]. subst x l. destruct Hin as [Hin|Hin].
    + subst f. unfold fnode, fdel, fkeep. simpl. rewrite Nat.eqb_refl. reflexivity.
    + destruct (fnode f =? m) eqn:Hn.
      * apply Nat.eqb_eq in Hn. exfalso. apply Hx. rewrite Hn.
        change m with (fnode (m, d, k)). apply in_map. exact Hin.
      * apply IH; assumption.
Qed.

Lemma filter_node_lk : forall {D} (FT : list (fired D)) m,
    NoDup (map fnode FT) ->
    filter (fun f => fnode f =? m) FT =
    match lk m FT with Some (d, k) => [(m, d, k)] | None => [] end.
Proof.
  intros D FT m. induction FT as [|f FT IH]; simpl; intro Hnd.
  - reflexivity.
  - inversion Hnd as [|x l Hx Hl]. subst x l. destruct (fnode f =? m) eqn:Hn.
    + apply Nat.eqb_eq in Hn. rewrite (IH Hl).
      assert (Hno : lk m FT = None) by (apply lk_none; rewrite <- Hn; exact Hx).
      rewrite Hno. destruct f as [[n x] b]. unfold fnode, fdel, fkeep in *. simpl in *.
      subst n. reflexivity.
    + apply IH. exact Hl.
Qed.

Fixpoint rng (k n : nat) : list nat :=
  match n with 0 => [] | S n' => (k + n') :: rng k n' end.

Lemma rng_in : forall k n x, In x (rng k n) -> k <= x < k + n.
Proof.
  intros k n. induction n as [|n IH]; simpl; intros x H.
  - destruct H.
  - destruct H as [H|H]; [lia |]. apply IH in H. lia.
Qed.

Lemma rng_split : forall a b, rng 0 (a + b) = rng a b ++ rng 0 a.
Proof.
  intros a b. induction b as [|b IH].
  - rewrite Nat.add_0_r. reflexivity.
  - replace (a + S b) with (S (a + b)) by lia. simpl. rewrite IH. reflexivity.
Qed.

Lemma rng_snoc : forall n k, rng k (S n) = rng (S k) n ++ [k].
Proof.
  induction n as [|n IH]; intro k.
  - simpl. rewrite Nat.add_0_r. reflexivity.
  - change (rng k (S (S n))) with ((k + S n) :: rng k (S n)). rewrite IH.
    change (rng (S k) (S n)) with ((S k + n) :: rng (S k) n).
    replace (k + S n) with (S k + n) by lia. reflexivity.
Qed.

Lemma rev_seq_rng : forall n, rev (seq 0 n) = rng 0 n.
Proof.
  induction n as [|n IH].
  - reflexivity.
  - rewrite seq_S, rev_app_distr. simpl. rewrite IH. reflexivity.
Qed.

Lemma flat_map_ext_in : forall {A B} (f h : A -> list B) l,
    (forall a, In a l -> f a = h a) -> flat_map f l = flat_map h l.
Proof.
  intros A B f h l. induction l as [|a l IH]; intro H; simpl.
  - reflexivity.
  - rewrite (H a (or_introl eq_refl)), IH; [reflexivity |].
    intros b Hb. apply H. right. exact Hb.
Qed.

Lemma flat_map_flat_map : forall {A B C} (f : B -> list C) (h : A -> list B) l,
    flat_map f (flat_map h l) = flat_map (fun x => flat_map f (h x)) l.
Proof.
  intros A B C f h l. induction l as [|a l IH]; simpl.
  - reflexivity.
  - rewrite flat_map_app, IH. reflexivity.
Qed.

Lemma bucket_perm : forall {D} n (FT : list (fired D)),
    (forall f, In f FT -> fnode f < n) ->
    Permutation FT (flat_map (fun k => filter (fun f => fnode f =? k) FT) (rng 0 n)).
Proof.
  intros D n. induction n as [|n IH]; intros FT Hb.
  - destruct FT as [|f FT]; [constructor |].
    specialize (Hb f (or_introl eq_refl)). lia.
  - simpl.
    eapply Permutation_trans; [apply (filter_partition_perm (fun f => fnode f =? n)) |].
    apply Permutation_app_head.
    set (FT' := filter (fun x => negb (fnode x =? n)) FT).
    assert (Hb' : forall f, In f FT' -> fnode f < n).
    { intros f Hf. apply filter_In in Hf. destruct Hf as (Hf & Hn).
      specialize (Hb f Hf). apply negb_true_iff in Hn. apply Nat.eqb_neq in Hn. lia. }
    eapply Permutation_trans; [apply (IH FT' Hb') |].
    rewrite (flat_map_ext_in (fun k => filter (fun f => fnode f =? k) FT')
                             (fun k => filter (fun f => fnode f =? k) FT)); [apply Permutation_refl |].
    intros k Hk. apply rng_in in Hk. unfold FT'. clear -Hk.
    induction FT as [|f FT IHF]; simpl.
    + reflexivity.
    + destruct (fnode f =? n) eqn:Hfn; simpl.
      * apply Nat.eqb_eq in Hfn. destruct (fnode f =? k) eqn:Hfk.
        -- apply Nat.eqb_eq in Hfk. lia.
        -- exact IHF.
      * destruct (fnode f =? k); [f_equal; exact IHF | exact IHF].
Qed.

Section SweepChar.
  Context {P D : Type}.
  Variable E : eops P D.
  Variable S : Type.
  Variable sh : D -> S.
  Variable psh : P -> S.
  Hypothesis add_ok : forall x y, sh x = sh y -> exists z, eo_add E x y = Some z /\ sh z = sh x.
  Hypothesis add_comm : forall x y, sh x = sh y -> eo_add E x y = eo_add E y x.
  Hypothesis add_assoc : forall x y z xy yz, sh x = sh y -> sh y = sh z ->
      eo_add E x y = Some xy -> eo_add E y z = Some yz -> eo_add E xy z = eo_add E x yz.
  Hypothesis flat_sh : forall d p d', eo_flat E d p = Some d' -> sh d' = psh p.

  Variable g : store P D.
  Variable r : nat.
  Variable s0 : D.
  Hypothesis Hwf : wfg E g.
  Hypothesis Hr : r < length g.

  Variable FT : list (fired D).
  Variable H : list (nat * D).

  Definition cso (f : fired D) : list (nat * D) :=
    match contribs E g (fnode f) (fdel f) with Some cs => cs | None => [] end.

  Definition init (m : nat) : option D := if m =? r then Some s0 else None.
  Definition dvl (m : nat) : option D := option_map fst (lk m FT).

  Hypothesis HA1 : NoDup (map fnode FT).
  Hypothesis HA2 : forall f, In f FT ->
      fnode f <= r /\ contribs E g (fnode f) (fdel f) <> None.
  Hypothesis HA3 : Permutation H (flat_map cso FT).
  Hypothesis HA4 : forall m, accum E (init m) (vals m H) = Some (dvl m).
  Hypothesis HA6 : exists ndr, nth_error g r = Some ndr /\ sh s0 = psh (n_pay ndr).

  Definition csn (k : nat) : list (nat * D) :=
    flat_map cso (filter (fun f => fnode f =? k) FT).
  Definition CSab (k : nat) : list (nat * D) := flat_map csn (rng k (Datatypes.S r - k)).

  Lemma cso_targets : forall f m d, In (m, d) (cso f) ->
      m < fnode f /\ exists c, nth_error g m = Some c /\ sh d = psh (n_pay c).
  Proof.
    intros f m d Hin. unfold cso in Hin.
    destruct (contribs E g (fnode f) (fdel f)) as [cs|] eqn:Hc; [| destruct Hin].
    destruct (contribs_targets E g _ _ cs m d Hwf Hc Hin) as (Hlt & c & d0 & Hcm & Hfl).
    split; [exact Hlt |]. exists c. split; [exact Hcm |]. eapply flat_sh. exact Hfl.
  Qed.

  Lemma csn_targets : forall k m d, In (m, d) (csn k) ->
      m < k /\ exists c, nth_error g m = Some c /\ sh d = psh (n_pay c).
  Proof.
    intros k m d Hin. unfold csn in Hin. apply in_flat_map in Hin.
    destruct Hin as (f & Hf & Hin). apply filter_In in Hf. destruct Hf as (_ & Hk).
    apply Nat.eqb_eq in Hk. subst k. apply cso_targets. exact Hin.
  Qed.

  Lemma all_perm : Permutation H (CSab 0).
  Proof.
    unfold CSab. rewrite Nat.sub_0_r.
    eapply Permutation_trans; [exact HA3 |].
    unfold csn.
    rewrite <- (flat_map_flat_map cso (fun k => filter (fun f => fnode f =? k) FT)).
    apply Permutation_flat_map. apply bucket_perm.
    intros f Hf. destruct (HA2 f Hf) as (Hle & _). lia.
  Qed.

  Lemma CSab_in : forall k m d, In (m, d) (CSab k) ->
      exists c, nth_error g m = Some c /\ sh d = psh (n_pay c).
  Proof.
    intros k m d Hin. unfold CSab in Hin. apply in_flat_map in Hin.
    destruct Hin as (n & _ & Hin). apply csn_targets in Hin. tauto.
  Qed.

  Lemma init_shape : forall m c, nth_error g m = Some c -> oshape S sh (psh (n_pay c)) (init m).
  Proof.
    intros m c Hc. unfold init. destruct (m =? r) eqn:Hm; simpl; [| exact I].
    apply Nat.eqb_eq in Hm. subst m. destruct HA6 as (ndr & Hndr & Hs). congruence.
  Qed.

  Lemma vals_shape : forall X m c, nth_error g m = Some c ->
      (forall m' d, In (m', d) X -> exists c', nth_error g m' = Some c' /\ sh d = psh (n_pay c')) ->
      Forall (fun d => sh d = psh (n_pay c)) (vals m X).
  Proof.
    intros X m c Hc HX. apply Forall_forall. intros d Hd. apply vals_in in Hd.
    destruct (HX m d Hd) as (c' & Hc' & Hs). congruence.
  Qed.

  Lemma H_in : forall m d, In (m, d) H ->
      exists c, nth_error g m = Some c /\ sh d = psh (n_pay c).
  Proof.
    intros m d Hin. apply (Permutation_in _ all_perm) in Hin. eapply CSab_in. exact Hin.
  Qed.

  Lemma HA4' : forall m, m < length g -> accum E (init m) (vals m (CSab 0)) = Some (dvl m).
  Proof.
    intros m Hm. destruct (nth_error g m) as [c|] eqn:Hc; [| apply nth_error_None in Hc; lia].
    rewrite <- (HA4 m). symmetry.
    apply (accum_perm E S sh add_ok add_comm add_assoc (psh (n_pay c))).
    - apply vals_perm. exact all_perm.
    - eapply init_shape. exact Hc.
    - apply vals_shape; [exact Hc | exact H_in].
  Qed.

  Lemma CSab_step : forall k, k <= r -> CSab k = CSab (Datatypes.S k) ++ csn k.
  Proof.
    intros k Hk. unfold CSab.
    replace (Datatypes.S r - k) with (Datatypes.S (r - k)) by lia.
    replace (Datatypes.S r - Datatypes.S k) with (r - k) by lia.
    rewrite rng_snoc, flat_map_app. simpl. rewrite app_nil_r. reflexivity.
  Qed.

  Lemma CSab_full : forall k, k <= Datatypes.S r ->
      CSab 0 = CSab k ++ flat_map csn (rng 0 k).
  Proof.
    intros k Hk. unfold CSab. rewrite Nat.sub_0_r.
    replace (Datatypes.S r) with (k + (Datatypes.S r - k)) at 1 by lia.
    rewrite rng_split, flat_map_app. reflexivity.
  Qed.

  Lemma vals_below_nil : forall k m, k <= Datatypes.S m -> vals m (flat_map csn (rng 0 k)) = [].
  Proof.
    intros k m Hk. apply vals_nil_notin. intros [m' d] Hin. simpl.
    apply in_flat_map in Hin. destruct Hin as (n & Hn & Hin).
    apply rng_in in Hn. apply csn_targets in Hin. lia.
  Qed.

  Lemma tab_add_all_spec : forall cs (T : table),
      (forall p, In p cs -> fst p < length T) ->
      (forall m, exists o', accum E (nth m T None) (vals m cs) = Some o') ->
      exists T', tab_add_all E T cs = Some T' /\ length T' = length T /\
                 forall m, accum E (nth m T None) (vals m cs) = Some (nth m T' None).
  Proof.
    induction cs as [|[c d] cs IH]; intros T Hlt Hok.
    - exists T. split; [reflexivity |]. split; reflexivity.
    - destruct (Hok c) as (o' & Ho'). rewrite vals_cons, Nat.eqb_refl in Ho'. simpl in Ho'.
      destruct (oadd E (nth c T None) d) as [z|] eqn:Hz; [| discriminate Ho'].
      destruct (tab_add_intro E T (c, d) z) as (T1 & HT1);
        [apply (Hlt (c, d)); left; reflexivity | exact Hz |].
      destruct (tab_add_inv E T (c, d) T1 HT1) as (_ & Hlen1 & z' & Hz' & Hnth1). simpl in Hz', Hnth1.
      rewrite Hz in Hz'. injection Hz' as Hz'. subst z'.
      assert (Hstep : forall m, accum E (nth m T None) (vals m ((c, d) :: cs)) =
                                accum E (nth m T1 None) (vals m cs)).
      { intro m. rewrite vals_cons, Hnth1, (Nat.eqb_sym c m).
        destruct (m =? c) eqn:Hmc; [| reflexivity].
        apply Nat.eqb_eq in Hmc. subst m. simpl. rewrite Hz. reflexivity. }
      destruct (IH T1) as (T' & HT' & Hlen' & Hnth').
      + intros p Hp. rewrite Hlen1. apply Hlt. right. exact Hp.
      + intro m. rewrite <- Hstep. apply Hok.
      + exists T'. split; [rewrite tab_add_all_cons, HT1; exact HT' |].
        split; [congruence |]. intro m. rewrite Hstep. apply Hnth'.
  Qed.

  Lemma sweep_rng : forall k (T : table),
      k <= Datatypes.S r -> length T = length g ->
      (forall m, m < length g -> accum E (init m) (vals m (CSab k)) = Some (nth m T None)) ->
      exists T', sweep E g (rng 0 k) T = Some T' /\ length T' = length g /\
                 forall m, m < length g -> accum E (init m) (vals m (CSab 0)) = Some (nth m T' None).
  Proof.
    induction k as [|k IH]; intros T Hk Hlen HT.
    - exists T. split; [reflexivity |]. split; [exact Hlen | exact HT].
    - assert (Hkr : k <= r) by lia. assert (HkN : k < length g) by lia.
      change (rng 0 (Datatypes.S k)) with (k :: rng 0 k).
      (* the slot of [k] is final *)
      assert (Hslot : nth k T None = dvl k).
      { pose proof (HA4' k HkN) as Hs.
        rewrite (CSab_full (Datatypes.S k) Hk), vals_app,
          (vals_below_nil (Datatypes.S k) k (le_n _)), app_nil_r, (HT k HkN) in Hs. congruence. }
      pose proof (filter_node_lk FT k HA1) as Hfil.
      rewrite sweep_cons, Hslot. unfold dvl in *.
      destruct (lk k FT) as [[delta kp]|] eqn:Hlk; simpl.
      + assert (Hin : In (k, delta, kp) FT) by (apply lk_in; exact Hlk).
        destruct (HA2 _ Hin) as (_ & Hcne). unfold fnode, fdel in Hcne. simpl in Hcne.
        destruct (contribs E g k delta) as [cs|] eqn:Hcs; [| congruence]. simpl.
        assert (Hcsn : csn k = cs).
        { unfold csn. rewrite Hfil. simpl. unfold cso, fnode, fdel. simpl.
          rewrite Hcs. apply app_nil_r. }
        assert (Hstep : CSab k = CSab (Datatypes.S k) ++ cs)
          by (rewrite <- Hcsn; apply CSab_step; exact Hkr).
        assert (Hacc : forall m, m < length g ->
                   accum E (init m) (vals m (CSab k)) = accum E (nth m T None) (vals m cs)).
        { intros m Hm. rewrite Hstep, vals_app, accum_app, (HT m Hm). reflexivity. }
        destruct (tab_add_all_spec cs T) as (T1 & HT1 & Hlen1 & Hnth1).
        * intros [m d] Hp. simpl. rewrite Hlen. rewrite <- Hcsn in Hp.
          apply csn_targets in Hp. lia.
        * intro m. destruct (Nat.lt_ge_cases m (length g)) as [Hm|Hm].
          -- rewrite <- (Hacc m Hm). pose proof (HA4' m Hm) as Hfull.
             rewrite (CSab_full k) in Hfull by lia. rewrite vals_app in Hfull.
             eapply accum_prefix. exact Hfull.
          -- rewrite vals_nil_notin; [eexists; reflexivity |].
             intros [m' d] Hp. rewrite <- Hcsn in Hp. apply csn_targets in Hp. simpl. lia.
        * rewrite HT1. simpl. apply IH; [lia | congruence |].
          intros m Hm. rewrite (Hacc m Hm). apply Hnth1.
      + assert (Hcsn : csn k = []) by (unfold csn; rewrite Hfil; reflexivity).
        apply IH; [lia | exact Hlen |].
        intros m Hm. rewrite <- (HT m Hm), (CSab_step k Hkr), Hcsn, app_nil_r. reflexivity.
  Qed.

  Theorem sweep_char :
    exists tab, adjoints E g r s0 = Some tab /\ length tab = length g /\
                forall m, m < length g -> nth m tab None = dvl m.
  Proof.
    unfold adjoints, down_from. rewrite rev_seq_rng.
    destruct (sweep_rng (Datatypes.S r) (init_table (length g) r s0)) as (T' & HT' & Hlen' & Hn').
    - lia.
    - apply init_table_length. exact Hr.
    - intros m Hm. rewrite init_table_nth. unfold CSab. rewrite Nat.sub_diag. reflexivity.
    - exists T'. split; [exact HT' |]. split; [exact Hlen' |].
      intros m Hm. pose proof (Hn' m Hm) as H1. rewrite (HA4' m Hm) in H1. congruence.
  Qed.

  Lemma dvl_shape : forall m c delta,
      nth_error g m = Some c -> dvl m = Some delta -> sh delta = psh (n_pay c).
  Proof.
    intros m c delta Hc Hd. pose proof (HA4 m) as Ha. rewrite Hd in Ha.
    apply (accum_shape E S sh add_ok (psh (n_pay c))) in Ha.
    - exact Ha.
    - eapply init_shape. exact Hc.
    - apply vals_shape; [exact Hc | exact H_in].
  Qed.
End SweepChar.
