(** Value and shape specification of [a_matmul] (Model/Linalg.v), the model of
    [Array::matmul((a, ta), (b, tb), c)]: operands of rank >= 2 (batched, broadcast leading
    dimensions, transposition flags, optional additive term) and the rank-1 forms.

    No assumption on the scalar operations: the value is the literal expression
    [fadd c_ij (vsum [a_i0 * b_0j; ...; a_i(n-1) * b_(n-1)j])] computed by the triple loop,
    where [vsum l = fold_left fadd l f0]. *)

From Coq Require Import List Arith Bool Lia PeanoNat.
From Corgi Require Import Lib.OptionMonad Lib.IdxDefs Lib.Idx Model.Scalar Model.Arr
     Model.SlicedOp Model.Elementwise Model.Linalg Proofs.ArrFacts Proofs.BroadcastDims
     Proofs.SpecDefs Proofs.SlicedOpSpec Proofs.EwSpec.
Import ListNotations.

Section MMLists.
  Context {A : Type}.

  Lemma nth_error_some_nth : forall (l : list A) i d,
      i < length l -> nth_error l i = Some (nth i l d).
  Proof. intros l i d H. apply nth_error_nth'. exact H. Qed.
End MMLists.

Lemma divmod_pos : forall i j cols, j < cols -> (i * cols + j) / cols = i /\ (i * cols + j) mod cols = j.
Proof.
  intros i j cols Hj. split.
  - rewrite Nat.div_add_l by lia. rewrite Nat.div_small by exact Hj. lia.
  - rewrite Nat.add_comm, Nat.mod_add by lia. apply Nat.mod_small. exact Hj.
Qed.

Section Slice.
  Context {F : Type} (O : ScalarOps F).

  (** flat offsets read by the triple loop *)
  Definition a_off (rows n : nat) (ta : bool) (i k : nat) : nat :=
    if ta then k * rows + i else i * n + k.
  Definition b_off (cols n : nat) (tb : bool) (k j : nat) : nat :=
    if tb then j * n + k else k * cols + j.

  Lemma a_off_lt : forall rows n ta i k, i < rows -> k < n -> a_off rows n ta i k < rows * n.
  Proof. intros rows n ta i k Hi Hk. unfold a_off. destruct ta; nia. Qed.

  Lemma b_off_lt : forall cols n tb k j, j < cols -> k < n -> b_off cols n tb k j < n * cols.
  Proof. intros cols n tb k j Hj Hk. unfold b_off. destruct tb; nia. Qed.

  Lemma matmul_slice_eq : forall rows cols n ta tb (cur sa sb : list F),
      length cur = rows * cols -> length sa = rows * n -> length sb = n * cols ->
      matmul_slice O rows cols n ta tb cur sa sb
      = Some (map (fun p =>
                     fadd O (nth p cur (f0 O))
                          (vsum O (map (fun k =>
                                          fmul O (nth (a_off rows n ta (p / cols) k) sa (f0 O))
                                                 (nth (b_off cols n tb k (p mod cols)) sb (f0 O)))
                                       (seq 0 n))))
                  (seq 0 (rows * cols))).
  Proof.
    intros rows cols n ta tb cur sa sb Hcur Hsa Hsb.
    unfold matmul_slice. apply mapM_some_map. intros p Hp. apply in_seq in Hp.
    assert (Hc : 1 <= cols) by nia.
    assert (Hi : p / cols < rows) by (apply Nat.div_lt_upper_bound; lia).
    assert (Hj : p mod cols < cols) by (apply Nat.mod_upper_bound; lia).
    rewrite (mapM_some_map _
               (fun k => fmul O (nth (a_off rows n ta (p / cols) k) sa (f0 O))
                                (nth (b_off cols n tb k (p mod cols)) sb (f0 O)))).
    - cbn [obind]. rewrite (nth_error_nth' cur (f0 O)) by lia. reflexivity.
    - intros k Hk. apply in_seq in Hk.
      fold (a_off rows n ta (p / cols) k). fold (b_off cols n tb k (p mod cols)).
      rewrite (nth_error_nth' sa (f0 O)) by (rewrite Hsa; apply a_off_lt; [exact Hi|lia]).
      rewrite (nth_error_nth' sb (f0 O)) by (rewrite Hsb; apply b_off_lt; [exact Hj|lia]).
      reflexivity.
  Qed.

  Lemma cyc_fill_length : forall cur s : list F, s <> [] -> length (cyc_fill O cur s) = length cur.
  Proof.
    intros cur [|x s] H; [congruence|]. unfold cyc_fill. rewrite map_length, seq_length. reflexivity.
  Qed.

  Lemma cyc_fill_nth : forall (cur s : list F) p,
      s <> [] -> p < length cur ->
      nth p (cyc_fill O cur s) (f0 O) = nth (p mod length s) s (f0 O).
  Proof.
    intros cur [|x s] p H Hp; [congruence|]. unfold cyc_fill.
    rewrite nth_nth_error, nth_error_map_seq by exact Hp. reflexivity.
  Qed.

  Definition bias_entry (set_output : bool) (cols : nat) (sc : list F) (i j : nat) : F :=
    if set_output then nth ((i * cols + j) mod length sc) sc (f0 O) else f0 O.

  Definition mm_value (set_output : bool) (rows cols n : nat) (ta tb : bool)
             (sa sb sc : list F) (i j : nat) : F :=
    fadd O (bias_entry set_output cols sc i j)
         (vsum O (map (fun k => fmul O (nth (a_off rows n ta i k) sa (f0 O))
                                      (nth (b_off cols n tb k j) sb (f0 O)))
                      (seq 0 n))).

  Definition mm_block (set_output : bool) (rows cols n : nat) (ta tb : bool)
             (sa sb sc : list F) : list F :=
    map (fun p => mm_value set_output rows cols n ta tb sa sb sc (p / cols) (p mod cols))
        (seq 0 (rows * cols)).

  Lemma matmul_sop_eq : forall set_output rows cols n ta tb (sa sb sc : list F),
      length sa = rows * n -> length sb = n * cols -> sc <> [] ->
      matmul_sop O set_output rows cols n ta tb (repeat (f0 O) (rows * cols)) [sa; sb; sc]
      = Some (mm_block set_output rows cols n ta tb sa sb sc).
  Proof.
    intros set_output rows cols n ta tb sa sb sc Hsa Hsb Hsc. unfold matmul_sop.
    set (cur := repeat (f0 O) (rows * cols)).
    assert (Hcur : length cur = rows * cols) by apply repeat_length.
    rewrite matmul_slice_eq; try assumption;
      [|destruct set_output; [rewrite cyc_fill_length by exact Hsc|]; exact Hcur].
    f_equal. apply map_ext_in. intros p Hp. apply in_seq in Hp.
    unfold mm_value, bias_entry. f_equal.
    destruct set_output; [|apply nth_repeat].
    rewrite cyc_fill_nth by (try exact Hsc; lia).
    rewrite (Nat.mul_comm (p / cols)), <- Nat.div_mod by nia. reflexivity.
  Qed.

  Lemma matmul_sop_spec : forall set_output rows cols n ta tb (sa sb sc : list F),
      length sa = rows * n -> length sb = n * cols -> sc <> [] ->
      exists new,
        matmul_sop O set_output rows cols n ta tb (repeat (f0 O) (rows * cols)) [sa; sb; sc]
        = Some new /\ length new = rows * cols /\
        forall i j, i < rows -> j < cols ->
          nth_error new (i * cols + j)
          = Some (mm_value set_output rows cols n ta tb sa sb sc i j).
  Proof.
    intros set_output rows cols n ta tb sa sb sc Hsa Hsb Hsc.
    exists (mm_block set_output rows cols n ta tb sa sb sc).
    split; [apply matmul_sop_eq; assumption|]. unfold mm_block. split.
    - rewrite map_length, seq_length. reflexivity.
    - intros i j Hi Hj. rewrite nth_error_map_seq by nia.
      destruct (divmod_pos i j cols Hj) as [-> ->]. reflexivity.
  Qed.
End Slice.

Lemma length_snoc2 : forall {A} (l : list A) x y, length (l ++ [x; y]) = length l + 2.
Proof. intros. rewrite app_length. reflexivity. Qed.

Lemma snoc2_of_rank : forall d : list nat, 2 <= length d -> exists l x y, d = l ++ [x; y].
Proof.
  intros d H. destruct (exists_last (l := d)) as (d1 & y & ->); [intro He; subst d; simpl in H; lia |].
  rewrite app_length in H. simpl in H.
  destruct (exists_last (l := d1)) as (l & x & ->); [intro He; subst d1; simpl in H; lia |].
  exists l, x, y. rewrite <- app_assoc. reflexivity.
Qed.

Lemma firstn_snoc2 : forall {A} (l : list A) x y, firstn (length (l ++ [x; y]) - 2) (l ++ [x; y]) = l.
Proof. intros A l x y. rewrite length_snoc2, Nat.add_sub. apply firstn_app_len. Qed.

Lemma lastn2_snoc2 : forall {A} (l : list A) x y, lastn 2 (l ++ [x; y]) = [x; y].
Proof. intros A l x y. exact (lastn_app_len l [x; y]). Qed.

Lemma dim_back_app : forall l t b,
    1 <= b <= length t -> dim_back (l ++ t) b = nth_error t (length t - b).
Proof.
  intros l t b Hb. unfold dim_back. rewrite app_length, (proj2 (Nat.leb_le _ _)) by lia.
  cbn [guard obind]. rewrite nth_error_app2 by lia. f_equal. lia.
Qed.

Lemma dim_back_snoc2_1 : forall l x y, dim_back (l ++ [x; y]) 1 = Some y.
Proof. intros l x y. apply (dim_back_app l [x; y] 1). cbn. lia. Qed.

Lemma dim_back_snoc2_2 : forall l x y, dim_back (l ++ [x; y]) 2 = Some x.
Proof. intros l x y. apply (dim_back_app l [x; y] 2). cbn. lia. Qed.

Lemma dim_back_snoc2_12 : forall l x y (t : bool),
    dim_back (l ++ [x; y]) (if t then 1 else 2) = Some (if t then y else x).
Proof. intros l x y [|]; [apply dim_back_snoc2_1|apply dim_back_snoc2_2]. Qed.

Lemma dim_back_snoc2_21 : forall l x y (t : bool),
    dim_back (l ++ [x; y]) (if t then 2 else 1) = Some (if t then x else y).
Proof. intros l x y [|]; [apply dim_back_snoc2_2|apply dim_back_snoc2_1]. Qed.

Lemma rowmajor_pair : forall x y i j, rowmajor [x; y] [i; j] = i * y + j.
Proof. intros. cbn. lia. Qed.

Lemma rowmajor_snoc2 : forall d I x y i j,
    length d = length I ->
    rowmajor (d ++ [x; y]) (I ++ [i; j]) = rowmajor d I * (x * y) + (i * y + j).
Proof.
  intros d I x y i j H. rewrite rowmajor_app, rowmajor_pair by exact H. cbn [prod fold_right]. lia.
Qed.

Lemma in_range_pair : forall i j x y, i < x -> j < y -> in_range [i; j] [x; y].
Proof. intros. constructor; [assumption|]. constructor; [assumption|constructor]. Qed.

Lemma in_range_snoc2 : forall I d i j x y,
    in_range I d -> i < x -> j < y -> in_range (I ++ [i; j]) (d ++ [x; y]).
Proof.
  intros I d i j x y HI Hi Hj. apply Forall2_app; [exact HI|]. apply in_range_pair; assumption.
Qed.

Section Snoc2.
  Context {F : Type}.

  Lemma lead_dims_snoc2 : forall (a : arr F) d x y, dims a = d ++ [x; y] -> lead_dims 2 a = d.
  Proof. intros a d x y E. exact (lead_dims_app a d [x; y] E). Qed.

  Lemma group_length_snoc2 : forall (a : arr F) d x y,
      dims a = d ++ [x; y] -> group_length 2 a = x * y.
  Proof.
    intros a d x y E. rewrite <- (Nat.mul_1_r y). exact (group_length_app a d [x; y] E).
  Qed.

  Lemma wf_snoc2 : forall (a : arr F) d x y,
      wf a -> dims a = d ++ [x; y] ->
      Forall (fun v => 1 <= v) d /\ 1 <= x /\ 1 <= y /\ length (vals a) = prod d * (x * y).
  Proof.
    intros a d x y Hw E. destruct (wf_app a d [x; y] Hw E) as (Hd & Hxy & Hl).
    inversion Hxy as [|? ? Hx Hy']; subst. inversion Hy' as [|? ? Hy _]; subst.
    cbn [prod fold_right] in Hl. rewrite Nat.mul_1_r in Hl. auto.
  Qed.

  Lemma sliced_valid_low : forall (c : arr F) in_dims,
      length (dims c) <= 2 -> sliced_valid 2 in_dims c = true.
  Proof.
    intros c in_dims H. unfold sliced_valid.
    replace (skipn 2 (rev (dims c))) with (@nil nat); [reflexivity|].
    symmetry. apply skipn_all2. rewrite rev_length. exact H.
  Qed.

End Snoc2.

Definition mm_rows (ta : bool) (ar ac : nat) : nat := if ta then ac else ar.
Definition mm_inner_a (ta : bool) (ar ac : nat) : nat := if ta then ar else ac.
Definition mm_inner_b (tb : bool) (br bc : nat) : nat := if tb then bc else br.
Definition mm_cols (tb : bool) (br bc : nat) : nat := if tb then br else bc.

Lemma ltb_snoc2 : forall {A} (l : list A) x y, (length (l ++ [x; y]) <? 2) = false.
Proof. intros. rewrite length_snoc2. apply Nat.ltb_ge. lia. Qed.

Lemma leb_snoc2 : forall {A} (l : list A) x y n, n <= 2 -> (n <=? length (l ++ [x; y])) = true.
Proof. intros. rewrite length_snoc2. apply Nat.leb_le. lia. Qed.

Lemma matmul_dims_rank2 : forall la ar ac ta lb br bc tb,
    exists p q,
      matmul_dims (la ++ [ar; ac]) ta (lb ++ [br; bc]) tb =
      (lead <- element_wise_dimensions la lb ;;
       check (mm_inner_a ta ar ac =? mm_inner_b tb br bc) ;;
       Some {| ms_in := lead ++ [p; q];
               ms_out := lead ++ [mm_rows ta ar ac; mm_cols tb br bc];
               ms_rows := mm_rows ta ar ac; ms_cols := mm_cols tb br bc;
               ms_sum := mm_inner_a ta ar ac |}).
Proof.
  intros la ar ac ta lb br bc tb.
  assert (Hl : exists p q,
             lastn 2 (if length (lb ++ [br; bc]) <=? length (la ++ [ar; ac])
                      then la ++ [ar; ac] else lb ++ [br; bc]) = [p; q]).
  { destruct (length (lb ++ [br; bc]) <=? length (la ++ [ar; ac]));
      rewrite lastn2_snoc2; eexists; eexists; reflexivity. }
  destruct Hl as (p & q & Hl). exists p, q.
  unfold matmul_dims. cbv zeta. rewrite !firstn_snoc2, Hl.
  destruct (element_wise_dimensions la lb) as [lead|]; cbn [obind]; [|reflexivity].
  rewrite !ltb_snoc2. cbn [andb].
  rewrite firstn_snoc2.
  assert (Ea : (length (la ++ [ar; ac]) <? (if ta then 2 else 1)) = false).
  { rewrite length_snoc2. apply Nat.ltb_ge. destruct ta; lia. }
  assert (Eb : ((if tb then 1 else 2) <=? length (lb ++ [br; bc])) = true).
  { apply leb_snoc2. destruct tb; lia. }
  rewrite Ea, Eb.
  rewrite !dim_back_snoc2_12, !dim_back_snoc2_21. cbn [obind].
  destruct (guard (_ =? _)) as [[]|]; reflexivity.
Qed.

Section MatmulSpec.
  Context {F : Type} (O : ScalarOps F).

  (** total element access; [get_getd] relates it to the checked access [get] *)
  Definition getd (a : arr F) (I : list nat) : F := nth (rowmajor (dims a) I) (vals a) (f0 O).

  Lemma get_getd : forall (a : arr F) I, wf a -> in_range I (dims a) -> get a I = Some (getd a I).
  Proof.
    intros a I [_ Hl] HI. unfold get, getd. apply nth_error_some_nth.
    rewrite <- Hl. apply rowmajor_lt_prod. exact HI.
  Qed.

  (** the multi-indices of [a] and [b] read for the entry [(i, j)] of batch [J] *)
  Definition a_idx (ta : bool) (la J : list nat) (i k : nat) : list nat :=
    bclamp la J ++ (if ta then [k; i] else [i; k]).
  Definition b_idx (tb : bool) (lb J : list nat) (k j : nat) : list nat :=
    bclamp lb J ++ (if tb then [j; k] else [k; j]).

  Definition bias_flat (c : option (arr F)) (cols i j : nat) : F :=
    match c with
    | None => f0 O
    | Some c' => nth ((i * cols + j) mod length (vals c')) (vals c') (f0 O)
    end.

  Definition bias_admissible (c : option (arr F)) (rows cols : nat) : Prop :=
    match c with
    | None => True
    | Some c' => wf c' /\ length (dims c') <= 2 /\ bias_ok c' rows cols = true
    end.

  Lemma wf_zeros1 : wf (zeros1 O).
  Proof. split; cbn; [constructor; [lia|constructor]|reflexivity]. Qed.

  Lemma wf_vals_nonempty : forall (c : arr F), wf c -> vals c <> [].
  Proof.
    intros c [Hp Hl] E. rewrite E in Hl. cbn [length] in Hl.
    pose proof (prod_pos _ Hp). lia.
  Qed.

  Lemma oblock_getd : forall (a : arr F) d tr lead I J,
      dims a = d ++ tr -> sub_lead d lead -> in_range I lead -> in_range J tr ->
      nth (rowmajor tr J) (oblock (length tr) lead (rowmajor lead I) a) (f0 O)
      = getd a (bclamp d I ++ J).
  Proof.
    intros a d tr lead I J Ea Hs HI HJ. unfold getd.
    rewrite !nth_nth_error, (oblock_get a d tr lead I J) by assumption. reflexivity.
  Qed.

  (** the post-condition shared by all the value theorems: [ct i j] is the additive term *)
  Definition matmul_post (a : arr F) (ta : bool) (b : arr F) (tb : bool) (c : option (arr F))
             (la lb : list nat) (rows cols inner : nat) (ct : nat -> nat -> F) : Prop :=
    exists r,
      a_matmul O a ta b tb c = Some r /\ wf r /\ dims r = bmax la lb ++ [rows; cols] /\
      forall J i j, in_range J (bmax la lb) -> i < rows -> j < cols ->
        (forall k, k < inner ->
                   in_range (a_idx ta la J i k) (dims a) /\ in_range (b_idx tb lb J k j) (dims b)) /\
        get r (J ++ [i; j])
        = Some (fadd O (ct i j)
                     (vsum O (map (fun k => fmul O (getd a (a_idx ta la J i k))
                                                  (getd b (b_idx tb lb J k j)))
                                  (seq 0 inner)))).

  Theorem matmul_core : forall (a : arr F) ta (b : arr F) tb c la ar ac lb br bc,
      wf a -> wf b -> dims a = la ++ [ar; ac] -> dims b = lb ++ [br; bc] ->
      mm_inner_a ta ar ac = mm_inner_b tb br bc -> bcompat la lb ->
      bias_admissible c (mm_rows ta ar ac) (mm_cols tb br bc) ->
      matmul_post a ta b tb c la lb (mm_rows ta ar ac) (mm_cols tb br bc) (mm_inner_a ta ar ac)
                  (bias_flat c (mm_cols tb br bc)).
  Proof.
    intros a ta b tb c la ar ac lb br bc Hwa Hwb Ea Eb Hinner Hcomp Hbias.
    destruct (wf_snoc2 a la ar ac Hwa Ea) as (Hpla & Har & Hac & _).
    destruct (wf_snoc2 b lb br bc Hwb Eb) as (Hplb & Hbr & Hbc & _).
    set (rows := mm_rows ta ar ac) in *. set (cols := mm_cols tb br bc) in *.
    set (n := mm_inner_a ta ar ac) in *. set (lead := bmax la lb).
    assert (Hrows : 1 <= rows) by (unfold rows, mm_rows; destruct ta; assumption).
    assert (Hcols : 1 <= cols) by (unfold cols, mm_cols; destruct tb; assumption).
    assert (Hga : ar * ac = rows * n) by (unfold rows, n, mm_rows, mm_inner_a; destruct ta; lia).
    assert (Hgb : br * bc = n * cols).
    { rewrite Hinner. unfold cols, mm_cols, mm_inner_b. destruct tb; lia. }
    assert (Hsa : sub_lead la lead) by (apply bmax_sub_lead_l; assumption).
    assert (Hsb : sub_lead lb lead) by (apply bmax_sub_lead_r; assumption).
    assert (Hlead : Forall (fun x => 1 <= x) lead) by (apply bmax_pos; assumption).
    assert (Hpd : Forall (fun x => 1 <= x) (lead ++ [rows; cols])).
    { apply Forall_app. split; [exact Hlead|]. repeat constructor; assumption. }
    (* the additive operand *)
    set (set_output := match c with Some _ => true | None => false end).
    set (c' := match c with Some c' => c' | None => zeros1 O end).
    assert (Hwc : wf c') by (unfold c'; destruct c as [c0|]; [apply Hbias|apply wf_zeros1]).
    assert (Hrc : length (dims c') <= 2).
    { unfold c'. destruct c as [c0|]; [apply Hbias|cbn; lia]. }
    assert (Hoa : wf a /\ sub_lead (lead_dims 2 a) lead)
      by (rewrite (lead_dims_snoc2 a la ar ac Ea); auto).
    assert (Hob : wf b /\ sub_lead (lead_dims 2 b) lead)
      by (rewrite (lead_dims_snoc2 b lb br bc Eb); auto).
    assert (Hoc : wf c' /\ sub_lead (lead_dims 2 c') lead) by (apply operand_whole; assumption).
    set (g := fun t => mm_block O set_output rows cols n ta tb
                                (oblock 2 lead t a) (oblock 2 lead t b) (vals c')).
    assert (Hg : forall t, t < prod lead -> length (g t) = prod [rows; cols]).
    { intros t _. unfold g, mm_block. rewrite map_length, seq_length. cbn [prod fold_right]. lia. }
    exists {| dims := lead ++ [rows; cols]; vals := concat (map g (seq 0 (prod lead))) |}.
    split; [|split; [apply tab_wf; assumption|split; [reflexivity|]]].
    - destruct (matmul_dims_rank2 la ar ac ta lb br bc tb) as (p & q & Hmd).
      unfold a_matmul.
      rewrite Ea, Eb, Hmd, (proj2 (element_wise_dimensions_spec _ _ _) (conj Hcomp eq_refl)).
      cbn [obind]. rewrite (proj2 (Nat.eqb_eq (mm_inner_a ta ar ac) _) Hinner).
      cbn [guard obind ms_rows ms_cols ms_sum ms_in ms_out].
      replace (match c with Some c0 => bias_ok c0 _ _ | None => true end) with true
        by (destruct c; [symmetry; apply Hbias|reflexivity]).
      cbn [guard obind].
      apply (sliced_op_tab O [a; b; c'] _ (bmax la lb ++ [p; q]) 2 lead [rows; cols] 0);
        try assumption.
      + exact (firstn_snoc2 lead p q).
      + constructor; [exact Hoa|]. constructor; [exact Hob|]. constructor; [exact Hoc|constructor].
      + intros t Ht. split; [|apply Hg; exact Ht]. cbn [map].
        rewrite (oblock_whole 2 lead t c' Hwc Hrc).
        replace (prod [rows; cols]) with (rows * cols) by (cbn [prod fold_right]; lia).
        apply matmul_sop_eq; [| |apply wf_vals_nonempty; exact Hwc].
        * rewrite oblock_length by (try apply Hoa; exact Hlead).
          rewrite (group_length_snoc2 a la ar ac Ea). exact Hga.
        * rewrite oblock_length by (try apply Hob; exact Hlead).
          rewrite (group_length_snoc2 b lb br bc Eb). exact Hgb.
      + reflexivity.
      + apply prod_app.
    - intros J i j HJ Hi Hj. split.
      + assert (Hra : in_range (bclamp la J) la) by (apply (bclamp_in_range la lead); assumption).
        assert (Hrb : in_range (bclamp lb J) lb) by (apply (bclamp_in_range lb lead); assumption).
        intros k Hk. unfold a_idx, b_idx. rewrite Ea, Eb. split.
        * unfold rows, n, mm_rows, mm_inner_a in Hi, Hk.
          destruct ta; apply in_range_snoc2; assumption.
        * assert (Hk' : k < mm_inner_b tb br bc) by (rewrite <- Hinner; exact Hk).
          unfold cols, mm_cols, mm_inner_b in Hj, Hk'.
          destruct tb; apply in_range_snoc2; assumption.
      + rewrite (tab_get lead [rows; cols] g J [i; j] Hg HJ (in_range_pair _ _ _ _ Hi Hj)).
        rewrite rowmajor_pair. unfold g, mm_block. rewrite nth_error_map_seq by nia.
        destruct (divmod_pos i j cols Hj) as [-> ->]. unfold mm_value. f_equal. f_equal; [|f_equal].
        * unfold bias_entry, bias_flat, set_output, c'. destruct c; reflexivity.
        * apply map_ext_in. intros k Hk. apply in_seq in Hk.
          assert (Hk1 : k < n) by lia.
          assert (Hk2 : k < mm_inner_b tb br bc) by (rewrite <- Hinner; exact Hk1).
          f_equal.
          -- unfold a_idx, a_off. unfold rows, n, mm_rows, mm_inner_a in *.
             destruct ta; rewrite <- (oblock_getd a la [ar; ac] lead J _ Ea Hsa HJ), rowmajor_pair;
               try reflexivity; apply in_range_pair; assumption.
          -- unfold b_idx, b_off. rewrite Hinner. unfold cols, mm_cols, mm_inner_b in *.
             destruct tb; rewrite <- (oblock_getd b lb [br; bc] lead J _ Eb Hsb HJ), rowmajor_pair;
               try reflexivity; apply in_range_pair; assumption.
  Qed.

  Lemma matmul_post_ext : forall a ta b tb c la lb rows cols inner (ct1 ct2 : nat -> nat -> F),
      (forall i j, i < rows -> j < cols -> ct1 i j = ct2 i j) ->
      matmul_post a ta b tb c la lb rows cols inner ct1 ->
      matmul_post a ta b tb c la lb rows cols inner ct2.
  Proof.
    intros a ta b tb c la lb rows cols inner ct1 ct2 Hext (r & Hr & Hw & Hd & Hv).
    exists r. split; [exact Hr|]. split; [exact Hw|]. split; [exact Hd|].
    intros J i j HJ Hi Hj. destruct (Hv J i j HJ Hi Hj) as [H1 H2].
    split; [exact H1|]. rewrite <- (Hext i j Hi Hj). exact H2.
  Qed.

  Theorem matmul_spec_nobias : forall (a : arr F) ta (b : arr F) tb la ar ac lb br bc,
      wf a -> wf b -> dims a = la ++ [ar; ac] -> dims b = lb ++ [br; bc] ->
      mm_inner_a ta ar ac = mm_inner_b tb br bc -> bcompat la lb ->
      matmul_post a ta b tb None la lb (mm_rows ta ar ac) (mm_cols tb br bc) (mm_inner_a ta ar ac)
                  (fun _ _ => f0 O).
  Proof.
    intros a ta b tb la ar ac lb br bc Hwa Hwb Ea Eb Hinner Hcomp.
    exact (matmul_core a ta b tb None la ar ac lb br bc Hwa Hwb Ea Eb Hinner Hcomp I).
  Qed.

  Theorem matmul_refuses : forall (a : arr F) ta (b : arr F) tb c la ar ac lb br bc,
      dims a = la ++ [ar; ac] -> dims b = lb ++ [br; bc] ->
      mm_inner_a ta ar ac <> mm_inner_b tb br bc \/ ~ bcompat la lb ->
      a_matmul O a ta b tb c = None.
  Proof.
    intros a ta b tb c la ar ac lb br bc Ea Eb H. unfold a_matmul. rewrite Ea, Eb.
    destruct (matmul_dims_rank2 la ar ac ta lb br bc tb) as (p & q & ->).
    destruct (element_wise_dimensions la lb) as [lead|] eqn:E; cbn [obind]; [|reflexivity].
    destruct H as [H|H].
    - apply Nat.eqb_neq in H. rewrite H. reflexivity.
    - apply element_wise_dimensions_refuses in H. congruence.
  Qed.

  Lemma matmul_dims_dot : forall n m,
      matmul_dims [n] false [m] false =
      (check (n =? m) ;;
       Some {| ms_in := [n]; ms_out := [1]; ms_rows := 1; ms_cols := 1; ms_sum := n |}).
  Proof.
    intros n m. unfold matmul_dims. cbv zeta. cbn.
    destruct (guard (n =? m)) as [[]|]; reflexivity.
  Qed.

  Lemma slice_all : forall {A} (l : list A) g, g = length l -> slice 0 g l = Some l.
  Proof.
    intros A l g ->. unfold slice. cbn [Nat.add skipn]. rewrite Nat.leb_refl, firstn_all. reflexivity.
  Qed.

  Lemma group_length_vec : forall (a : arr F) n, wf a -> dims a = [n] -> group_length 2 a = length (vals a).
  Proof.
    intros a n [_ Hl] E. rewrite group_length_whole by (rewrite E; cbn; lia). exact Hl.
  Qed.

  Theorem matmul_dot : forall (a b : arr F) n,
      wf a -> wf b -> dims a = [n] -> dims b = [n] ->
      a_matmul O a false b false None
      = Some {| dims := [1];
                vals := [fadd O (f0 O)
                              (vsum O (map (fun k => fmul O (getd a [k]) (getd b [k]))
                                           (seq 0 n)))] |} /\
      forall k, k < n -> get a [k] = Some (getd a [k]) /\ get b [k] = Some (getd b [k]).
  Proof.
    intros a b n Hwa Hwb Ea Eb. split.
    - assert (Hra : length (dims a) <= 2) by (rewrite Ea; cbn; lia).
      assert (Hrb : length (dims b) <= 2) by (rewrite Eb; cbn; lia).
      assert (Hla : length (vals a) = 1 * n)
        by (destruct Hwa as [_ H]; rewrite Ea in H; cbn [prod fold_right] in H; lia).
      assert (Hlb : length (vals b) = n * 1)
        by (destruct Hwb as [_ H]; rewrite Eb in H; cbn [prod fold_right] in H; lia).
      unfold a_matmul. rewrite Ea, Eb, matmul_dims_dot, Nat.eqb_refl.
      cbn [guard obind ms_in ms_out ms_rows ms_cols ms_sum].
      (* no leading dimensions: a single iteration over the whole operands *)
      rewrite (sliced_op_tab O [a; b; zeros1 O] _ [n] 2 [] [1] 0 [1]
                 (fun _ => mm_block O false 1 1 n false false (vals a) (vals b) [f0 O])).
      + cbn [prod fold_right seq map concat]. rewrite app_nil_r.
        unfold mm_block. cbn [Nat.mul Nat.add seq map].
        rewrite Nat.div_0_l, Nat.mod_0_l by lia.
        unfold mm_value, bias_entry. do 5 f_equal.
        apply map_ext. intros k. unfold a_off, b_off, getd.
        rewrite Ea, Eb, !rowmajor_single, Nat.mul_1_r, Nat.add_0_r. reflexivity.
      + reflexivity.
      + constructor.
      + constructor; [apply operand_whole; assumption|].
        constructor; [apply operand_whole; assumption|].
        constructor; [apply operand_whole; [apply wf_zeros1|cbn; lia]|constructor].
      + intros t _. cbn [map].
        rewrite !oblock_whole by (assumption || apply wf_zeros1 || (cbn; lia)).
        split; [|reflexivity]. apply (matmul_sop_eq O false 1 1 n); [exact Hla|exact Hlb|discriminate].
      + reflexivity.
      + constructor; [lia|constructor].
      + reflexivity.
    - intros k Hk. split; apply get_getd; try assumption.
      + rewrite Ea. constructor; [exact Hk|constructor].
      + rewrite Eb. constructor; [exact Hk|constructor].
  Qed.

  Theorem matmul_dot_refuses : forall (a b : arr F) c n m,
      dims a = [n] -> dims b = [m] -> n <> m -> a_matmul O a false b false c = None.
  Proof.
    intros a b c n m Ea Eb H. unfold a_matmul. rewrite Ea, Eb, matmul_dims_dot.
    apply Nat.eqb_neq in H. rewrite H. reflexivity.
  Qed.

  (** ** [sliced_op] does not look at the last two entries of [in_dims], and an operand of
      rank at most 2 enters only through its values *)

  Lemma operand_slice_low_any : forall lc idx (c : arr F),
      length (dims c) <= 2 -> length idx = lc ->
      operand_slice 2 lc idx c = slice 0 (prod (dims c)) (vals c).
  Proof.
    intros lc idx c Hr Hl. unfold operand_slice. cbv zeta.
    replace (length (dims c) - 2) with 0 by lia. rewrite Nat.sub_0_r.
    rewrite skipn_all2 by lia. rewrite group_length_whole by exact Hr.
    unfold clamp_fold, clamp_horner. cbn [combine fold_left]. rewrite Nat.mul_0_r. reflexivity.
  Qed.

  Definition same_slices (a a' : arr F) : Prop :=
    a = a' \/
    (length (dims a) <= 2 /\ length (dims a') <= 2 /\ prod (dims a) = prod (dims a') /\
     vals a = vals a').

  Lemma sliced_op_congr : forall (arrays arrays' : list (arr F)) (op : @sop F) lead p q p' q' x y,
      Forall (fun v => 1 <= v) lead -> Forall2 same_slices arrays arrays' ->
      sliced_op O arrays op (lead ++ [p; q]) (lead ++ [x; y]) 2 0
      = sliced_op O arrays' op (lead ++ [p'; q']) (lead ++ [x; y]) 2 0.
  Proof.
    intros arrays arrays' op lead p q p' q' x y Hlead H2.
    assert (Hv : forallb (sliced_valid 2 (lead ++ [p; q])) arrays
                 = forallb (sliced_valid 2 (lead ++ [p'; q'])) arrays').
    { induction H2 as [|a a' l l' Ha _ IH]; [reflexivity|]. cbn [forallb]. rewrite IH. f_equal.
      destruct Ha as [<-|(Hr & Hr' & _)].
      - unfold sliced_valid. rewrite !rev_app_distr. reflexivity.
      - rewrite !sliced_valid_low by assumption. reflexivity. }
    assert (Hs : forall t, mapM (operand_slice 2 (length lead) (unrank lead t)) arrays
                           = mapM (operand_slice 2 (length lead) (unrank lead t)) arrays').
    { clear Hv. intros t. induction H2 as [|a a' l l' Ha _ IH]; [reflexivity|]. cbn [mapM]. rewrite IH.
      destruct Ha as [<-|(Hr & Hr' & Hp & Hvals)]; [reflexivity|].
      rewrite !operand_slice_low_any by (assumption || apply unrank_length).
      rewrite Hp, Hvals. reflexivity. }
    rewrite !sliced_op_unfold. cbv zeta. rewrite Hv.
    destruct (guard (forallb (sliced_valid 2 (lead ++ [p'; q'])) arrays')) as [[]|];
      cbn [obind]; [|reflexivity].
    rewrite !length_snoc2, !Nat.add_sub, !firstn_app_len.
    rewrite !(sliced_loop_bstep op _ 2 (length lead) lead (lead ++ [x; y]) _ Hlead eq_refl
                                (firstn_app_len lead [x; y])).
    set (ogl := prod (skipn (length lead) (lead ++ [x; y]))).
    rewrite (iterM_ext (bstep ogl (sliced_block op arrays 2 (length lead) lead))
                       (bstep ogl (sliced_block op arrays' 2 (length lead) lead)));
      [reflexivity|].
    intros t s _. unfold bstep, sliced_block. rewrite Hs. reflexivity.
  Qed.

  Lemma sliced_op_first_fails : forall (arrays : list (arr F)) (op : @sop F) lead p q x y,
      Forall (fun v => 1 <= v) lead ->
      (forall slices cur,
          mapM (operand_slice 2 (length lead) (unrank lead 0)) arrays = Some slices ->
          op cur slices = None) ->
      sliced_op O arrays op (lead ++ [p; q]) (lead ++ [x; y]) 2 0 = None.
  Proof.
    intros arrays op lead p q x y Hlead H.
    destruct (sliced_op O arrays op (lead ++ [p; q]) (lead ++ [x; y]) 2 0) as [r|] eqn:E;
      [exfalso|reflexivity].
    pose proof (sliced_op_nonacc O arrays op (lead ++ [p; q]) (lead ++ [x; y]) 2 0 r) as S.
    cbv zeta in S.
    rewrite length_snoc2, Nat.add_sub, !firstn_app_len in S.
    apply (proj1 (S eq_refl Hlead)) in E. destruct E as (_ & out & _ & Hb & _).
    pose proof (prod_pos lead Hlead) as Hp.
    destruct (Hb 0 ltac:(lia)) as (slices & Hs & Hop).
    rewrite (H slices _ Hs) in Hop. discriminate.
  Qed.

  Lemma sliced_op_dims : forall (arrays : list (arr F)) (op : @sop F) in_dims out_dims k r,
      sliced_op O arrays op in_dims out_dims k 0 = Some r -> dims r = out_dims.
  Proof.
    intros arrays op in_dims out_dims k r H. apply (sliced_op_shape O _ _ _ _ _ _ H).
  Qed.

  Lemma a_matmul_dims : forall (a : arr F) ta (b : arr F) tb c r,
      a_matmul O a ta b tb c = Some r ->
      exists sh, matmul_dims (dims a) ta (dims b) tb = Some sh /\ dims r = ms_out sh.
  Proof.
    intros a ta b tb c r H. unfold a_matmul in H.
    revert H. apply obind_elim. intros sh Hsh H.
    revert H. apply obind_elim. intros _ _ H.
    exists sh. split; [exact Hsh|]. eapply sliced_op_dims. exact H.
  Qed.

  Lemma matmul_fwd_inv : forall (a : arr F) ta (b : arr F) tb c v la ar ac lb br bc,
      dims a = la ++ [ar; ac] -> dims b = lb ++ [br; bc] ->
      a_matmul O a ta b tb c = Some v ->
      mm_inner_a ta ar ac = mm_inner_b tb br bc /\ bcompat la lb /\
      dims v = bmax la lb ++ [mm_rows ta ar ac; mm_cols tb br bc].
  Proof.
    intros a ta b tb c v la ar ac lb br bc Ea Eb H.
    destruct (a_matmul_dims a ta b tb c v H) as (sh & Hsh & Hdv).
    destruct (matmul_dims_rank2 la ar ac ta lb br bc tb) as (p & q & Hmd).
    rewrite Ea, Eb, Hmd in Hsh.
    revert Hsh. apply obind_elim. intros lead Hl Hsh.
    revert Hsh. apply obind_elim. intros [] Hg Hsh. injection Hsh as <-.
    apply element_wise_dimensions_spec in Hl. destruct Hl as (Hc & ->).
    apply guard_some_iff, Nat.eqb_eq in Hg. split; [exact Hg |]. split; [exact Hc | exact Hdv].
  Qed.

  Lemma matmul_post_flat : forall a ta b tb c la lb rows cols inner ct r,
      matmul_post a ta b tb c la lb rows cols inner ct -> a_matmul O a ta b tb c = Some r ->
      Forall (fun x => 1 <= x) (bmax la lb) ->
      wf r /\ dims r = bmax la lb ++ [rows; cols] /\
      forall t i j, t < prod (bmax la lb) -> i < rows -> j < cols ->
        nth (rows * cols * t + (cols * i + j)) (vals r) (f0 O)
        = fadd O (ct i j)
               (vsum O (map (fun k => fmul O (getd a (a_idx ta la (unrank (bmax la lb) t) i k))
                                             (getd b (b_idx tb lb (unrank (bmax la lb) t) k j)))
                            (seq 0 inner))).
  Proof.
    intros a ta b tb c la lb rows cols inner ct r (r' & Hr & Hw & Hd & Hent) E Hl.
    rewrite E in Hr. injection Hr as <-. split; [exact Hw|]. split; [exact Hd|].
    intros t i j Ht Hi Hj.
    destruct (Hent (unrank (bmax la lb) t) i j (unrank_lt _ t Hl) Hi Hj) as [_ Hg].
    unfold get in Hg. apply (nth_error_nth _ _ (f0 O)) in Hg. rewrite <- Hg, Hd. f_equal.
    rewrite rowmajor_snoc2, rowmajor_unrank by (try assumption; rewrite unrank_length; reflexivity).
    lia.
  Qed.

  Lemma matmul_slice_fails : forall rows cols n ta tb (cur sa sb : list F) k,
      1 <= rows -> 1 <= cols -> k < n ->
      length sa <= a_off rows n ta 0 k \/ length sb <= b_off cols n tb k 0 ->
      matmul_slice O rows cols n ta tb cur sa sb = None.
  Proof.
    intros rows cols n ta tb cur sa sb k Hr Hc Hk Hoob. unfold matmul_slice.
    apply (mapM_none_in _ _ 0); [apply in_seq; nia|].
    rewrite Nat.div_0_l, Nat.mod_0_l by lia.
    rewrite (mapM_none_in _ (seq 0 n) k); [reflexivity|apply in_seq; lia|].
    fold (a_off rows n ta 0 k). fold (b_off cols n tb k 0).
    destruct Hoob as [H|H].
    - apply nth_error_None in H. rewrite H. reflexivity.
    - apply nth_error_None in H. rewrite H.
      destruct (nth_error sa (a_off rows n ta 0 k)); reflexivity.
  Qed.
End MatmulSpec.

Lemma leb1_snoc2 : forall {A} (l : list A) x y, (length (l ++ [x; y]) <=? 1) = false.
Proof. intros. rewrite length_snoc2. apply Nat.leb_gt. lia. Qed.

Lemma matmul_dims_vec_l : forall n ta lb br bc tb,
    matmul_dims [n] ta (lb ++ [br; bc]) tb =
    (check (if ta then true else n =? mm_inner_b tb br bc) ;;
     Some {| ms_in := lb ++ [br; bc];
             ms_out := lb ++ [if ta then n else 1; mm_cols tb br bc];
             ms_rows := if ta then n else 1; ms_cols := mm_cols tb br bc;
             ms_sum := if ta then mm_inner_b tb br bc else n |}).
Proof.
  intros n ta lb br bc tb. unfold matmul_dims. cbv zeta.
  change (length [n]) with 1. change (firstn (1 - 2) [n]) with (@nil nat).
  rewrite firstn_snoc2, ewd_nil_l. cbn [obind].
  rewrite leb1_snoc2, lastn2_snoc2, firstn_snoc2, !ltb_snoc2.
  change (1 <? 2) with true. cbn [andb orb].
  rewrite orb_false_r.
  rewrite dim_back_snoc2_21, dim_back_snoc2_12, (leb_snoc2 lb br bc) by (destruct tb; lia).
  destruct ta; cbn [negb obind].
  - change (dim_back [n] 1) with (Some n). change (1 <? 2) with true. cbn [obind guard]. reflexivity.
  - change (1 <? 1) with false. change (dim_back [n] 1) with (Some n). cbn [obind].
    destruct (guard (n =? _)) as [[]|]; reflexivity.
Qed.

Lemma matmul_dims_vec_r : forall la ar ac ta n tb,
    matmul_dims (la ++ [ar; ac]) ta [n] tb =
    (check (if tb then mm_inner_a ta ar ac =? n else true) ;;
     Some {| ms_in := la ++ [ar; ac];
             ms_out := la ++ [mm_rows ta ar ac; if tb then 1 else n];
             ms_rows := mm_rows ta ar ac; ms_cols := if tb then 1 else n;
             ms_sum := mm_inner_a ta ar ac |}).
Proof.
  intros la ar ac ta n tb. unfold matmul_dims. cbv zeta.
  change (length [n]) with 1. change (firstn (1 - 2) [n]) with (@nil nat).
  rewrite firstn_snoc2, ewd_nil_r. cbn [obind].
  rewrite (leb_snoc2 la ar ac 1) by lia. rewrite lastn2_snoc2, firstn_snoc2, !ltb_snoc2.
  change (1 <? 2) with true. cbn [andb orb]. rewrite orb_false_r.
  assert (Ea : (length (la ++ [ar; ac]) <? (if ta then 2 else 1)) = false).
  { rewrite length_snoc2. apply Nat.ltb_ge. destruct ta; lia. }
  rewrite dim_back_snoc2_12, dim_back_snoc2_21, Ea, (leb_snoc2 la ar ac 2) by lia.
  destruct tb; cbn [obind].
  - change (1 <=? 1) with true. change (dim_back [n] 1) with (Some n). cbn [obind].
    destruct (guard (_ =? n)) as [[]|]; reflexivity.
  - change (2 <=? 1) with false. change (dim_back [n] 1) with (Some n). cbn [obind guard]. reflexivity.
Qed.

Section Vec.
  Context {F : Type} (O : ScalarOps F).

  Definition mm_tail (a : arr F) (ta : bool) (b : arr F) (tb : bool) (c : option (arr F))
             (sh : matmul_shape) : option (arr F) :=
    check (match c with Some c' => bias_ok c' (ms_rows sh) (ms_cols sh) | None => true end) ;;
    sliced_op O [a; b; match c with Some c' => c' | None => zeros1 O end]
              (matmul_sop O (match c with Some _ => true | None => false end)
                          (ms_rows sh) (ms_cols sh) (ms_sum sh) ta tb)
              (ms_in sh) (ms_out sh) 2 0.

  Lemma a_matmul_tail : forall a ta b tb c,
      a_matmul O a ta b tb c
      = (sh <- matmul_dims (dims a) ta (dims b) tb ;; mm_tail a ta b tb c sh).
  Proof. reflexivity. Qed.

  Lemma mm_tail_congr : forall a a' ta b b' tb c lead p q p' q' x y rows cols n,
      Forall (fun v => 1 <= v) lead -> same_slices a a' -> same_slices b b' ->
      mm_tail a ta b tb c {| ms_in := lead ++ [p; q]; ms_out := lead ++ [x; y];
                             ms_rows := rows; ms_cols := cols; ms_sum := n |}
      = mm_tail a' ta b' tb c {| ms_in := lead ++ [p'; q']; ms_out := lead ++ [x; y];
                                ms_rows := rows; ms_cols := cols; ms_sum := n |}.
  Proof.
    intros a a' ta b b' tb c lead p q p' q' x y rows cols n Hlead Ha Hb.
    unfold mm_tail. cbn [ms_in ms_out ms_rows ms_cols ms_sum].
    destruct (guard _) as [[]|]; cbn [obind]; [|reflexivity].
    apply sliced_op_congr; [exact Hlead|]. constructor; [exact Ha|]. constructor; [exact Hb|].
    constructor; [left; reflexivity|constructor].
  Qed.

  Lemma mapM3_inv : forall {A B} (f : A -> option B) x y z l,
      mapM f [x; y; z] = Some l ->
      exists u v w, f x = Some u /\ f y = Some v /\ f z = Some w /\ l = [u; v; w].
  Proof.
    intros A B f x y z l H. cbn [mapM] in H.
    destruct (f x) as [u|]; cbn [obind] in H; [|discriminate].
    destruct (f y) as [v|]; cbn [obind] in H; [|discriminate].
    destruct (f z) as [w|]; cbn [obind] in H; [|discriminate].
    inversion H. exists u, v, w. auto.
  Qed.

  (** an operand of rank at most 2 that is too short for the first inner product: the first
      iteration reads out of bounds *)
  Lemma mm_tail_short : forall a ta b tb c lead p q x y rows cols n k,
      Forall (fun v => 1 <= v) lead -> 1 <= rows -> 1 <= cols -> k < n ->
      (length (dims a) <= 2 /\ prod (dims a) <= a_off rows n ta 0 k) \/
      (length (dims b) <= 2 /\ prod (dims b) <= b_off cols n tb k 0) ->
      mm_tail a ta b tb c {| ms_in := lead ++ [p; q]; ms_out := lead ++ [x; y];
                             ms_rows := rows; ms_cols := cols; ms_sum := n |} = None.
  Proof.
    intros a ta b tb c lead p q x y rows cols n k Hlead Hr Hc Hk H.
    unfold mm_tail. cbn [ms_in ms_out ms_rows ms_cols ms_sum].
    destruct (guard _) as [[]|]; cbn [obind]; [|reflexivity].
    apply sliced_op_first_fails; [exact Hlead|]. intros slices cur Hs.
    apply mapM3_inv in Hs. destruct Hs as (sa & sb & sc & Hsa & Hsb & _ & ->).
    apply operand_slice_length in Hsa, Hsb.
    unfold matmul_sop. apply (matmul_slice_fails O _ _ _ _ _ _ _ _ k); try assumption.
    destruct H as [[Hrk H]|[Hrk H]]; [left; rewrite Hsa|right; rewrite Hsb];
      rewrite group_length_whole by exact Hrk; exact H.
  Qed.

  Lemma reshape_row_slices : forall (a : arr F) n,
      dims a = [n] -> same_slices a {| dims := [1; n]; vals := vals a |}.
  Proof. intros a n E. right. rewrite E. cbn. repeat split; lia. Qed.

  (** (a): a rank-1 [a] is the one-row matrix [[1; n]] *)
  Theorem matmul_vec_l : forall (a : arr F) ta (b : arr F) tb c n lb br bc,
      wf a -> wf b -> dims a = [n] -> dims b = lb ++ [br; bc] ->
      a_matmul O a ta b tb c = a_matmul O {| dims := [1; n]; vals := vals a |} ta b tb c.
  Proof.
    intros a ta b tb c n lb br bc Hwa Hwb Ea Eb.
    destruct (wf_snoc2 b lb br bc Hwb Eb) as (Hplb & Hbr & Hbc & _).
    assert (Hn : 1 <= n).
    { destruct Hwa as [Hp _]. rewrite Ea in Hp. inversion Hp; assumption. }
    destruct (matmul_dims_rank2 [] 1 n ta lb br bc tb) as (p & q & Hmd).
    rewrite ewd_nil_l in Hmd. cbn [app obind] in Hmd.
    rewrite !a_matmul_tail. cbn [dims]. rewrite Ea, Eb, Hmd, matmul_dims_vec_l. clear Hmd.
    destruct ta; unfold mm_rows, mm_inner_a; cbn [guard obind].
    - (* the code does not compare the single column of [a] with the inner dimension of [b] *)
      destruct (Nat.eq_dec (mm_inner_b tb br bc) 1) as [E1|E1].
      + rewrite E1. cbn [Nat.eqb guard obind].
        apply mm_tail_congr; [exact Hplb|apply reshape_row_slices; exact Ea|left; reflexivity].
      + rewrite (proj2 (Nat.eqb_neq 1 _)) by lia. cbn [guard obind].
        apply (mm_tail_short _ _ _ _ _ _ _ _ _ _ _ _ _ 1); try assumption.
        * unfold mm_cols. destruct tb; assumption.
        * assert (1 <= mm_inner_b tb br bc) by (unfold mm_inner_b; destruct tb; assumption). lia.
        * left. rewrite Ea. cbn. unfold a_off. lia.
    - destruct (guard (n =? _)) as [[]|]; cbn [obind]; [|reflexivity].
      apply mm_tail_congr; [exact Hplb|apply reshape_row_slices; exact Ea|left; reflexivity].
  Qed.

  (** (b): a rank-1 [b] is the one-row matrix [[1; n]] *)
  Theorem matmul_vec_r : forall (a : arr F) ta (b : arr F) tb c n la ar ac,
      wf a -> wf b -> dims a = la ++ [ar; ac] -> dims b = [n] ->
      a_matmul O a ta b tb c = a_matmul O a ta {| dims := [1; n]; vals := vals b |} tb c.
  Proof.
    intros a ta b tb c n la ar ac Hwa Hwb Ea Eb.
    destruct (wf_snoc2 a la ar ac Hwa Ea) as (Hpla & Har & Hac & _).
    assert (Hn : 1 <= n).
    { destruct Hwb as [Hp _]. rewrite Eb in Hp. inversion Hp; assumption. }
    destruct (matmul_dims_rank2 la ar ac ta [] 1 n tb) as (p & q & Hmd).
    rewrite ewd_nil_r in Hmd. cbn [app obind] in Hmd.
    rewrite !a_matmul_tail. cbn [dims]. rewrite Ea, Eb, Hmd, matmul_dims_vec_r. clear Hmd.
    destruct tb; unfold mm_cols, mm_inner_b; cbn [guard obind].
    - destruct (guard (_ =? n)) as [[]|]; cbn [obind]; [|reflexivity].
      apply mm_tail_congr; [exact Hpla|left; reflexivity|apply reshape_row_slices; exact Eb].
    - (* the code does not compare the inner dimension of [a] with the single row of [b] *)
      destruct (Nat.eq_dec (mm_inner_a ta ar ac) 1) as [E1|E1].
      + rewrite E1. cbn [Nat.eqb guard obind].
        apply mm_tail_congr; [exact Hpla|left; reflexivity|apply reshape_row_slices; exact Eb].
      + rewrite (proj2 (Nat.eqb_neq _ 1)) by lia. cbn [guard obind].
        apply (mm_tail_short _ _ _ _ _ _ _ _ _ _ _ _ _ 1); try assumption.
        * unfold mm_rows. destruct ta; assumption.
        * assert (1 <= mm_inner_a ta ar ac) by (unfold mm_inner_a; destruct ta; assumption). lia.
        * right. rewrite Eb. cbn. unfold b_off. lia.
  Qed.
End Vec.

Section VecValues.
  Context {F : Type} (O : ScalarOps F).

  Corollary matmul_vec_l_dims : forall (a : arr F) ta (b : arr F) tb c n lb br bc r,
      dims a = [n] -> dims b = lb ++ [br; bc] ->
      a_matmul O a ta b tb c = Some r ->
      dims r = lb ++ [if ta then n else 1; mm_cols tb br bc].
  Proof.
    intros a ta b tb c n lb br bc r Ea Eb H.
    apply a_matmul_dims in H. destruct H as (sh & Hsh & ->).
    rewrite Ea, Eb, matmul_dims_vec_l in Hsh.
    revert Hsh. apply obind_elim. intros _ _ Hsh. inversion Hsh. reflexivity.
  Qed.

  Corollary matmul_vec_r_dims : forall (a : arr F) ta (b : arr F) tb c n la ar ac r,
      dims a = la ++ [ar; ac] -> dims b = [n] ->
      a_matmul O a ta b tb c = Some r ->
      dims r = la ++ [mm_rows ta ar ac; if tb then 1 else n].
  Proof.
    intros a ta b tb c n la ar ac r Ea Eb H.
    apply a_matmul_dims in H. destruct H as (sh & Hsh & ->).
    rewrite Ea, Eb, matmul_dims_vec_r in Hsh.
    revert Hsh. apply obind_elim. intros _ _ Hsh. inversion Hsh. reflexivity.
  Qed.

  Lemma wf_reshape_row : forall (a : arr F) n,
      wf a -> dims a = [n] -> wf {| dims := [1; n]; vals := vals a |}.
  Proof.
    intros a n [Hp Hl] E. rewrite E in Hp, Hl. inversion Hp as [|? ? Hn _]; subst.
    split; cbn [dims vals].
    - repeat constructor; lia.
    - rewrite <- Hl. cbn [prod fold_right]. lia.
  Qed.

  Lemma getd_reshape_row : forall (a : arr F) n k,
      dims a = [n] -> getd O {| dims := [1; n]; vals := vals a |} [0; k] = getd O a [k].
  Proof.
    intros a n k E. unfold getd. rewrite E. cbn [dims vals rowmajor prod fold_right]. f_equal.
  Qed.

  Corollary matmul_vec_l_value : forall (a : arr F) (b : arr F) tb n lb br bc,
      wf a -> wf b -> dims a = [n] -> dims b = lb ++ [br; bc] -> n = mm_inner_b tb br bc ->
      exists r,
        a_matmul O a false b tb None = Some r /\ wf r /\
        dims r = lb ++ [1; mm_cols tb br bc] /\
        forall J j, in_range J lb -> j < mm_cols tb br bc ->
          (forall k, k < n -> in_range [k] (dims a) /\ in_range (b_idx tb lb J k j) (dims b)) /\
          get r (J ++ [0; j])
          = Some (fadd O (f0 O)
                       (vsum O (map (fun k => fmul O (getd O a [k]) (getd O b (b_idx tb lb J k j)))
                                    (seq 0 n)))).
  Proof.
    intros a b tb n lb br bc Hwa Hwb Ea Eb Hn.
    rewrite (matmul_vec_l O a false b tb None n lb br bc Hwa Hwb Ea Eb).
    set (a' := {| dims := [1; n]; vals := vals a |}).
    destruct (matmul_spec_nobias O a' false b tb [] 1 n lb br bc) as (r & Hr & Hw & Hd & Hv);
      try assumption.
    - apply wf_reshape_row; assumption.
    - reflexivity.
    - exact I.
    - exists r. rewrite bmax_nil_l in Hd, Hv. cbn [mm_rows mm_inner_a] in Hd, Hv.
      split; [exact Hr|]. split; [exact Hw|]. split; [exact Hd|].
      intros J j HJ Hj. destruct (Hv J 0 j HJ ltac:(lia) Hj) as [H1 H2]. split.
      + intros k Hk. destruct (H1 k Hk) as [_ Hb]. split; [|exact Hb].
        rewrite Ea. constructor; [exact Hk|constructor].
      + rewrite H2. f_equal. f_equal. f_equal. apply map_ext. intros k.
        unfold a_idx. rewrite bclamp_nil. cbn [app].
        unfold a'. rewrite (getd_reshape_row a n k Ea). reflexivity.
  Qed.

  Corollary matmul_vec_r_value : forall (a : arr F) ta (b : arr F) n la ar ac,
      wf a -> wf b -> dims a = la ++ [ar; ac] -> dims b = [n] -> mm_inner_a ta ar ac = n ->
      exists r,
        a_matmul O a ta b true None = Some r /\ wf r /\
        dims r = la ++ [mm_rows ta ar ac; 1] /\
        forall J i, in_range J la -> i < mm_rows ta ar ac ->
          (forall k, k < n -> in_range (a_idx ta la J i k) (dims a) /\ in_range [k] (dims b)) /\
          get r (J ++ [i; 0])
          = Some (fadd O (f0 O)
                       (vsum O (map (fun k => fmul O (getd O a (a_idx ta la J i k)) (getd O b [k]))
                                    (seq 0 n)))).
  Proof.
    intros a ta b n la ar ac Hwa Hwb Ea Eb Hn.
    rewrite (matmul_vec_r O a ta b true None n la ar ac Hwa Hwb Ea Eb).
    set (b' := {| dims := [1; n]; vals := vals b |}).
    destruct (matmul_spec_nobias O a ta b' true la ar ac [] 1 n) as (r & Hr & Hw & Hd & Hv);
      try assumption.
    - apply wf_reshape_row; assumption.
    - reflexivity.
    - apply bcompat_sym. exact I.
    - exists r. rewrite bmax_nil_r in Hd, Hv. cbn [mm_cols] in Hd, Hv. rewrite Hn in Hv.
      split; [exact Hr|]. split; [exact Hw|]. split; [exact Hd|].
      intros J i HJ Hi. destruct (Hv J i 0 HJ Hi ltac:(lia)) as [H1 H2]. split.
      + intros k Hk. destruct (H1 k Hk) as [Ha _]. split; [exact Ha|].
        rewrite Eb. constructor; [exact Hk|constructor].
      + rewrite H2. f_equal. f_equal. f_equal. apply map_ext. intros k.
        unfold b_idx. rewrite bclamp_nil. cbn [app].
        unfold b'. rewrite (getd_reshape_row b n k Eb). reflexivity.
  Qed.
End VecValues.

Section Unified.
  Context {F : Type} (O : ScalarOps F).

  Inductive bias_shape (rows cols : nat) : option (arr F) -> Prop :=
  | bias_none : bias_shape rows cols None
  | bias_row : forall c, wf c -> dims c = [cols] -> bias_shape rows cols (Some c)
  | bias_full : forall c, wf c -> dims c = [rows; cols] -> bias_shape rows cols (Some c)
  | bias_row2 : forall c, wf c -> dims c = [1; cols] -> bias_shape rows cols (Some c)
  | bias_one : forall c, wf c -> dims c = [1] -> bias_shape rows cols (Some c).

  (** the additive term at [(i, j)]: absent = [f0]; otherwise [c] broadcast against
      [[rows; cols]], i.e. [c[j]], [c[i; j]], [c[0; j]], [c[0]] for the four shapes *)
  Definition cterm (c : option (arr F)) (i j : nat) : F :=
    match c with
    | None => f0 O
    | Some c' => getd O c' (bclamp (dims c') [i; j])
    end.

  Lemma bias_shape_admissible : forall rows cols c,
      bias_shape rows cols c -> bias_admissible c rows cols.
  Proof.
    intros rows cols c H. destruct H as [|c Hw E|c Hw E|c Hw E|c Hw E]; [exact I|..];
      (split; [exact Hw|split; [rewrite E; cbn; lia|]]); unfold bias_ok; rewrite E.
    - destruct (length (vals c) =? 1); [reflexivity|]. cbn. rewrite Nat.eqb_refl. reflexivity.
    - destruct (length (vals c) =? 1); [reflexivity|]. cbn.
      rewrite !Nat.eqb_refl, orb_true_r. reflexivity.
    - destruct (length (vals c) =? 1); [reflexivity|]. cbn. rewrite Nat.eqb_refl. reflexivity.
    - rewrite <- (proj2 Hw), E. reflexivity.
  Qed.

  (** the cycled flat read of the code is the broadcast read of the specification *)
  Lemma bias_flat_cterm : forall rows cols c i j,
      bias_shape rows cols c -> i < rows -> j < cols -> bias_flat O c cols i j = cterm c i j.
  Proof.
    intros rows cols c i j H Hi Hj.
    destruct H as [|c [_ Hl] E|c [_ Hl] E|c [_ Hl] E|c [_ Hl] E]; [reflexivity|..];
      unfold bias_flat, cterm, getd; rewrite <- Hl, E; f_equal.
    - rewrite bclamp_single, rowmajor_single, prod_single, cl_small by exact Hj.
      exact (proj2 (divmod_pos i j cols Hj)).
    - rewrite bclamp_pair, rowmajor_pair, !cl_small by assumption.
      apply Nat.mod_small. cbn [prod fold_right]. nia.
    - rewrite bclamp_pair, rowmajor_pair, (cl_small j cols Hj). change (cl (i, 1)) with 0.
      cbn [prod fold_right]. rewrite Nat.mul_1_l, Nat.mul_1_r. exact (proj2 (divmod_pos i j cols Hj)).
  Qed.

  Theorem matmul_spec : forall (a : arr F) ta (b : arr F) tb c la ar ac lb br bc,
      wf a -> wf b -> dims a = la ++ [ar; ac] -> dims b = lb ++ [br; bc] ->
      mm_inner_a ta ar ac = mm_inner_b tb br bc -> bcompat la lb ->
      bias_shape (mm_rows ta ar ac) (mm_cols tb br bc) c ->
      matmul_post O a ta b tb c la lb (mm_rows ta ar ac) (mm_cols tb br bc) (mm_inner_a ta ar ac)
                  (cterm c).
  Proof.
    intros a ta b tb c la ar ac lb br bc Hwa Hwb Ea Eb Hinner Hcomp Hc.
    apply (matmul_post_ext O _ _ _ _ _ _ _ _ _ _ (bias_flat O c (mm_cols tb br bc))).
    - intros i j Hi Hj. exact (bias_flat_cterm _ _ c i j Hc Hi Hj).
    - apply matmul_core; try assumption. apply bias_shape_admissible. exact Hc.
  Qed.

  Section Bias.
    Variables (a : arr F) (ta : bool) (b : arr F) (tb : bool) (c : arr F).
    Variables (la lb : list nat) (ar ac br bc : nat).
    Hypothesis (Hwa : wf a) (Hwb : wf b) (Hwc : wf c).
    Hypothesis (Ea : dims a = la ++ [ar; ac]) (Eb : dims b = lb ++ [br; bc]).
    Hypothesis (Hinner : mm_inner_a ta ar ac = mm_inner_b tb br bc) (Hcomp : bcompat la lb).

    Let rows := mm_rows ta ar ac.
    Let cols := mm_cols tb br bc.
    Let inner := mm_inner_a ta ar ac.

    Theorem matmul_spec_bias_row :
      dims c = [cols] ->
      matmul_post O a ta b tb (Some c) la lb rows cols inner (fun _ j => getd O c [j]) /\
      forall j, j < cols -> get c [j] = Some (getd O c [j]).
    Proof.
      intros Ec. split.
      - apply (matmul_post_ext O _ _ _ _ _ _ _ _ _ _ (cterm (Some c))).
        + intros i j Hi Hj. unfold cterm.
          rewrite Ec, bclamp_single, cl_small by exact Hj. reflexivity.
        + apply matmul_spec; try assumption. apply bias_row; assumption.
      - intros j Hj. apply get_getd; [exact Hwc|]. rewrite Ec.
        constructor; [exact Hj|constructor].
    Qed.
  End Bias.
End Unified.

Print Assumptions matmul_core.
Print Assumptions matmul_spec.
Print Assumptions matmul_spec_nobias.
Print Assumptions matmul_spec_bias_row.
Print Assumptions matmul_refuses.
Print Assumptions matmul_dot.
Print Assumptions matmul_dot_refuses.
Print Assumptions matmul_vec_l.
Print Assumptions matmul_vec_r.
Print Assumptions matmul_vec_l_dims.
Print Assumptions matmul_vec_r_dims.
Print Assumptions matmul_vec_l_value.
Print Assumptions matmul_vec_r_value.
