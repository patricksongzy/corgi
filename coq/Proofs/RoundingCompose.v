(** C19, closeness for COMPOSITIONS: rounding-error bounds for whole layer computations of
    the model run at a rounded-real instance ([rounded_ops emin prec], any precision and
    minimal exponent; binary32 = (-149, 24), binary64 = (-1074, 53)) against the same model
    run over the reals ([R_ops]).  Builds on Proofs/RoundingSpec.v.  Notation as there:
    [u = 2^(-prec)], [eta = 2^(emin-1)], [theta k = (1+u)^k - 1 <= gamma k = k u / (1 - k u)].

    Scalar tools: [close_terms k kap e E] (each [e_j] within relative [theta k] and absolute
    [kap] of [E_j]); [vsum_close_terms], [dot_close_terms] (left-fold sum / sum then addition
    onto a representable [c] of such terms: [theta (n-1+k)] resp. [theta (n+k)]);
    [rel_mul_th], [rel_rn_th] (propagation through a product / one rounding);
    [no_uflow], [rn_err_normal] (no underflow: purely relative rounding error).

    1. Dense layer forward [a_matmul x false w true (Some b)] (the call of [layer_forward]):
       [dense_rounding], [dense_rounding_gamma]:
       [|fl(out) - out| <= gamma (n+1) * (|b_j| + sum_k |x_ik| |w_jk|) + n * eta * (1 + gamma n)],
       and without the [eta] term when no product underflows.
    2. Mean squared error in the literal order of [cost_apply CMse] + [a_sum_all]
       ([a_mse], shown equal to the mathematical MSE over the reals, [a_mse_real]):
       [mse_rounding], [mse_rounding_gamma]:
       [|fl(mse) - mse| <= gamma (N+4) * mse + N * kappa * (1 + gamma (N-1))],
       [kappa = eta * ((1+u)^2 + 1)].
    3. Two formats, and binary32 against binary64: [dense_two_formats], [mse_two_formats],
       [dense_f32_f64], [mse_f32_f64].
    4. Softmax with a libm [exp] of relative accuracy [eps] on the data ([with_fexp]):
       [softmax_elem_err], [softmax_rounding] (each output within relative [softmax_rel n],
       rows sum to one within [softmax_rel n + n * eta]); the correctly rounded [fexp] of
       [rounded_ops] is an instance ([rounded_exp_ok], [softmax_rounding_ideal]).
    Non-vacuity: [dense_f32_example], [mse_f32_example], [softmax_f32_example].
    Not modelled (as in RoundingSpec.v): overflow, NaN/infinities, signed zeros.
    No axiom is declared here. *)

From Coq Require Import List Arith Bool Lia PeanoNat ZArith Reals Lra Psatz.
From Flocq Require Import Core Relative Plus_error.
From Corgi Require Import Lib.OptionMonad Lib.IdxDefs Lib.Idx Model.Scalar Model.RealScalar
     Model.RoundedScalar Model.Arr Model.SlicedOp Model.Elementwise Model.Ops Lib.Sums
     Proofs.ArrFacts Proofs.BroadcastDims Proofs.SpecDefs Proofs.SlicedOpSpec Proofs.EwSpec
     Proofs.ReduceSpec Proofs.FlattenSpec Model.Linalg Proofs.MatmulSpec Proofs.RealDerivs
     Proofs.RoundingSpec.
Import ListNotations.

Local Open Scope R_scope.

Section Compose.
  Variables emin prec : Z.
  Context {Hprec : Prec_gt_0 prec}.

  Notation fmt := (generic_format radix2 (FLT_exp emin prec)).
  Notation rn := (rnd emin prec).
  Notation O := (rounded_ops emin prec).
  Notation uu := (u prec).
  Notation ee := (eta emin).
  Notation th := (theta prec).
  Notation ga := (gamma prec).

  Lemma pow1u_theta : forall k, (1 + uu) ^ k = 1 + th k.
  Proof. intros k. unfold theta. ring. Qed.

  Lemma theta_add : forall j k, th (j + k) = (1 + th j) * (1 + th k) - 1.
  Proof. intros j k. unfold theta. rewrite pow_add. ring. Qed.

  Lemma theta_0 : th 0 = 0.
  Proof. unfold theta. cbn. ring. Qed.

  (** [e_j] approximates [E_j] with relative error [theta k] and absolute error [kap] *)
  Definition close_terms (k : nat) (kap : R) (e E : list R) : Prop :=
    Forall2 (fun ej Ej => Rabs (ej - Ej) <= th k * Rabs Ej + kap) e E.

  Lemma close_terms_length : forall k kap e E, close_terms k kap e E -> length e = length E.
  Proof. intros k kap e E H. apply (close_sums prec k kap e E H). Qed.

  Lemma close_terms_sums : forall k kap e E,
      close_terms k kap e E ->
      Rabs (rsum e - rsum E) <= th k * rsum (map Rabs E) + INR (length E) * kap /\
      rsum (map Rabs e) <= (1 + th k) * rsum (map Rabs E) + INR (length E) * kap.
  Proof. intros k kap e E H. apply (close_sums prec k kap e E H). Qed.

  Theorem vsum_close_terms : forall k kap e E,
      Forall (fun x => fmt x) e -> close_terms k kap e E -> 0 <= kap ->
      let n := length E in
      Rabs (vsum O e - rsum E)
      <= th (n - 1 + k) * rsum (map Rabs E) + INR n * kap * (1 + uu) ^ (n - 1).
  Proof. exact (vsum_close emin prec). Qed.

  (** ... followed by the rounded addition onto a representable [c] (the additive term of
      [matmul]): the element formula of a dense layer *)
  Theorem dot_close_terms : forall k kap c e E,
      fmt c -> Forall (fun x => fmt x) e -> close_terms k kap e E -> 0 <= kap ->
      let n := length E in
      Rabs (fadd O c (vsum O e) - (c + rsum E))
      <= th (n + k) * (Rabs c + rsum (map Rabs E)) + INR n * kap * (1 + uu) ^ n.
  Proof. exact (dot_close emin prec). Qed.

  (** the exact term is zero or in the normal range: its rounding does not underflow *)
  Definition no_uflow (x : R) : Prop := x = 0 \/ bpow radix2 (emin + prec - 1) <= Rabs x.

  Lemma rn_err_normal : forall x, no_uflow x -> Rabs (rn x - x) <= uu * Rabs x.
  Proof.
    intros x [->|Hx].
    - unfold rnd. rewrite round_0 by auto with typeclass_instances.
      rewrite Rminus_0_r, Rabs_R0. lra.
    - pose proof (relative_error_N_FLT radix2 emin prec Hprec (fun t => negb (Z.even t)) x Hx) as H.
      change (/ 2 * bpow radix2 (- prec + 1)) with (u_ro radix2 prec) in H.
      rewrite <- (u_u_ro prec) in H. exact H.
  Qed.

  Lemma rounded_close : forall t : list R,
      Forall (fun x => fmt x) (map rn t) /\ close_terms 1 ee (map rn t) t.
  Proof. exact (rounded_close_eta emin prec). Qed.

  Lemma rounded_close_normal : forall t : list R,
      Forall no_uflow t -> close_terms 1 0 (map rn t) t.
  Proof.
    intros t H. induction H as [|x t Hx _ IH]; cbn [map]; constructor; [|exact IH].
    rewrite (theta_1 prec), Rplus_0_r. apply rn_err_normal. exact Hx.
  Qed.

  (** one rounding of a value that carries a relative error [r] and an absolute error [kap] *)
  Lemma rel_rn : forall r x x' kap,
      0 <= r -> Rabs (x' - x) <= r * Rabs x + kap ->
      Rabs (rn x' - x) <= ((1 + uu) * (1 + r) - 1) * Rabs x + (1 + uu) * kap + ee.
  Proof.
    intros r x x' kap Hr Hx. pose proof (rn_err emin prec x') as E. pose proof (u_pos prec) as Hu.
    assert (Hx' : Rabs x' <= (1 + r) * Rabs x + kap).
    { replace x' with (x + (x' - x)) at 1 by ring. pose proof (Rabs_triang x (x' - x)). lra. }
    replace (rn x' - x) with ((rn x' - x') + (x' - x)) by ring.
    pose proof (Rabs_triang (rn x' - x') (x' - x)) as T.
    assert (H1 : uu * Rabs x' <= uu * ((1 + r) * Rabs x + kap)) by (apply Rmult_le_compat_l; lra).
    lra.
  Qed.
End Compose.

(** Dense layer forward (no activation):
    [layer_forward] (Model/Program.v) of a dense layer is
    [a_matmul x false w true (Some b)] with [x : [r; n]], [w : [m; n]], [b : [m]].  The
    literal order (Model/Linalg.v, [matmul_slice]): the output is preset to the additive term,
    the [n] products are rounded and summed by the left fold starting from [0], and that sum
    is added onto the preset value: [out[i][j] = fl(b[j] + fl(sum_k fl(x[i][k] * w[j][k])))]. *)

Section Dense.
  Variables emin prec : Z.
  Context {Hprec : Prec_gt_0 prec}.

  Notation fmt := (generic_format radix2 (FLT_exp emin prec)).
  Notation rn := (rnd emin prec).
  Notation O := (rounded_ops emin prec).
  Notation uu := (u prec).
  Notation ee := (eta emin).
  Notation th := (theta prec).
  Notation ga := (gamma prec).

  Definition dense_terms (x w : arr R) (i j n : nat) : list R :=
    map (fun k => getd R_ops x [i; k] * getd R_ops w [j; k]) (seq 0 n).

  Lemma dense_terms_abs : forall x w i j n,
      map Rabs (dense_terms x w i j n)
      = map (fun k => Rabs (getd R_ops x [i; k]) * Rabs (getd R_ops w [j; k])) (seq 0 n).
  Proof.
    intros. unfold dense_terms. rewrite map_map. apply map_ext. intros k. apply Rabs_mult.
  Qed.

  Theorem dense_rounding : forall (x w b : arr R) (r n m : nat),
      wf x -> wf w -> wf b -> dims x = [r; n] -> dims w = [m; n] -> dims b = [m] ->
      fmt_arr emin prec b ->
      exists yf yr,
        a_matmul O x false w true (Some b) = Some yf /\
        a_matmul R_ops x false w true (Some b) = Some yr /\
        dims yf = [r; m] /\ dims yr = [r; m] /\
        forall i j, (i < r)%nat -> (j < m)%nat ->
          let bj := getd R_ops b [j] in
          let exact := bj + rsum (dense_terms x w i j n) in
          let T := rsum (map Rabs (dense_terms x w i j n)) in
          exists vf,
            get yf [i; j] = Some vf /\ get yr [i; j] = Some exact /\
            Rabs (vf - exact) <= th (S n) * (Rabs bj + T) + INR n * ee * (1 + uu) ^ n /\
            (Forall (no_uflow emin prec) (dense_terms x w i j n) ->
             Rabs (vf - exact) <= th (S n) * (Rabs bj + T)).
  Proof.
    intros x w b r n m Hwx Hww Hwb Ex Ew Eb Fb.
    destruct (matmul_spec_bias_row O x false w true b [] [] r n m n Hwx Hww Hwb Ex Ew eq_refl I Eb)
      as [(yf & Hyf & _ & Dyf & Vyf) _].
    destruct (matmul_spec_bias_row R_ops x false w true b [] [] r n m n Hwx Hww Hwb Ex Ew eq_refl I Eb)
      as [(yr & Hyr & _ & Dyr & Vyr) _].
    exists yf, yr. split; [exact Hyf|]. split; [exact Hyr|].
    split; [exact Dyf|]. split; [exact Dyr|].
    intros i j Hi Hj bj exact T.
    destruct (Vyf [] i j ltac:(constructor) Hi Hj) as [_ Gf].
    destruct (Vyr [] i j ltac:(constructor) Hi Hj) as [_ Gr].
    cbn [app mm_inner_a] in Gf, Gr.
    eexists. split; [exact Gf|]. split; [exact Gr|].
    change (fun k : nat => fmul O (getd O x (a_idx false [] [] i k)) (getd O w (b_idx true [] [] k j)))
      with (fun k : nat => rn (getd R_ops x [i; k] * getd R_ops w [j; k])).
    rewrite <- (map_map (fun k => getd R_ops x [i; k] * getd R_ops w [j; k]) rn).
    fold (dense_terms x w i j n). change (getd O b [j]) with bj.
    assert (Fbj : fmt bj) by (apply nth_fmt; exact Fb).
    assert (Hlen : length (dense_terms x w i j n) = n)
      by (unfold dense_terms; rewrite map_length, seq_length; reflexivity).
    destruct (rounded_close emin prec (dense_terms x w i j n)) as [FT CT].
    split.
    - pose proof (dot_close_terms emin prec 1 ee bj _ _ Fbj FT CT
                                  (Rlt_le _ _ (eta_pos emin))) as H.
      cbv zeta in H. rewrite Hlen, Nat.add_1_r in H. exact H.
    - intros Hno.
      pose proof (dot_close_terms emin prec 1 0 bj _ _ Fbj FT
                                  (rounded_close_normal emin prec _ Hno) (Rle_refl 0)) as H.
      cbv zeta in H. rewrite Hlen, Nat.add_1_r in H.
      rewrite Rmult_0_r, Rmult_0_l, Rplus_0_r in H. exact H.
  Qed.

  (** Higham's form: [gamma (n+1) = (n+1) u / (1 - (n+1) u)] *)
  Corollary dense_rounding_gamma : forall (x w b : arr R) (r n m : nat),
      wf x -> wf w -> wf b -> dims x = [r; n] -> dims w = [m; n] -> dims b = [m] ->
      fmt_arr emin prec b -> INR (S n) * uu < 1 ->
      exists yf yr,
        a_matmul O x false w true (Some b) = Some yf /\
        a_matmul R_ops x false w true (Some b) = Some yr /\
        dims yf = [r; m] /\ dims yr = [r; m] /\
        forall i j, (i < r)%nat -> (j < m)%nat ->
          let bj := getd R_ops b [j] in
          let exact := bj + rsum (dense_terms x w i j n) in
          let T := rsum (map Rabs (dense_terms x w i j n)) in
          exists vf,
            get yf [i; j] = Some vf /\ get yr [i; j] = Some exact /\
            Rabs (vf - exact) <= ga (S n) * (Rabs bj + T) + INR n * ee * (1 + ga n) /\
            (Forall (no_uflow emin prec) (dense_terms x w i j n) ->
             Rabs (vf - exact) <= ga (S n) * (Rabs bj + T)).
  Proof.
    intros x w b r n m Hwx Hww Hwb Ex Ew Eb Fb Hk.
    destruct (dense_rounding x w b r n m Hwx Hww Hwb Ex Ew Eb Fb)
      as (yf & yr & Hyf & Hyr & Dyf & Dyr & V).
    exists yf, yr. split; [exact Hyf|]. split; [exact Hyr|].
    split; [exact Dyf|]. split; [exact Dyr|].
    intros i j Hi Hj bj exact T. destruct (V i j Hi Hj) as (vf & Gf & Gr & B1 & B2).
    exists vf. split; [exact Gf|]. split; [exact Gr|]. fold bj exact T in B1, B2.
    assert (HT : 0 <= T) by apply rsum_abs_nonneg. pose proof (Rabs_pos bj) as Hb.
    pose proof (eta_pos emin) as He.
    assert (HX : 0 <= Rabs bj + T) by lra.
    assert (HY : 0 <= INR n * ee) by (apply Rmult_le_pos; [apply pos_INR|lra]).
    pose proof (theta_gamma_affine prec (S n) n _ _ Hk (Nat.le_succ_diag_r n) HX HY) as G.
    pose proof (theta_gamma_affine prec (S n) n _ 0 Hk (Nat.le_succ_diag_r n) HX (Rle_refl 0)) as G0.
    split; [lra|]. intros Hno. specialize (B2 Hno). lra.
  Qed.
End Dense.

(** Mean squared error:
    [cost_apply .. CMse] followed by [a_sum_all] in [model_backward] (Model/Program.v):
    [d = target - output] (as [target + output * (-1)]), [p = d.powf(2)],
    [e = p * (1 / (len as Float))], and the scalar is the left-fold sum of [e]:
    [mse = fl(sum_j fl(fl(fl(t_j - y_j)^2) * fl(1 / fl(len))))] -- each squared difference is
    scaled by the rounded reciprocal of the length BEFORE the summation. *)

Section MseDef.
  Context {F : Type} (O : ScalarOps F).

  Definition a_mse (target output : arr F) : option F :=
    d <- a_sub O target output ;;
    p <- a_powf O (two O) d ;;
    e <- a_scale O (fdiv O (f1 O) (fofnat O (prod (dims output)))) p ;;
    Some (a_sum_all O e).

  Definition mse_term (s t y : F) : F :=
    fmul O (fpow O (fadd O t (fmul O y (m1 O))) (two O)) s.

  Lemma a_mse_spec : forall (t y : arr F),
      wf t -> wf y -> dims t = dims y -> dims t <> [] ->
      a_mse t y
      = Some (vsum O (map (fun j => mse_term (fdiv O (f1 O) (fofnat O (prod (dims y))))
                                             (nth j (vals t) (f0 O)) (nth j (vals y) (f0 O)))
                          (seq 0 (prod (dims y))))).
  Proof.
    intros t y Hwt Hwy Hd Hne. unfold a_mse, a_sub. rewrite (a_neg_spec O y Hwy). cbn [obind].
    set (ny := {| dims := dims y; vals := map (fun x => fmul O x (fneg O (f1 O))) (vals y) |}).
    assert (Hwny : wf ny) by (apply map_arr_result_wf; exact Hwy).
    destruct (a_add_same_dims O t ny Hwt Hwny Hd Hne) as (c & Hc & Hwc & Hdc & Hv).
    rewrite Hc. cbn [obind]. rewrite (a_powf_spec O _ c Hwc). cbn [obind].
    rewrite a_scale_spec by (apply map_arr_result_wf; exact Hwc). cbn [obind].
    unfold a_sum_all. cbn [vals dims]. f_equal. f_equal. rewrite map_map.
    destruct Hwc as [_ Hlc]. destruct Hwy as [_ Hly]. rewrite Hdc, Hd in Hlc.
    rewrite (list_as_map_seq (vals c) (f0 O)) at 1. rewrite map_map, <- Hlc.
    apply map_ext_in. intros j Hj. apply in_seq in Hj. unfold mse_term.
    rewrite Hv by (rewrite Hd; lia). f_equal. f_equal. f_equal.
    unfold ny. cbn [vals].
    rewrite (nth_indep _ (f0 O) (fmul O (f0 O) (fneg O (f1 O)))) by (rewrite map_length; lia).
    rewrite (map_nth (fun x => fmul O x (fneg O (f1 O)))). reflexivity.
  Qed.
End MseDef.

Section Mse.
  Variables emin prec : Z.
  Context {Hprec : Prec_gt_0 prec}.
  Hypothesis Hemin : (emin <= 0)%Z.

  Notation fmt := (generic_format radix2 (FLT_exp emin prec)).
  Notation rn := (rnd emin prec).
  Notation O := (rounded_ops emin prec).
  Notation uu := (u prec).
  Notation ee := (eta emin).
  Notation th := (theta prec).
  Notation ga := (gamma prec).

  Lemma fmt_1 : fmt 1.
  Proof. change 1 with (bpow radix2 0). apply generic_format_FLT_bpow; [exact Hprec|exact Hemin]. Qed.

  Lemma fmt_2 : fmt (1 + 1).
  Proof.
    replace (1 + 1) with (bpow radix2 1) by (cbn; lra).
    apply generic_format_FLT_bpow; [exact Hprec|lia].
  Qed.

  Lemma fmt_IZR : forall z, (Z.abs z < 2 ^ prec)%Z -> fmt (IZR z).
  Proof.
    intros z Hz. apply generic_format_FLT. exists (Float radix2 z 0).
    - unfold F2R. cbn. ring.
    - exact Hz.
    - exact Hemin.
  Qed.

  Lemma fmt_INR : forall n, (Z.of_nat n < 2 ^ prec)%Z -> fmt (INR n).
  Proof. intros n Hn. rewrite INR_IZR_INZ. apply fmt_IZR. lia. Qed.

  Lemma rel_mul_th : forall j k a a' b b' kap,
      0 <= kap ->
      Rabs (a' - a) <= th j * Rabs a + kap -> Rabs (b' - b) <= th k * Rabs b ->
      Rabs (a' * b' - a * b) <= th (j + k) * Rabs (a * b) + kap * (1 + th k) * Rabs b.
  Proof.
    intros j k a a' b b' kap Hk Ha Hb.
    replace (a' * b' - a * b) with ((a' - a) * b' + a * (b' - b)) by ring.
    pose proof (Rabs_triang ((a' - a) * b') (a * (b' - b))) as T. rewrite !Rabs_mult in T.
    assert (Hb' : Rabs b' <= (1 + th k) * Rabs b).
    { replace b' with (b + (b' - b)) at 1 by ring. pose proof (Rabs_triang b (b' - b)). lra. }
    rewrite theta_add, Rabs_mult.
    pose proof (theta_nonneg prec j). pose proof (theta_nonneg prec k).
    pose proof (Rabs_pos a). pose proof (Rabs_pos b). pose proof (Rabs_pos b').
    pose proof (Rabs_pos (a' - a)). pose proof (Rabs_pos (b' - b)).
    assert (G1 : Rabs (a' - a) * Rabs b' <= (th j * Rabs a + kap) * ((1 + th k) * Rabs b)).
    { apply Rmult_le_compat; lra. }
    assert (G2 : Rabs a * Rabs (b' - b) <= Rabs a * (th k * Rabs b))
      by (apply Rmult_le_compat_l; lra).
    nra.
  Qed.

  Lemma rel_rn_th : forall j x x' kap,
      Rabs (x' - x) <= th j * Rabs x + kap ->
      Rabs (rn x' - x) <= th (S j) * Rabs x + (1 + uu) * kap + ee.
  Proof.
    intros j x x' kap Hx. pose proof (rel_rn emin prec (th j) x x' kap (theta_nonneg prec j) Hx) as H.
    rewrite theta_S. replace ((1 + uu) * th j + uu) with ((1 + uu) * (1 + th j) - 1) by ring. exact H.
  Qed.

  Definition mse_kappa : R := ee * ((1 + uu) ^ 2 + 1).

  Lemma mse_term_err : forall (N : nat) t y,
      (1 <= N)%nat -> fmt (INR N) -> bpow radix2 (emin + prec - 1) <= / INR N ->
      fmt t -> fmt y ->
      let s := fdiv O (f1 O) (fofnat O N) in
      let E := (t - y) * (t - y) / INR N in
      fmt (mse_term O s t y) /\
      Rabs (mse_term O s t y - E) <= th 5 * Rabs E + mse_kappa.
  Proof.
    intros N t y HN FN HNn Ft Fy s E. split; [apply (rn_fmt emin prec)|].
    assert (HN1 : 1 <= INR N) by (apply (le_INR 1); exact HN).
    assert (HiN : 0 < / INR N <= 1).
    { split; [apply Rinv_0_lt_compat; lra|]. rewrite <- Rinv_1. apply Rinv_le_contravar; lra. }
    assert (Hs : Rabs (s - / INR N) <= th 1 * Rabs (/ INR N)).
    { unfold s. cbn [fdiv f1 fofnat rounded_ops]. rewrite (rn_id emin prec _ FN).
      unfold Rdiv. rewrite Rmult_1_l, (theta_1 prec). apply (rn_err_normal emin prec).
      unfold no_uflow. right. rewrite Rabs_pos_eq by lra. exact HNn. }
    assert (Hm1 : fmul O y (m1 O) = - y).
    { unfold m1. cbn [fmul fneg f1 rounded_ops].
      replace (y * - (1)) with (- y) by ring. apply (rn_id emin prec). apply fmt_opp. exact Fy. }
    set (d := fadd O t (fmul O y (m1 O))).
    assert (Hd : Rabs (d - (t - y)) <= th 1 * Rabs (t - y) + 0).
    { unfold d. rewrite Hm1, (theta_1 prec), Rplus_0_r.
      destruct (fadd_err emin prec t (- y) Ft (fmt_opp emin prec y Fy)) as [_ H]. exact H. }
    assert (Hd0 : Rabs (d - (t - y)) <= th 1 * Rabs (t - y)) by lra.
    assert (Htwo : two O = 1 + 1).
    { unfold two. cbn [fadd f1 rounded_ops]. apply (rn_id emin prec). exact fmt_2. }
    assert (Hq : mse_term O s t y = rn (rn (d * d) * s)).
    { unfold mse_term. fold d. rewrite Htwo. cbn [fmul fpow rounded_ops].
      pose proof (R_pow_two d) as P. unfold two in P. cbn [fadd fmul fpow f1 R_ops] in P.
      rewrite P. reflexivity. }
    rewrite Hq.
    pose proof (rel_mul_th 1 1 (t - y) d (t - y) d 0 (Rle_refl 0) Hd Hd0) as Hdd.
    rewrite Rmult_0_l, Rmult_0_l, Rplus_0_r in Hdd. cbn [Nat.add] in Hdd.
    assert (Hdd' : Rabs (d * d - (t - y) * (t - y)) <= th 2 * Rabs ((t - y) * (t - y)) + 0) by lra.
    pose proof (rel_rn_th 2 _ _ 0 Hdd') as Hq1. rewrite Rmult_0_r, Rplus_0_r in Hq1.
    pose proof (rel_mul_th 3 1 _ _ _ _ ee (Rlt_le _ _ (eta_pos emin)) Hq1 Hs) as Hqs.
    cbn [Nat.add] in Hqs.
    pose proof (rel_rn_th 4 _ _ _ Hqs) as He.
    fold (Rdiv ((t - y) * (t - y)) (INR N)) in He. fold E in He.
    eapply Rle_trans; [exact He|].
    unfold mse_kappa. rewrite (theta_1 prec), (Rabs_pos_eq (/ INR N)) by lra.
    pose proof (u_pos prec) as Hu. pose proof (eta_pos emin) as Hee.
    assert (H1 : ee * (1 + uu) * / INR N <= ee * (1 + uu) * 1)
      by (apply Rmult_le_compat_l; [apply Rmult_le_pos; lra|lra]).
    assert (H2 : (1 + uu) * (ee * (1 + uu) * / INR N) <= (1 + uu) * (ee * (1 + uu) * 1))
      by (apply Rmult_le_compat_l; lra).
    cbn [pow]. lra.
  Qed.

  Definition mse_terms (t y : arr R) : list R :=
    map (fun j => (nth j (vals t) 0 - nth j (vals y) 0) * (nth j (vals t) 0 - nth j (vals y) 0)
                  / INR (prod (dims y)))
        (seq 0 (prod (dims y))).
  Definition mse_exact (t y : arr R) : R := rsum (mse_terms t y).

  Lemma mse_terms_nonneg : forall t y, (1 <= prod (dims y))%nat ->
      map Rabs (mse_terms t y) = mse_terms t y.
  Proof.
    intros t y HN. unfold mse_terms. rewrite map_map. apply map_ext. intros j.
    apply Rabs_pos_eq. apply Rmult_le_pos; [apply Rle_0_sqr|].
    apply Rlt_le, Rinv_0_lt_compat. apply (lt_INR 0). lia.
  Qed.

  Lemma mse_exact_nonneg : forall t y, (1 <= prod (dims y))%nat -> 0 <= mse_exact t y.
  Proof.
    intros t y HN. unfold mse_exact. rewrite <- (mse_terms_nonneg t y HN). apply rsum_abs_nonneg.
  Qed.

  (** the model over the reals computes the mathematical mean squared error *)
  Lemma a_mse_real : forall (t y : arr R),
      wf t -> wf y -> dims t = dims y -> dims t <> [] ->
      a_mse R_ops t y = Some (mse_exact t y).
  Proof.
    intros t y Hwt Hwy Hd Hne. rewrite (a_mse_spec R_ops t y Hwt Hwy Hd Hne).
    f_equal. unfold mse_exact, mse_terms. f_equal. apply map_ext. intros j.
    unfold mse_term, m1. pose proof (R_pow_two (nth j (vals t) 0 + nth j (vals y) 0 * - (1))) as P.
    cbn [fmul fadd fpow fdiv fneg f0 f1 fofnat R_ops] in *. rewrite P. field.
    apply not_0_INR. destruct Hwy as [Hp _]. pose proof (prod_pos _ Hp). lia.
  Qed.

  Theorem mse_rounding : forall (t y : arr R),
      wf t -> wf y -> dims t = dims y -> dims t <> [] ->
      fmt_arr emin prec t -> fmt_arr emin prec y ->
      let N := prod (dims y) in
      fmt (INR N) -> bpow radix2 (emin + prec - 1) <= / INR N ->
      exists vf,
        a_mse O t y = Some vf /\ a_mse R_ops t y = Some (mse_exact t y) /\
        Rabs (vf - mse_exact t y)
        <= th (N + 4) * mse_exact t y + INR N * mse_kappa * (1 + uu) ^ (N - 1).
  Proof.
    intros t y Hwt Hwy Hd Hne Ft Fy N FN HNn.
    assert (HN : (1 <= N)%nat).
    { destruct Hwy as [Hp _]. pose proof (prod_pos _ Hp). unfold N. lia. }
    eexists. split; [apply (a_mse_spec O t y Hwt Hwy Hd Hne)|].
    split; [apply a_mse_real; assumption|]. fold N.
    set (s := fdiv O (f1 O) (fofnat O N)).
    set (e := map (fun j => mse_term O s (nth j (vals t) (f0 O)) (nth j (vals y) (f0 O))) (seq 0 N)).
    assert (Hterm : forall j, fmt (mse_term O s (nth j (vals t) 0) (nth j (vals y) 0)) /\
                              Rabs (mse_term O s (nth j (vals t) 0) (nth j (vals y) 0)
                                    - (nth j (vals t) 0 - nth j (vals y) 0)
                                      * (nth j (vals t) 0 - nth j (vals y) 0) / INR N)
                              <= th 5 * Rabs ((nth j (vals t) 0 - nth j (vals y) 0)
                                              * (nth j (vals t) 0 - nth j (vals y) 0) / INR N)
                                 + mse_kappa).
    { intros j. apply (mse_term_err N _ _ HN FN HNn); apply nth_fmt; assumption. }
    assert (Fe : Forall (fun x => fmt x) e).
    { unfold e. apply Forall_forall. intros v Hv. apply in_map_iff in Hv.
      destruct Hv as (j & <- & _). apply Hterm. }
    assert (Ce : close_terms prec 5 mse_kappa e (mse_terms t y)).
    { unfold e, mse_terms, close_terms. fold N. generalize (seq 0 N). intros l.
      induction l as [|j l IH]; cbn [map]; constructor; [apply Hterm|exact IH]. }
    assert (Hk : 0 <= mse_kappa).
    { unfold mse_kappa. pose proof (eta_pos emin). pose proof (pow1u_ge_1 prec 2). nra. }
    pose proof (vsum_close_terms emin prec 5 mse_kappa e _ Fe Ce Hk) as H. cbv zeta in H.
    assert (Hlen : length (mse_terms t y) = N)
      by (unfold mse_terms; rewrite map_length, seq_length; reflexivity).
    rewrite Hlen, (mse_terms_nonneg t y HN) in H. fold (mse_exact t y) in H.
    replace (N - 1 + 5)%nat with (N + 4)%nat in H by lia. exact H.
  Qed.

  Corollary mse_rounding_gamma : forall (t y : arr R),
      wf t -> wf y -> dims t = dims y -> dims t <> [] ->
      fmt_arr emin prec t -> fmt_arr emin prec y ->
      let N := prod (dims y) in
      fmt (INR N) -> bpow radix2 (emin + prec - 1) <= / INR N -> INR (N + 4) * uu < 1 ->
      exists vf,
        a_mse O t y = Some vf /\ a_mse R_ops t y = Some (mse_exact t y) /\
        Rabs (vf - mse_exact t y)
        <= ga (N + 4) * mse_exact t y + INR N * mse_kappa * (1 + ga (N - 1)).
  Proof.
    intros t y Hwt Hwy Hd Hne Ft Fy N FN HNn Hk.
    destruct (mse_rounding t y Hwt Hwy Hd Hne Ft Fy FN HNn) as (vf & H1 & H2 & B). fold N in B.
    exists vf. split; [exact H1|]. split; [exact H2|].
    assert (HN : (1 <= N)%nat).
    { destruct Hwy as [Hp _]. pose proof (prod_pos _ Hp). unfold N. lia. }
    assert (Hkap : 0 <= INR N * mse_kappa).
    { apply Rmult_le_pos; [apply pos_INR|]. unfold mse_kappa.
      pose proof (eta_pos emin). pose proof (pow1u_ge_1 prec 2). nra. }
    eapply Rle_trans; [exact B|].
    apply (theta_gamma_affine prec (N + 4) (N - 1)); try assumption; [lia|].
    apply mse_exact_nonneg. exact HN.
  Qed.
End Mse.

Section ComposeTwoFormats.
  Variables emin1 prec1 emin2 prec2 : Z.
  Context {Hprec1 : Prec_gt_0 prec1} {Hprec2 : Prec_gt_0 prec2}.
  Hypothesis Hp : (prec1 <= prec2)%Z.
  Hypothesis He : (emin2 <= emin1)%Z.
  (** the wide format's normal range contains the narrow format's *)
  Hypothesis Hn : (emin2 + prec2 <= emin1 + prec1)%Z.

  Notation O1 := (rounded_ops emin1 prec1).
  Notation O2 := (rounded_ops emin2 prec2).

  Lemma u_mono : u prec2 <= u prec1.
  Proof. unfold u. apply bpow_le. lia. Qed.

  Lemma nu_mono : forall k, INR k * u prec1 < 1 -> INR k * u prec2 < 1.
  Proof. intros k H. pose proof u_mono. pose proof (pos_INR k). nra. Qed.

  Lemma no_uflow_incl : forall x, no_uflow emin1 prec1 x -> no_uflow emin2 prec2 x.
  Proof.
    intros x [H|H]; [left; exact H|right].
    eapply Rle_trans; [|exact H]. apply bpow_le. lia.
  Qed.

  Theorem dense_two_formats : forall (x w b : arr R) (r n m : nat),
      wf x -> wf w -> wf b -> dims x = [r; n] -> dims w = [m; n] -> dims b = [m] ->
      fmt_arr emin1 prec1 b -> INR (S n) * u prec1 < 1 ->
      exists y1 y2,
        a_matmul O1 x false w true (Some b) = Some y1 /\
        a_matmul O2 x false w true (Some b) = Some y2 /\
        dims y1 = [r; m] /\ dims y2 = [r; m] /\
        forall i j, (i < r)%nat -> (j < m)%nat ->
          let bj := getd R_ops b [j] in
          let T := rsum (map Rabs (dense_terms x w i j n)) in
          exists v1 v2,
            get y1 [i; j] = Some v1 /\ get y2 [i; j] = Some v2 /\
            Rabs (v1 - v2)
            <= (gamma prec1 (S n) + gamma prec2 (S n)) * (Rabs bj + T)
               + INR n * (eta emin1 * (1 + gamma prec1 n) + eta emin2 * (1 + gamma prec2 n)) /\
            (Forall (no_uflow emin1 prec1) (dense_terms x w i j n) ->
             Rabs (v1 - v2) <= (gamma prec1 (S n) + gamma prec2 (S n)) * (Rabs bj + T)).
  Proof.
    intros x w b r n m Hwx Hww Hwb Ex Ew Eb Fb Hk.
    destruct (dense_rounding_gamma emin1 prec1 x w b r n m Hwx Hww Hwb Ex Ew Eb Fb Hk)
      as (y1 & yr & H1 & Hr & D1 & _ & V1).
    destruct (dense_rounding_gamma emin2 prec2 x w b r n m Hwx Hww Hwb Ex Ew Eb
                (fmt_arr_incl emin1 prec1 emin2 prec2 Hp He b Fb) (nu_mono _ Hk))
      as (y2 & yr' & H2 & Hr' & D2 & _ & V2).
    exists y1, y2. split; [exact H1|]. split; [exact H2|]. split; [exact D1|]. split; [exact D2|].
    intros i j Hi Hj bj T.
    destruct (V1 i j Hi Hj) as (v1 & G1 & _ & B1 & B1').
    destruct (V2 i j Hi Hj) as (v2 & G2 & _ & B2 & B2').
    exists v1, v2. split; [exact G1|]. split; [exact G2|]. fold bj T in B1, B1', B2, B2'.
    split.
    - pose proof (tri v1 v2 _ _ _ B1 B2). lra.
    - intros Hno. specialize (B1' Hno).
      assert (Hno2 : Forall (no_uflow emin2 prec2) (dense_terms x w i j n)).
      { eapply Forall_impl; [|exact Hno]. apply no_uflow_incl. }
      specialize (B2' Hno2). pose proof (tri v1 v2 _ _ _ B1' B2'). lra.
  Qed.

  Theorem mse_two_formats : forall (t y : arr R),
      (emin1 <= 0)%Z ->
      wf t -> wf y -> dims t = dims y -> dims t <> [] ->
      fmt_arr emin1 prec1 t -> fmt_arr emin1 prec1 y ->
      let N := prod (dims y) in
      generic_format radix2 (FLT_exp emin1 prec1) (INR N) ->
      bpow radix2 (emin1 + prec1 - 1) <= / INR N -> INR (N + 4) * u prec1 < 1 ->
      exists v1 v2,
        a_mse O1 t y = Some v1 /\ a_mse O2 t y = Some v2 /\
        Rabs (v1 - v2)
        <= (gamma prec1 (N + 4) + gamma prec2 (N + 4)) * mse_exact t y
           + INR N * (mse_kappa emin1 prec1 * (1 + gamma prec1 (N - 1))
                      + mse_kappa emin2 prec2 * (1 + gamma prec2 (N - 1))).
  Proof.
    intros t y Hemin Hwt Hwy Hd Hne Ft Fy N FN HNn Hk.
    destruct (mse_rounding_gamma emin1 prec1 Hemin t y Hwt Hwy Hd Hne Ft Fy FN HNn Hk)
      as (v1 & H1 & _ & B1).
    assert (Hemin2 : (emin2 <= 0)%Z) by lia.
    assert (HNn2 : bpow radix2 (emin2 + prec2 - 1) <= / INR N).
    { eapply Rle_trans; [|exact HNn]. apply bpow_le. lia. }
    destruct (mse_rounding_gamma emin2 prec2 Hemin2 t y Hwt Hwy Hd Hne
                (fmt_arr_incl emin1 prec1 emin2 prec2 Hp He t Ft)
                (fmt_arr_incl emin1 prec1 emin2 prec2 Hp He y Fy)
                (fmt_incl emin1 prec1 emin2 prec2 Hp He _ FN) HNn2 (nu_mono _ Hk))
      as (v2 & H2 & _ & B2).
    exists v1, v2. split; [exact H1|]. split; [exact H2|]. fold N in B1, B2.
    pose proof (tri v1 v2 _ _ _ B1 B2). lra.
  Qed.
End ComposeTwoFormats.

Local Instance prec24_gt_0' : Prec_gt_0 24 := eq_refl.
Local Instance prec53_gt_0' : Prec_gt_0 53 := eq_refl.

(** C19 for a dense layer: the single-precision output against the double-precision output *)
Theorem dense_f32_f64 : forall (x w b : arr R) (r n m : nat),
    wf x -> wf w -> wf b -> dims x = [r; n] -> dims w = [m; n] -> dims b = [m] ->
    fmt_arr (-149) 24 b -> (Z.of_nat (S n) < 16777216)%Z ->
    exists y32 y64,
      a_matmul binary32_ops x false w true (Some b) = Some y32 /\
      a_matmul binary64_ops x false w true (Some b) = Some y64 /\
      dims y32 = [r; m] /\ dims y64 = [r; m] /\
      forall i j, (i < r)%nat -> (j < m)%nat ->
        let bj := getd R_ops b [j] in
        let T := rsum (map Rabs (dense_terms x w i j n)) in
        exists v32 v64,
          get y32 [i; j] = Some v32 /\ get y64 [i; j] = Some v64 /\
          Rabs (v32 - v64)
          <= (gamma 24 (S n) + gamma 53 (S n)) * (Rabs bj + T)
             + INR n * (eta (-149) * (1 + gamma 24 n) + eta (-1074) * (1 + gamma 53 n)) /\
          (Forall (no_uflow (-149) 24) (dense_terms x w i j n) ->
           Rabs (v32 - v64) <= (gamma 24 (S n) + gamma 53 (S n)) * (Rabs bj + T)).
Proof.
  intros x w b r n m Hwx Hww Hwb Ex Ew Eb Fb Hk.
  exact (dense_two_formats (-149) 24 (-1074) 53 ltac:(lia) ltac:(lia) ltac:(lia)
                           x w b r n m Hwx Hww Hwb Ex Ew Eb Fb (nu32_lt_1 _ Hk)).
Qed.

(** side conditions of the MSE theorems, for binary32: fewer than [2^24 - 4] elements *)
Lemma mse_side_f32 : forall N, (1 <= N)%nat -> (Z.of_nat N + 4 < 16777216)%Z ->
    generic_format radix2 (FLT_exp (-149) 24) (INR N) /\
    bpow radix2 (-149 + 24 - 1) <= / INR N /\
    INR (N + 4) * u 24 < 1.
Proof.
  intros N HN Hlt. split; [|split].
  - apply (fmt_INR (-149) 24); lia.
  - apply Rle_trans with (bpow radix2 (-24)); [apply bpow_le; lia|].
    change (bpow radix2 (-24)) with (/ 16777216).
    assert (0 < INR N) by (apply (lt_INR 0); lia).
    apply Rinv_le_contravar; [assumption|].
    rewrite INR_IZR_INZ. apply IZR_le. lia.
  - apply nu32_lt_1. rewrite Nat2Z.inj_add. cbn. lia.
Qed.

(** C19 for the mean squared error *)
Theorem mse_f32_f64 : forall (t y : arr R),
    wf t -> wf y -> dims t = dims y -> dims t <> [] ->
    fmt_arr (-149) 24 t -> fmt_arr (-149) 24 y ->
    let N := prod (dims y) in
    (Z.of_nat N + 4 < 16777216)%Z ->
    exists v32 v64,
      a_mse binary32_ops t y = Some v32 /\ a_mse binary64_ops t y = Some v64 /\
      Rabs (v32 - v64)
      <= (gamma 24 (N + 4) + gamma 53 (N + 4)) * mse_exact t y
         + INR N * (mse_kappa (-149) 24 * (1 + gamma 24 (N - 1))
                    + mse_kappa (-1074) 53 * (1 + gamma 53 (N - 1))).
Proof.
  intros t y Hwt Hwy Hd Hne Ft Fy N Hlt.
  assert (HN : (1 <= N)%nat).
  { destruct Hwy as [Hpd _]. pose proof (prod_pos _ Hpd). unfold N. lia. }
  destruct (mse_side_f32 N HN Hlt) as (FN & HNn & Hk).
  exact (mse_two_formats (-149) 24 (-1074) 53 ltac:(lia) ltac:(lia) ltac:(lia)
                         t y ltac:(lia) Hwt Hwy Hd Hne Ft Fy FN HNn Hk).
Qed.

(** Softmax with a libm [exp] of given relative accuracy.
    The instance: rounded arithmetic, but [fexp] is an arbitrary function [fe] that returns
    representable numbers with [|fe x - exp x| <= eps * exp x] for every [x] in a domain
    [dom] that contains the data (no libm can satisfy this for ALL [x] with [eps < 1]: for
    very negative [x], [exp x] is below the smallest subnormal).  A faithful libm has [eps]
    about [2^(1-prec)]; the idealised correctly rounded [fexp] of [rounded_ops] has [eps = u]
    on [dom x := 2^(emin+prec-1) <= exp x] ([rounded_exp_ok], [softmax_rounding_ideal]). *)

Definition with_fexp {F : Type} (O : ScalarOps F) (fe : F -> F) : ScalarOps F := {|
  f0 := f0 O; f1 := f1 O; fadd := fadd O; fmul := fmul O; fsub := fsub O; fdiv := fdiv O;
  fneg := fneg O; fexp := fe; fln := fln O; fpow := fpow O; fgt0 := fgt0 O; feqb := feqb O;
  fofnat := fofnat O |}.

Lemma two_le_sum : forall lo hi, 0 < lo -> 0 < hi -> 1 <= lo * hi -> 2 <= lo + hi.
Proof.
  intros lo hi H1 H2 H3. destruct (Rle_lt_dec 2 (lo + hi)) as [H|H]; [exact H|]. exfalso.
  assert (H4 : (lo + hi) * (lo + hi) < 2 * 2) by (apply Rmult_le_0_lt_compat; lra).
  pose proof (Rle_0_sqr (lo - hi)) as H5. unfold Rsqr in H5. nra.
Qed.

(** a quotient of two enclosed quantities *)
Lemma quot_bounds : forall n d nl nh dl dh,
    0 < dl -> dl <= d <= dh -> 0 <= nl -> nl <= n <= nh -> nl / dh <= n / d <= nh / dl.
Proof.
  intros n d nl nh dl dh Hdl [Hd1 Hd2] Hnl [Hn1 Hn2]. unfold Rdiv.
  split; (apply Rmult_le_compat;
          [lra|left; apply Rinv_0_lt_compat; lra|lra|apply Rinv_le_contravar; lra]).
Qed.

(** [q] between [lo * s] and [hi * s] with [lo <= 1 <= lo * hi]: within relative [hi - 1] of [s]
    (the lower side because [1 - lo <= hi - 1], i.e. [2 <= lo + hi]) *)
Lemma two_sided_rel : forall lo hi q s,
    0 < lo <= 1 -> 0 < hi -> 1 <= lo * hi -> 0 <= s -> lo * s <= q <= hi * s ->
    0 <= hi - 1 /\ Rabs (q - s) <= (hi - 1) * s.
Proof.
  intros lo hi q s [Hlo Hlo1] Hhi Hp Hs [Hq1 Hq2].
  pose proof (two_le_sum lo hi Hlo Hhi Hp) as H2.
  assert (H1 : 1 <= hi) by nra. split; [lra|].
  assert (Hl : (1 - lo) * s <= (hi - 1) * s) by (apply Rmult_le_compat_r; lra).
  apply Rabs_le. lra.
Qed.

(** the quotient [fx / S] of an approximate exponential (relative [eps]) by an approximate sum
    (relative [eps], then [t] from the summation) against [a / Z] *)
Lemma rel_quot : forall eps t a Z fx S,
    0 <= eps < 1 -> 0 <= t < 1 -> 0 < a -> 0 < Z ->
    (1 - eps) * a <= fx <= (1 + eps) * a ->
    (1 - eps) * (1 - t) * Z <= S <= (1 + eps) * (1 + t) * Z ->
    0 < S /\ 0 <= (1 + eps) / ((1 - eps) * (1 - t)) - 1 /\
    Rabs (fx / S - a / Z) <= ((1 + eps) / ((1 - eps) * (1 - t)) - 1) * (a / Z).
Proof.
  intros eps t a Z fx S He Ht Ha HZ Hf HS.
  assert (Hnl : 0 <= (1 - eps) * a) by (apply Rmult_le_pos; lra).
  set (L := (1 - eps) * (1 - t)) in *. set (U := (1 + eps) * (1 + t)) in *.
  assert (HL : 0 < L) by (apply Rmult_lt_0_compat; lra).
  assert (HU : 1 <= U).
  { replace 1 with (1 * 1) by ring. apply Rmult_le_compat; lra. }
  assert (HLZ : 0 < L * Z) by (apply Rmult_lt_0_compat; lra).
  split; [lra|].
  pose proof (quot_bounds fx S _ _ (L * Z) (U * Z) HLZ HS Hnl Hf) as Hq.
  replace ((1 - eps) * a / (U * Z)) with ((1 - eps) / U * (a / Z)) in Hq by (field; lra).
  replace ((1 + eps) * a / (L * Z)) with ((1 + eps) / L * (a / Z)) in Hq by (field; lra).
  apply (two_sided_rel ((1 - eps) / U) ((1 + eps) / L)); try exact Hq.
  - split; [apply Rdiv_lt_0_compat; lra|].
    apply (Rmult_le_reg_r U); [lra|]. replace ((1 - eps) / U * U) with (1 - eps) by (field; lra). lra.
  - apply Rdiv_lt_0_compat; lra.
  - replace ((1 - eps) / U * ((1 + eps) / L)) with (/ ((1 + t) * (1 - t)))
      by (unfold L, U; field; lra).
    rewrite <- Rinv_1 at 1. apply Rinv_le_contravar; [apply Rmult_lt_0_compat; lra|].
    pose proof (Rle_0_sqr t) as H. unfold Rsqr in H. lra.
  - left. apply Rdiv_lt_0_compat; assumption.
Qed.

Section SoftmaxRounding.
  Variables emin prec : Z.
  Context {Hprec : Prec_gt_0 prec}.
  Variable fe : R -> R.
  Variable eps : R.
  Variable dom : R -> Prop.
  Hypothesis Heps : 0 <= eps < 1.
  Hypothesis fe_fmt : forall x, generic_format radix2 (FLT_exp emin prec) (fe x).
  Hypothesis fe_err : forall x, dom x -> Rabs (fe x - exp x) <= eps * exp x.

  Notation fmt := (generic_format radix2 (FLT_exp emin prec)).
  Notation rn := (rnd emin prec).
  Notation O := (rounded_ops emin prec).
  Notation OE := (with_fexp (rounded_ops emin prec) fe).
  Notation uu := (u prec).
  Notation ee := (eta emin).
  Notation th := (theta prec).

  Lemma fe_bounds : forall x, dom x -> (1 - eps) * exp x <= fe x <= (1 + eps) * exp x.
  Proof. intros x Hx. pose proof (fe_err x Hx) as H. apply Rabs_le_inv in H. lra. Qed.

  Lemma fe_pos : forall x, dom x -> 0 < fe x.
  Proof.
    intros x Hx. pose proof (fe_bounds x Hx) as [H _]. pose proof (exp_pos x).
    assert (0 < (1 - eps) * exp x) by (apply Rmult_lt_0_compat; lra). lra.
  Qed.

  Lemma fe_sum_bounds : forall row, Forall dom row ->
      (1 - eps) * rsum (map exp row) <= rsum (map fe row) <= (1 + eps) * rsum (map exp row) /\
      map Rabs (map fe row) = map fe row.
  Proof.
    intros row Hd. induction Hd as [|x row Hx _ [IH IA]]; cbn [map].
    - rewrite !rsum_nil. split; [lra|reflexivity].
    - rewrite !rsum_cons. pose proof (fe_bounds x Hx). split; [lra|].
      rewrite IA, (Rabs_pos_eq (fe x)) by (apply Rlt_le, fe_pos; exact Hx). reflexivity.
  Qed.

  (** relative error of one softmax output over a row of [n] elements *)
  Definition softmax_rho (n : nat) : R := (1 + eps) / ((1 - eps) * (1 - th (n - 1))) - 1.
  Definition softmax_rel (n : nat) : R := (1 + uu) * (1 + softmax_rho n) - 1.

  Lemma softmax_elem_err : forall (row : list R) (x : R),
      row <> [] -> th (length row - 1) < 1 -> Forall dom row -> dom x ->
      let n := length row in
      let Z := rsum (map exp row) in
      let S := vsum O (map fe row) in
      let sigma := exp x / Z in
      0 < Z /\ 0 < S /\ 0 < sigma /\ 0 <= softmax_rho n /\
      Rabs (fe x / S - sigma) <= softmax_rho n * sigma /\
      Rabs (rn (fe x / S) - sigma) <= softmax_rel n * sigma + ee.
  Proof.
    intros row x Hne Hth Hdr Hdx n Z S sigma.
    set (t := th (n - 1)) in *. pose proof (theta_nonneg prec (n - 1)) as Ht0. fold t in Ht0.
    assert (Ht1 : t < 1) by exact Hth.
    destruct (RealDerivs.softmax_row_sum row Hne) as [HZ _]. cbv zeta in HZ.
    change (vsum R_ops (map (fexp R_ops) row)) with Z in HZ.
    destruct (fe_sum_bounds row Hdr) as [[HP1 HP2] HPA].
    set (P := rsum (map fe row)) in *. fold Z in HP1, HP2.
    assert (FP : Forall (fun v => fmt v) (map fe row)).
    { apply Forall_forall. intros v Hv. apply in_map_iff in Hv. destruct Hv as (w & <- & _).
      apply fe_fmt. }
    destruct (vsum_err emin prec (map fe row) FP) as [_ HS].
    rewrite map_length, HPA in HS. fold n t P S in HS. apply Rabs_le_inv in HS.
    (* the computed sum between [(1 - eps) (1 - t) Z] and [(1 + eps) (1 + t) Z] *)
    assert (HSZ : (1 - eps) * (1 - t) * Z <= S <= (1 + eps) * (1 + t) * Z).
    { assert ((1 - t) * ((1 - eps) * Z) <= (1 - t) * P) by (apply Rmult_le_compat_l; lra).
      assert ((1 + t) * P <= (1 + t) * ((1 + eps) * Z)) by (apply Rmult_le_compat_l; lra). lra. }
    destruct (rel_quot eps t (exp x) Z (fe x) S Heps (conj Ht0 Ht1) (exp_pos x) HZ (fe_bounds x Hdx) HSZ)
      as (HS0 & Hrho0 & Hq).
    assert (Hsig : 0 < sigma) by (apply Rdiv_lt_0_compat; [apply exp_pos|exact HZ]).
    split; [exact HZ|]. split; [exact HS0|]. split; [exact Hsig|]. split; [exact Hrho0|].
    split; [exact Hq|].
    pose proof (rel_rn emin prec (softmax_rho n) sigma (fe x / S) 0 Hrho0) as Hr.
    rewrite (Rabs_pos_eq sigma), Rmult_0_r, !Rplus_0_r in Hr by lra. exact (Hr Hq).
  Qed.

  Lemma sum_rel_abs : forall (c k : R) (f g : R -> R) (l : list R),
      (forall v, In v l -> Rabs (f v - g v) <= c * g v + k) ->
      Rabs (rsum (map f l) - rsum (map g l)) <= c * rsum (map g l) + INR (length l) * k.
  Proof.
    intros c k f g l. induction l as [|v l IH]; intros H.
    - cbn [map length INR]. rewrite !rsum_nil, Rminus_0_r, Rabs_R0. lra.
    - cbn [map length]. rewrite S_INR, !rsum_cons.
      replace (f v + rsum (map f l) - (g v + rsum (map g l)))
        with ((f v - g v) + (rsum (map f l) - rsum (map g l))) by ring.
      pose proof (Rabs_triang (f v - g v) (rsum (map f l) - rsum (map g l))) as Tr.
      pose proof (H v (or_introl eq_refl)). specialize (IH (fun w Hw => H w (or_intror Hw))). lra.
  Qed.

  (** the model's [softmax] at the instance with libm [fe], against the model over the reals:
      every output within relative [softmax_rel n] (plus one underflow unit) of the exact
      softmax value, and every row summing to one within [softmax_rel n + n * eta] *)
  Theorem softmax_rounding : forall (a : arr R) lead n,
      wf a -> dims a = lead ++ [n] -> th (n - 1) < 1 -> Forall dom (vals a) ->
      exists cf cr,
        a_softmax OE a = Some cf /\ a_softmax R_ops a = Some cr /\ dims cf = dims cr /\
        (forall J i, in_range J lead -> (i < n)%nat ->
           exists vf vr,
             get cf (J ++ [i]) = Some vf /\ get cr (J ++ [i]) = Some vr /\ 0 < vr /\
             Rabs (vf - vr) <= softmax_rel n * vr + ee) /\
        (forall J, in_range J lead ->
           exists rowf,
             map Some rowf = map (fun i => get cf (J ++ [i])) (seq 0 n) /\
             Rabs (rsum rowf - 1) <= softmax_rel n + INR n * ee).
  Proof.
    intros a lead n Hwa Ed Hth Hda.
    destruct (a_softmax_spec OE a lead n Hwa Ed) as (cf & Hcf & _ & Dcf & Vcf).
    destruct (a_softmax_spec R_ops a lead n Hwa Ed) as (cr & Hcr & _ & Dcr & Vcr).
    destruct (wf_snoc a lead n Hwa Ed) as (Hpl & Hn & Hva).
    assert (Hblk : forall J, in_range J lead -> length (block n (rowmajor lead J) (vals a)) = n).
    { intros J HJ. apply (block_length _ _ (prod lead)); [exact Hva|].
      apply rowmajor_lt_prod. exact HJ. }
    assert (Hne : forall J, in_range J lead -> block n (rowmajor lead J) (vals a) <> []).
    { intros J HJ E. pose proof (Hblk J HJ) as L. rewrite E in L. cbn in L. lia. }
    assert (Hdb : forall J, Forall dom (block n (rowmajor lead J) (vals a))).
    { intros J. unfold block. apply Forall_firstn, Forall_skipn. exact Hda. }
    exists cf, cr. split; [exact Hcf|]. split; [exact Hcr|]. split; [congruence|].
    assert (Helem : forall J i, in_range J lead -> (i < n)%nat ->
              exists x, get a (J ++ [i]) = Some x /\
                let blk := block n (rowmajor lead J) (vals a) in
                get cf (J ++ [i]) = Some (rn (fe x / vsum O (map fe blk))) /\
                get cr (J ++ [i]) = Some (exp x / rsum (map exp blk))).
    { intros J i HJ Hi. destruct (Vcf J i HJ Hi) as (x & Gx & Gf).
      destruct (Vcr J i HJ Hi) as (x' & Gx' & Gr). assert (x' = x) by congruence. subst x'.
      exists x. split; [exact Gx|]. split; [exact Gf|exact Gr]. }
    split.
    - intros J i HJ Hi. destruct (Helem J i HJ Hi) as (x & Gx & Gf & Gr). cbv zeta in Gf, Gr.
      eexists. eexists. split; [exact Gf|]. split; [exact Gr|].
      assert (Hdx : dom x).
      { unfold get in Gx. apply nth_error_In in Gx. exact (proj1 (Forall_forall _ _) Hda x Gx). }
      pose proof (softmax_elem_err _ x (Hne J HJ)) as H. rewrite (Hblk J HJ) in H.
      destruct (H Hth (Hdb J) Hdx) as (_ & _ & Hs & _ & _ & Hb). split; [exact Hs|exact Hb].
    - intros J HJ.
      assert (HlenJ : length J = length lead) by (eapply Forall2_len; exact HJ).
      set (blk := block n (rowmajor lead J) (vals a)).
      assert (Hb : length blk = n) by (apply Hblk; exact HJ).
      set (S := vsum O (map fe blk)). set (Z := rsum (map exp blk)).
      exists (map (fun v => rn (fe v / S)) blk). split.
      + rewrite (list_as_map_seq blk 0) at 1. rewrite Hb, !map_map.
        apply map_ext_in. intros i Hi. apply in_seq in Hi.
        destruct (Helem J i HJ ltac:(lia)) as (x & Gx & Gf & _). cbv zeta in Gf.
        fold blk in Gf. fold S in Gf. rewrite Gf. f_equal. f_equal. f_equal. f_equal.
        pose proof (row_get a lead n J i Ed HlenJ ltac:(lia)) as Hr. fold blk in Hr.
        rewrite Gx in Hr. apply nth_error_nth. exact Hr.
      + destruct (RealDerivs.softmax_row_sum blk (Hne J HJ)) as [_ H1]. cbv zeta in H1.
        change (vsum R_ops (map (fun v => fdiv R_ops (fexp R_ops v)
                                               (vsum R_ops (map (fexp R_ops) blk))) blk))
          with (rsum (map (fun v => exp v / Z) blk)) in H1.
        pose proof (sum_rel_abs (softmax_rel n) ee (fun v => rn (fe v / S))
                                (fun v => exp v / Z) blk) as H.
        rewrite H1, Hb, Rmult_1_r in H. apply H. intros v Hv.
        pose proof (softmax_elem_err blk v (Hne J HJ)) as G. rewrite Hb in G.
        destruct (G Hth (Hdb J) (proj1 (Forall_forall _ _) (Hdb J) v Hv))
          as (_ & _ & _ & _ & _ & G'). exact G'.
  Qed.
End SoftmaxRounding.

(** the idealised [fexp] of [rounded_ops] meets the hypotheses of the section with [eps = u]
    on the inputs whose exponential is in the normal range *)
Section SoftmaxIdeal.
  Variables emin prec : Z.
  Context {Hprec : Prec_gt_0 prec}.

  Definition exp_normal (x : R) : Prop := bpow radix2 (emin + prec - 1) <= exp x.

  Lemma u_lt_1 : u prec < 1.
  Proof. unfold u. change 1 with (bpow radix2 0). apply bpow_lt. unfold Prec_gt_0 in Hprec. lia. Qed.

  Lemma rounded_exp_ok :
      0 <= u prec < 1 /\
      (forall x, generic_format radix2 (FLT_exp emin prec) (fexp (rounded_ops emin prec) x)) /\
      (forall x, exp_normal x ->
                 Rabs (fexp (rounded_ops emin prec) x - exp x) <= u prec * exp x).
  Proof.
    split; [split; [apply Rlt_le, u_pos|apply u_lt_1]|]. split.
    - intros x. apply (rn_fmt emin prec).
    - intros x Hx. cbn [fexp rounded_ops].
      pose proof (rn_err_normal emin prec (exp x)) as H.
      rewrite (Rabs_pos_eq (exp x)) in H by (apply Rlt_le, exp_pos). apply H.
      right. rewrite Rabs_pos_eq by (apply Rlt_le, exp_pos). exact Hx.
  Qed.

  Theorem softmax_rounding_ideal : forall (a : arr R) lead n,
      wf a -> dims a = lead ++ [n] -> theta prec (n - 1) < 1 -> Forall exp_normal (vals a) ->
      exists cf cr,
        a_softmax (rounded_ops emin prec) a = Some cf /\ a_softmax R_ops a = Some cr /\
        dims cf = dims cr /\
        (forall J i, in_range J lead -> (i < n)%nat ->
           exists vf vr,
             get cf (J ++ [i]) = Some vf /\ get cr (J ++ [i]) = Some vr /\ 0 < vr /\
             Rabs (vf - vr) <= softmax_rel prec (u prec) n * vr + eta emin) /\
        (forall J, in_range J lead ->
           exists rowf,
             map Some rowf = map (fun i => get cf (J ++ [i])) (seq 0 n) /\
             Rabs (rsum rowf - 1) <= softmax_rel prec (u prec) n + INR n * eta emin).
  Proof.
    intros a lead n Hwa Ed Hth Hd. destruct rounded_exp_ok as (H1 & H2 & H3).
    exact (softmax_rounding emin prec (fexp (rounded_ops emin prec)) (u prec) exp_normal
                            H1 H2 H3 a lead n Hwa Ed Hth Hd).
  Qed.
End SoftmaxIdeal.

Lemma fmt32_small_int : forall z, (Z.abs z < 16777216)%Z ->
    generic_format radix2 (FLT_exp (-149) 24) (IZR z).
Proof. intros z Hz. apply (fmt_IZR (-149) 24); [lia|exact Hz]. Qed.

Lemma bpow_m126_le_1 : bpow radix2 (-149 + 24 - 1) <= 1.
Proof. change 1 with (bpow radix2 0). apply bpow_le. lia. Qed.

(** dense layer [[1 2]] * [[3 4]]^T + [5] = [[16]] *)
Example dense_f32_example :
  let x := {| dims := [1; 2]%nat; vals := [1; 2] |} in
  let w := {| dims := [1; 2]%nat; vals := [3; 4] |} in
  let b := {| dims := [1]%nat; vals := [5] |} in
  exists y32 y64 yr v32 v64,
    a_matmul binary32_ops x false w true (Some b) = Some y32 /\
    a_matmul binary64_ops x false w true (Some b) = Some y64 /\
    a_matmul R_ops x false w true (Some b) = Some yr /\
    get yr [0; 0]%nat = Some 16 /\
    get y32 [0; 0]%nat = Some v32 /\ get y64 [0; 0]%nat = Some v64 /\
    Rabs (v32 - 16) <= gamma 24 3 * 16 /\
    Rabs (v32 - v64) <= (gamma 24 3 + gamma 53 3) * 16.
Proof.
  intros x w b.
  assert (Hwx : wf x) by (split; cbn; [repeat constructor|reflexivity]).
  assert (Hww : wf w) by (split; cbn; [repeat constructor|reflexivity]).
  assert (Hwb : wf b) by (split; cbn; [repeat constructor|reflexivity]).
  assert (Fb : fmt_arr (-149) 24 b).
  { unfold fmt_arr, b. cbn [vals]. constructor; [|constructor]. apply (fmt32_small_int 5). lia. }
  assert (Hk : (Z.of_nat 3 < 16777216)%Z) by (cbn; lia).
  destruct (dense_rounding_gamma (-149) 24 x w b 1 2 1 Hwx Hww Hwb eq_refl eq_refl eq_refl Fb
                                 (nu32_lt_1 _ Hk)) as (y32 & yr & H32 & Hr & _ & _ & V1).
  destruct (dense_f32_f64 x w b 1 2 1 Hwx Hww Hwb eq_refl eq_refl eq_refl Fb Hk)
    as (y32' & y64 & H32' & H64 & _ & _ & V2).
  assert (y32' = y32) by (unfold binary32_ops in H32'; congruence). subst y32'.
  destruct (V1 0%nat 0%nat ltac:(lia) ltac:(lia)) as (v32 & G32 & Gr & _ & B1).
  destruct (V2 0%nat 0%nat ltac:(lia) ltac:(lia)) as (v32' & v64 & G32' & G64 & _ & B2).
  assert (v32' = v32) by congruence. subst v32'. cbv zeta in *.
  assert (Et : dense_terms x w 0 0 2 = [1 * 3; 2 * 4]) by reflexivity.
  assert (Eb : getd R_ops b [0%nat] = 5) by reflexivity.
  rewrite Et, Eb in *.
  assert (Hno : Forall (no_uflow (-149) 24) [1 * 3; 2 * 4]).
  { pose proof bpow_m126_le_1.
    constructor; [|constructor; [|constructor]]; right; rewrite Rabs_pos_eq by lra; lra. }
  specialize (B1 Hno). specialize (B2 Hno).
  assert (ET : Rabs 5 + rsum (map Rabs [1 * 3; 2 * 4]) = 16).
  { unfold vsum. cbn. rewrite !Rabs_pos_eq by lra. lra. }
  assert (EX : 5 + rsum [1 * 3; 2 * 4] = 16) by (unfold vsum; cbn; lra).
  rewrite ET in B1, B2. rewrite EX in B1, Gr.
  exists y32, y64, yr, v32, v64.
  split; [exact H32|]. split; [exact H64|]. split; [exact Hr|]. split; [exact Gr|].
  split; [exact G32|]. split; [exact G64|]. split; [exact B1|exact B2].
Qed.

(** mean squared error of targets [1 2] against outputs [0 4]: [(1 + 4) / 2] *)
Example mse_f32_example :
  let t := {| dims := [2]%nat; vals := [1; 2] |} in
  let y := {| dims := [2]%nat; vals := [0; 4] |} in
  exists v32 v64,
    a_mse binary32_ops t y = Some v32 /\ a_mse binary64_ops t y = Some v64 /\
    a_mse R_ops t y = Some (5 / 2) /\
    Rabs (v32 - 5 / 2) <= gamma 24 6 * (5 / 2) + 2 * mse_kappa (-149) 24 * (1 + gamma 24 1) /\
    Rabs (v32 - v64)
    <= (gamma 24 6 + gamma 53 6) * (5 / 2)
       + 2 * (mse_kappa (-149) 24 * (1 + gamma 24 1) + mse_kappa (-1074) 53 * (1 + gamma 53 1)).
Proof.
  intros t y.
  assert (Hwt : wf t) by (split; cbn; [repeat constructor|reflexivity]).
  assert (Hwy : wf y) by (split; cbn; [repeat constructor|reflexivity]).
  assert (Hne : dims t <> []) by discriminate.
  assert (Ft : fmt_arr (-149) 24 t).
  { unfold fmt_arr, t. cbn [vals]. repeat constructor; apply fmt32_small_int; lia. }
  assert (Fy : fmt_arr (-149) 24 y).
  { unfold fmt_arr, y. cbn [vals]. repeat constructor; apply fmt32_small_int; lia. }
  assert (Hlt : (Z.of_nat (prod (dims y)) + 4 < 16777216)%Z) by (cbn; lia).
  destruct (mse_side_f32 (prod (dims y)) ltac:(cbn; lia) Hlt) as (FN & HNn & Hk).
  destruct (mse_rounding_gamma (-149) 24 ltac:(lia) t y Hwt Hwy eq_refl Hne Ft Fy FN HNn Hk)
    as (v32 & H32 & Hr & B1).
  destruct (mse_f32_f64 t y Hwt Hwy eq_refl Hne Ft Fy Hlt) as (v32' & v64 & H32' & H64 & B2).
  assert (v32' = v32) by (unfold binary32_ops in H32'; congruence). subst v32'.
  assert (EM : mse_exact t y = 5 / 2).
  { unfold mse_exact, mse_terms, vsum. cbn. lra. }
  rewrite EM in *. change (prod (dims y)) with 2%nat in B1, B2.
  change (INR 2) with (1 + 1) in B1, B2. replace (1 + 1) with 2 in B1, B2 by lra.
  exists v32, v64. split; [exact H32|]. split; [exact H64|]. split; [exact Hr|].
  split; [exact B1|exact B2].
Qed.

(** softmax of the row [0 1] in binary32 with the correctly rounded [exp] *)
Example softmax_f32_example :
  let a := {| dims := [1; 2]%nat; vals := [0; 1] |} in
  exists cf v0 v1,
    a_softmax binary32_ops a = Some cf /\
    get cf [0; 0]%nat = Some v0 /\ get cf [0; 1]%nat = Some v1 /\
    Rabs (v0 - exp 0 / (exp 0 + exp 1))
    <= softmax_rel 24 (u 24) 2 * (exp 0 / (exp 0 + exp 1)) + eta (-149) /\
    Rabs (v0 + v1 - 1) <= softmax_rel 24 (u 24) 2 + 2 * eta (-149).
Proof.
  intros a.
  assert (Hwa : wf a) by (split; cbn; [repeat constructor|reflexivity]).
  assert (Hth : theta 24 (2 - 1) < 1).
  { cbn [Nat.sub]. rewrite (theta_1 24). apply (u_lt_1 24). }
  assert (Hd : Forall (exp_normal (-149) 24) (vals a)).
  { pose proof bpow_m126_le_1. unfold a. cbn [vals].
    constructor; [|constructor; [|constructor]]; unfold exp_normal.
    - rewrite exp_0. lra.
    - pose proof (exp_increasing 0 1 ltac:(lra)). rewrite exp_0 in *. lra. }
  destruct (softmax_rounding_ideal (-149) 24 a [1%nat] 2 Hwa eq_refl Hth Hd)
    as (cf & cr & Hcf & Hcr & _ & Ve & Vr).
  assert (R0 : in_range [0%nat] [1%nat]) by (constructor; [lia|constructor]).
  destruct (Ve [0%nat] 0%nat R0 ltac:(lia)) as (v0 & vr0 & G0 & Gr0 & _ & B0).
  destruct (Vr [0%nat] R0) as (rowf & Hm & Bs).
  cbn [seq map app] in Hm, G0, Gr0.
  destruct rowf as [|w0 [|w1 [|? ?]]]; try discriminate Hm.
  cbn [map] in Hm. inversion Hm as [[E0 E1]].
  assert (w0 = v0) by congruence. subst w0.
  (* the exact value of the first output *)
  destruct (a_softmax_spec R_ops a [1%nat] 2 Hwa eq_refl) as (cr' & Hcr' & _ & _ & Vcr).
  assert (cr' = cr) by congruence. subst cr'.
  destruct (Vcr [0%nat] 0%nat R0 ltac:(lia)) as (x0 & Gx0 & Gc0). cbn [app] in Gx0, Gc0.
  assert (x0 = 0) by (unfold get in Gx0; cbn in Gx0; congruence). subst x0.
  assert (Evr : vr0 = exp 0 / (exp 0 + exp 1)).
  { rewrite Gc0 in Gr0. inversion Gr0 as [E]. unfold vsum. cbn. f_equal. ring. }
  subst vr0.
  exists cf, v0, w1. split; [exact Hcf|]. split; [exact G0|]. split; [symmetry; exact E1|].
  split; [exact B0|].
  unfold vsum in Bs. cbn [fold_left fadd f0 R_ops INR] in Bs.
  replace (v0 + w1 - 1) with (0 + v0 + w1 - 1) by ring.
  replace 2 with (1 + 1) by lra. exact Bs.
Qed.

(** Axioms used (all declared by Coq's standard library; none by this development) *)
Print Assumptions vsum_close_terms.
Print Assumptions dot_close_terms.
Print Assumptions dense_rounding.
Print Assumptions dense_rounding_gamma.
Print Assumptions a_mse_spec.
Print Assumptions a_mse_real.
Print Assumptions mse_rounding.
Print Assumptions mse_rounding_gamma.
Print Assumptions dense_two_formats.
Print Assumptions mse_two_formats.
Print Assumptions dense_f32_f64.
Print Assumptions mse_f32_f64.
Print Assumptions softmax_elem_err.
Print Assumptions softmax_rounding.
Print Assumptions softmax_rounding_ideal.
Print Assumptions dense_f32_example.
Print Assumptions mse_f32_example.
Print Assumptions softmax_f32_example.
