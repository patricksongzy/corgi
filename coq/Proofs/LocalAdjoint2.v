(** C02, local part, continued: the remaining closures in the uniform formulation
    [local_identity] of Proofs/LocalAdjoint.v (user-defined operations, sigmoid,
    expand, matmul, unroll). *)

From Coq Require Import List Arith Bool Lia PeanoNat ZArith Permutation FinFun Ring_theory Ring.
From Corgi Require Import Lib.OptionMonad Lib.IdxDefs Lib.Idx Model.Scalar Model.Arr
     Model.SlicedOp Model.Elementwise Model.Linalg Model.Image Model.Ops Lib.Sums
     Proofs.ArrFacts Proofs.BroadcastDims Proofs.SpecDefs Proofs.SlicedOpSpec Proofs.EwSpec
     Proofs.ReduceSpec Proofs.FlattenSpec Proofs.MatmulSpec Proofs.ConvSpec Proofs.DualLift
     Proofs.LocalAdjoint.
Import ListNotations.

Definition fwd3 {G} (f : arr G -> arr G -> arr G -> option (arr G)) (l : list (arr G))
  : option (arr G) :=
  match l with [a; b; c] => f a b c | _ => None end.

Lemma encode_flat3 : forall p q pos L,
    1 <= p -> 1 <= q -> pos < L * (p * q) ->
    let t := pos / (p * q) in let w := pos mod (p * q) in
    t < L /\ w / q < p /\ w mod q < q /\ pos = (p * q) * t + (q * (w / q) + w mod q).
Proof.
  intros p q pos L Hp Hq Hpos t w.
  assert (Npq : p * q <> 0) by nia.
  pose proof (Nat.div_mod pos (p * q) Npq) as H1.
  pose proof (Nat.mod_upper_bound pos (p * q) Npq) as Hw. fold t w in H1, Hw.
  pose proof (Nat.div_mod w q ltac:(lia)) as H2.
  pose proof (Nat.mod_upper_bound w q ltac:(lia)) as Hv.
  split; [apply Nat.div_lt_upper_bound; [exact Npq|lia]|].
  split; [apply Nat.div_lt_upper_bound; lia|]. split; [exact Hv|]. lia.
Qed.

Lemma sub_lead_tail : forall tail m, sub_lead tail (m ++ tail).
Proof. intros tail m. exact (sub_lead_app [] m tail (sub_lead_nil m)). Qed.

Lemma bclamp_snoc2 : forall la J x y u v,
    length la <= length J -> u < x -> v < y ->
    bclamp (la ++ [x; y]) (J ++ [u; v]) = bclamp la J ++ [u; v].
Proof.
  intros la J x y u v Hl Hu Hv.
  change (la ++ [x; y]) with (la ++ [x] ++ [y]). change (J ++ [u; v]) with (J ++ [u] ++ [v]).
  rewrite !app_assoc.
  rewrite bclamp_snoc by (rewrite !app_length; cbn [length]; lia).
  rewrite bclamp_snoc by exact Hl. rewrite <- app_assoc. cbn [app].
  destruct (Nat.eqb_spec x 1) as [->|_]; destruct (Nat.eqb_spec y 1) as [->|_];
    repeat f_equal; lia.
Qed.

Lemma prod_snoc2 : forall l x y, prod (l ++ [x; y]) = prod l * (x * y).
Proof. intros. rewrite prod_app. cbn [prod fold_right]. lia. Qed.

Section MMEntries.
  Context {F : Type} (O : ScalarOps F).
  Local Notation D2 := (dual_ops O).
  Local Notation "l '@' j" := (nth j l (f0 O)) (at level 9, j at level 9).

  Lemma getd_lift : forall (a t : arr F) I,
      wf a -> tangent_for a t -> getd D2 (lift a t) I = (getd O a I, getd O t I).
  Proof.
    intros a t I Hwa Ht. unfold getd. cbn [lift dims]. destruct Ht as [Hwt Hdt].
    rewrite Hdt. apply lift_nth. apply tangent_for_length; [exact Hwa|split; assumption].
  Qed.

  (** the entry at batch [t], row [u], column [v] of an array of dimensions [lead ++ [p; q]] *)
  Lemma getd_flat3 : forall (x : arr F) lead p q t u v,
      dims x = lead ++ [p; q] -> Forall (fun d => 1 <= d) lead -> t < prod lead ->
      getd O x (unrank lead t ++ [u; v]) = (vals x) @ ((p * q) * t + (q * u + v)).
  Proof.
    intros x lead p q t u v Ed Hl Ht. unfold getd. rewrite Ed.
    rewrite rowmajor_snoc2 by (rewrite unrank_length; reflexivity).
    rewrite rowmajor_unrank by assumption. f_equal. lia.
  Qed.

  (** the position of [la ++ [x; y]] read by position [(t, u, v)] of [lead ++ [x; y]] *)
  Lemma bpos_flat3 : forall (w : arr F) la lead x y t u v,
      dims w = la ++ [x; y] -> Forall (fun d => 1 <= d) lead -> sub_lead la lead ->
      t < prod lead -> u < x -> v < y ->
      (vals w) @ (bpos (lead ++ [x; y]) (la ++ [x; y]) ((x * y) * t + (y * u + v)))
      = getd O w (bclamp la (unrank lead t) ++ [u; v]).
  Proof.
    intros w la lead x y t u v Ed Hl Hsub Ht Hu Hv. unfold bpos, getd.
    assert (HI : in_range (unrank lead t ++ [u; v]) (lead ++ [x; y])).
    { apply in_range_snoc2; [apply unrank_lt; exact Hl|exact Hu|exact Hv]. }
    replace ((x * y) * t + (y * u + v)) with (rowmajor (lead ++ [x; y]) (unrank lead t ++ [u; v])).
    - rewrite (unrank_rowmajor _ _ HI).
      rewrite bclamp_snoc2 by (try assumption; rewrite unrank_length; apply Hsub).
      rewrite Ed. reflexivity.
    - rewrite rowmajor_snoc2 by (rewrite unrank_length; reflexivity).
      rewrite rowmajor_unrank by assumption. lia.
  Qed.
End MMEntries.

Section Closures.
  Context {F : Type} (O : ScalarOps F) (R : is_cring O).
  Local Notation D2 := (dual_ops O).

  Let Rth : ring_theory (f0 O) (f1 O) (fadd O) (fmul O) (fsub O) (fneg O) (@eq F) := R.
  Add Ring la2_ring : Rth.

  Local Notation "l '@' j" := (nth j l (f0 O)) (at level 9, j at level 9).

Section Custom.

  Lemma zip_vals_some : forall {G} (f : G -> G -> G) (a b r : arr G),
      zip_vals f a b = Some r ->
      wf r /\ dims r = dims a /\
      vals r = map (fun p => f (fst p) (snd p)) (combine (vals a) (vals b)).
  Proof.
    intros G f a b r H. unfold zip_vals in H. apply mk_some in H. destruct H as (Hp & Hl & ->).
    split; [split; assumption|]. split; reflexivity.
  Qed.

  (** the two operands have the same dimensions (no broadcasting in these operations) *)
  Definition same_dims2 (cs : list (arr F)) : Prop :=
    dims (nth 0 cs dummy_arr) = dims (nth 1 cs dummy_arr).

  (** common part of the two-argument operations: forward [zip_vals fD]; the closure delivers
      [h0 a_j b_j delta_j] and [h1 a_j b_j delta_j], the partial derivatives of [fD]
      multiplied by the adjoint *)
  Lemma custom2_local : forall (fD : @dual F -> @dual F -> @dual F) op (h0 h1 : F -> F -> F -> F),
      (forall A B, custom_forward D2 op [A; B] = zip_vals fD A B) ->
      (forall (a b delta : arr F) flags ds,
          wf a -> wf b -> dims a = dims b -> wf delta -> dims delta = dims a ->
          run_bop O (BCustom op) [a; b] flags delta = Some ds ->
          exists od0 od1,
            ds = [od0; od1] /\
            deliv O (dims a) (flag flags 0) od0
                       (fun j => h0 ((vals a) @ j) ((vals b) @ j) ((vals delta) @ j)) /\
            deliv O (dims b) (flag flags 1) od1
                       (fun j => h1 ((vals a) @ j) ((vals b) @ j) ((vals delta) @ j))) ->
      (forall av bv dv x' y',
          fmul O dv (snd (fD (av, x') (bv, y')))
          = fadd O (fmul O (h0 av bv dv) x') (fmul O (h1 av bv dv) y')) ->
      local_identity O 2 same_dims2 (custom_forward D2 op) (fun _ _ => BCustom op).
  Proof.
    intros fD op h0 h1 Hfw Hspec Hid. apply (local_identity_2 O R).
    intros a b ta tb flags delta RD ds Hpre Hwa Hwb Hta Htb Hta' Htb' Hfwd Hwd Hdd Hrun.
    unfold same_dims2 in Hpre. cbn [nth] in Hpre. rewrite Hfw in Hfwd.
    set (ta' := mask O (flag flags 0) ta) in *. set (tb' := mask O (flag flags 1) tb) in *.
    destruct (zip_vals_some fD _ _ RD Hfwd) as (HwR & HdR & HvR).
    cbn [lift dims vals] in HdR, HvR. rewrite HdR in Hdd.
    pose proof (tangent_for_length a ta' Hwa Hta') as Hlta.
    pose proof (tangent_for_length b tb' Hwb Htb') as Hltb.
    pose proof (wf_same_length b a Hwb Hwa (eq_sym Hpre)) as Hlab.
    pose proof (wf_same_length delta a Hwd Hwa Hdd) as Hld.
    assert (HlR : length (vals RD) = length (vals a)).
    { destruct Hwa as [_ H1]. destruct HwR as [_ H2]. rewrite <- H1, <- H2, HdR. reflexivity. }
    destruct (Hspec a b delta flags ds Hwa Hwb Hpre Hwd Hdd Hrun) as (od0 & od1 & -> & Hd0 & Hd1).
    destruct (deliv_own_term O R a ta _ od0 _ Hwa Hta Hd0) as (x0 & Hx0 & ->).
    destruct (deliv_own_term O R b tb _ od1 _ Hwb Htb Hd1) as (x1 & Hx1 & ->).
    exists od0, od1. do 2 eexists. split; [reflexivity|]. split; [exact Hx0|]. split; [exact Hx1|].
    rewrite (dot_tangent O _ RD (length (vals a)) Hld HlR). fold ta' tb'.
    rewrite Hlab, <- (vsum_map_add O R).
    f_equal. apply map_ext_in. intros j Hj. apply in_seq in Hj.
    rewrite HvR, (nth_zip fD _ _ j _ (f0 D2) (f0 D2)) by (unfold dual; rewrite combine_length; lia).
    change (nth j (combine (vals a) (vals ta')) (f0 D2)) with (nth j (vals (lift a ta')) (f0 D2)).
    change (nth j (combine (vals b) (vals tb')) (f0 D2)) with (nth j (vals (lift b tb')) (f0 D2)).
    rewrite !lift_nth by assumption. apply Hid.
  Qed.

  Theorem cmul_local :
    local_identity O 2 same_dims2 (custom_forward D2 CMul) (fun _ _ => BCustom CMul).
  Proof.
    apply (custom2_local (fmul D2) CMul (fun _ bv dv => fmul O bv dv) (fun av _ dv => fmul O av dv)).
    - reflexivity.
    - intros a b delta flags ds Hwa Hwb Hab Hwd Hdd Hrun. cbn [run_bop] in Hrun.
      revert Hrun. apply obind_elim. intros od0 H0 Hrun.
      revert Hrun. apply obind_elim. intros od1 H1 Hrun. inversion Hrun; subst ds.
      exists od0, od1. split; [reflexivity|]. split.
      + apply (when_deliv O (dims a) _ _ _ _ H0). intros r.
        exact (pw_zip O a b delta r _ _ _ Hwa (pw_self O a b Hwb (eq_sym Hab)) (pw_self O a delta Hwd Hdd)).
      + apply (when_deliv O (dims b) _ _ _ _ H1). intros r.
        exact (pw_zip O b a delta r _ _ _ Hwb (pw_self O b a Hwa Hab) (pw_self O b delta Hwd (eq_trans Hdd Hab))).
    - intros av bv dv x' y'. cbn [dual_ops fmul fst snd]. ring.
  Qed.

  Theorem caff_local :
    local_identity O 2 same_dims2 (custom_forward D2 CAff) (fun _ _ => BCustom CAff).
  Proof.
    apply (custom2_local (fun x y => fadd D2 x (fmul D2 (two D2) y)) CAff
                         (fun _ _ dv => dv) (fun _ _ dv => fmul O dv (two O))).
    - reflexivity.
    - intros a b delta flags ds Hwa Hwb Hab Hwd Hdd Hrun. cbn [run_bop] in Hrun.
      revert Hrun. apply obind_elim. intros od1 H1 Hrun. inversion Hrun; subst ds.
      eexists. exists od1. split; [reflexivity|]. split.
      + apply (flag_deliv O (dims a) delta _ Hwd Hdd).
      + apply (when_deliv O (dims b) _ _ _ _ H1). intros r.
        exact (pw_map O b delta r _ _ Hwb (pw_self O b delta Hwd (eq_trans Hdd Hab))).
    - intros av bv dv x' y'. unfold two. cbn [dual_ops fadd fmul f1 fst snd]. ring.
  Qed.

  Theorem csq_local :
    local_identity O 1 no_pre (custom_forward D2 CSq) (fun _ _ => BCustom CSq).
  Proof.
    apply (local_identity_1 O R).
    intros a t flags delta RD ds _ Hwa Ht Ht' Hfwd Hwd Hdd Hrun. cbn [custom_forward] in Hfwd.
    set (t' := mask O (flag flags 0) t) in *.
    destruct (zip_vals_some (fmul D2) _ _ RD Hfwd) as (HwR & HdR & HvR).
    cbn [lift dims vals] in HdR, HvR. rewrite HdR in Hdd.
    pose proof (tangent_for_length a t' Hwa Ht') as Hlt.
    pose proof (wf_same_length delta a Hwd Hwa Hdd) as Hld.
    assert (HlR : length (vals RD) = length (vals a)).
    { destruct Hwa as [_ H1]. destruct HwR as [_ H2]. rewrite <- H1, <- H2, HdR. reflexivity. }
    cbn [run_bop] in Hrun.
    revert Hrun. apply obind_elim. intros od Hod Hrun. inversion Hrun; subst ds.
    assert (Hd : deliv O (dims a) (flag flags 0) od
                            (fun j => fmul O (fmul O ((vals a) @ j) (two O)) ((vals delta) @ j))).
    { apply (when_deliv O (dims a) _ _ _ _ Hod). intros r Hr.
      revert Hr. apply obind_elim. intros s Hs Hr.
      exact (pw_zip O a s delta r _ _ _ Hwa (pw_map O a a s _ _ Hwa (pw_self O a a Hwa eq_refl) Hs)
                    (pw_self O a delta Hwd Hdd) Hr). }
    destruct (deliv_own_term O R a t _ od _ Hwa Ht Hd) as (x & Hx & ->).
    exists od. eexists. split; [reflexivity|]. split; [exact Hx|].
    rewrite (dot_tangent O _ RD (length (vals a)) Hld HlR). fold t'.
    f_equal. apply map_ext_in. intros j Hj. apply in_seq in Hj.
    rewrite HvR, (nth_zip (fmul D2) _ _ j _ (f0 D2) (f0 D2))
      by (unfold dual; rewrite combine_length; lia).
    change (nth j (combine (vals a) (vals t')) (f0 D2)) with (nth j (vals (lift a t')) (f0 D2)).
    rewrite !lift_nth by assumption. unfold two. cbn [dual_ops fmul fst snd]. ring.
  Qed.
End Custom.

Section Sigmoid.

  (** the dual-number run of [sigmoid_fn]: value and tangent [s (1 - s) x'].  Proved for the
      real numbers as [RealDerivs.sigmoid_dual]. *)
  Hypothesis Hsig_fst : forall x x', fst (sigmoid_fn D2 (x, x')) = sigmoid_fn O x.
  Hypothesis Hsig : forall x x',
      snd (sigmoid_fn D2 (x, x'))
      = fmul O (fmul O (sigmoid_fn O x) (fsub O (f1 O) (sigmoid_fn O x))) x'.

  Lemma sigmoid_closure :
    unary_closure_spec O (sigmoid_fn O) (sigmoid_fn D2) (fun _ r => BSigmoid (vals r)).
  Proof.
    exists (fun cv dv => fmul O (fmul O (sigmoid_fn O cv) (fsub O (f1 O) (sigmoid_fn O cv))) dv).
    split.
    - intros c delta flags ds Hwc Hwd Hdd Hrun. cbn [run_bop map_result vals] in Hrun.
      revert Hrun. apply obind_elim. intros d Hd Hrun. inversion Hrun; subst ds.
      exists d. split; [reflexivity|].
      pose proof (wf_same_length delta c Hwd Hwc Hdd) as Hl.
      destruct (pw_mul_values O c d _ _ (eq_trans (map_length _ _) (map_length _ _)) Hl Hd)
        as (Hw & Hdd' & Hv).
      split; [exact Hw|]. split; [exact Hdd'|]. intros j Hj. rewrite (Hv j Hj).
      rewrite (proj2 Hwc) in Hj. rewrite (nth_map_in O) by (rewrite map_length; exact Hj).
      rewrite (nth_map_in O) by exact Hj. reflexivity.
    - intros cv dv x'. rewrite Hsig. ring.
  Qed.

  Theorem sigmoid_local :
    local_identity O 1 no_pre (fwd1 (a_sigmoid D2)) (fun _ r => BSigmoid (vals r)).
  Proof.
    apply (unary_local O R (sigmoid_fn O) (sigmoid_fn D2)); [|exact sigmoid_closure].
    intros [x x']. apply Hsig_fst.
  Qed.
End Sigmoid.

Section Scatter.

  Lemma NoDup_snoc_inv : forall {A} (l : list A) x, NoDup (l ++ [x]) -> NoDup l /\ ~ In x l.
  Proof.
    intros A l x H. split.
    - apply NoDup_remove_1 in H. rewrite app_nil_r in H. exact H.
    - apply NoDup_remove_2 in H. rewrite app_nil_r in H. exact H.
  Qed.

  (** a loop whose step [ii] assigns [w ii] to position [iota ii] of the buffer, or adds it
      there ([summed]); an assigning loop writes no position twice and starts from zero *)
  Lemma scatter_fold : forall (summed : bool) (step : list F -> nat -> option (list F))
                              (iota : nat -> nat) (w : nat -> F) l out0,
      (forall out ii, In ii l -> length out = length out0 ->
         iota ii < length out0 /\
         step out ii = Some (put_at (iota ii) (if summed then fadd O (out @ (iota ii)) (w ii) else w ii) out)) ->
      (summed = false -> NoDup (map iota l) /\ forall p, out0 @ p = f0 O) ->
      exists out,
        fold_left (fun acc ii => out <- acc ;; step out ii) l (Some out0) = Some out /\
        length out = length out0 /\
        forall p, out @ p
                  = fadd O (out0 @ p) (vsum O (map (fun ii => if iota ii =? p then w ii else f0 O) l)).
  Proof.
    intros summed step iota w l out0. induction l as [|ii l IH] using rev_ind; intros Hstep Hassign.
    - exists out0. split; [reflexivity|]. split; [reflexivity|]. intros p. cbn [map].
      rewrite (vsum_nil O). ring.
    - destruct IH as (out & Hf & Hlen & Hv).
      { intros out j Hj. apply Hstep. apply in_or_app. left. exact Hj. }
      { intros E. destruct (Hassign E) as [Hnd H0]. split; [|exact H0].
        rewrite map_app in Hnd. apply NoDup_snoc_inv in Hnd. apply Hnd. }
      destruct (Hstep out ii) as [Hi Es]; [apply in_or_app; right; left; reflexivity|exact Hlen|].
      eexists. rewrite fold_left_app, Hf. cbn [fold_left obind].
      split; [exact Es|]. split; [rewrite put_at_length; lia|].
      intros p. rewrite put_at_nth by lia. rewrite map_app, (vsum_app O R). cbn [map].
      rewrite (vsum_single O R), (Nat.eqb_sym p).
      destruct (Nat.eqb_spec (iota ii) p) as [E|E]; [|rewrite Hv; ring].
      destruct summed; [rewrite E, Hv; ring|].
      destruct (Hassign eq_refl) as [Hnd H0]. rewrite map_app in Hnd. apply NoDup_snoc_inv in Hnd.
      rewrite H0, (vsum_ind_false O R); [ring|]. intros j Hj. apply Nat.eqb_neq. intros E'.
      apply (proj2 Hnd). apply in_map_iff. exists j. split; [congruence|exact Hj].
  Qed.

  Lemma scatter_assign : forall (iota : nat -> nat) (x : list F) n l,
      (forall ii, In ii l -> ii < length x /\ iota ii < n) -> NoDup (map iota l) ->
      exists out,
        fold_left (fun acc di => out <- acc ;; v <- nth_error x di ;; set_nth (iota di) v out)
                  l (Some (repeat (f0 O) n)) = Some out /\
        length out = n /\
        forall p, out @ p = vsum O (map (fun ii => if iota ii =? p then x @ ii else f0 O) l).
  Proof.
    intros iota x n l Hin Hnd.
    destruct (scatter_fold false (fun out di => v <- nth_error x di ;; set_nth (iota di) v out)
                           iota (fun ii => x @ ii) l (repeat (f0 O) n)) as (out & Hf & Hl & Hv).
    - intros out ii Hii Hlo. rewrite repeat_length in *. destruct (Hin ii Hii) as [Hx Hi].
      split; [exact Hi|]. rewrite (nth_error_nth' x (f0 O) Hx). apply set_nth_put_at. lia.
    - intros _. split; [exact Hnd|]. intros p. apply nth_repeat_same.
    - exists out. split; [exact Hf|]. split; [rewrite Hl; apply repeat_length|].
      intros p. rewrite Hv, nth_repeat_same. apply (cr_add_0_l O R).
  Qed.

  Lemma scatter_add : forall (iota : nat -> nat) (s : list F) l out0,
      (forall ii, In ii l -> ii < length s /\ iota ii < length out0) ->
      exists out,
        fold_left (fun acc ii => out <- acc ;; x <- nth_error s ii ;;
                                 o <- nth_error out (iota ii) ;;
                                 set_nth (iota ii) (fadd O o x) out)
                  l (Some out0) = Some out /\
        length out = length out0 /\
        forall p, out @ p
                  = fadd O (out0 @ p) (vsum O (map (fun ii => if iota ii =? p then s @ ii else f0 O) l)).
  Proof.
    intros iota s l out0 Hin.
    apply (scatter_fold true (fun out ii => x <- nth_error s ii ;; o <- nth_error out (iota ii) ;;
                                            set_nth (iota ii) (fadd O o x) out)
                        iota (fun ii => s @ ii)); [|discriminate].
    intros out ii Hii Hlo. destruct (Hin ii Hii) as [Hx Hi]. split; [exact Hi|].
    rewrite (nth_error_nth' s (f0 O) Hx). cbn [obind].
    rewrite (nth_error_nth' out (f0 O)) by lia. apply set_nth_put_at. lia.
  Qed.

  (** pairing a scattered buffer with [t] is pairing the source with the gathered [t] *)
  Lemma scatter_dot : forall (iota : nat -> nat) (x t : nat -> F) n l,
      (forall ii, In ii l -> iota ii < n) ->
      vsum O (map (fun p => fmul O (vsum O (map (fun ii => if iota ii =? p then x ii else f0 O) l))
                                 (t p)) (seq 0 n))
      = vsum O (map (fun ii => fmul O (x ii) (t (iota ii))) l).
  Proof.
    intros iota x t n l Hin. symmetry.
    transitivity (vsum O (map (fun ii => if (fun _ : nat => true) (iota ii)
                                        then fmul O (x ii) (t (iota ii)) else f0 O) l));
      [reflexivity|].
    rewrite (vsum_fiber O R iota (fun _ => true) (fun ii => fmul O (x ii) (t (iota ii))) n l Hin).
    cbv beta. f_equal. apply map_ext. intros p.
    rewrite <- (vsum_map_scale_r O R). f_equal. apply map_ext. intros ii.
    destruct (Nat.eqb_spec (iota ii) p) as [E|E]; [rewrite E; reflexivity|ring].
  Qed.

  (** a forward operation that gathers block by block ([RD[U b + o] = child[I b + phi o]])
      against a closure that scatters block by block ([d[I b + p]] is the sum of the
      [delta[U b + o]] with [phi o = p]) *)
  Lemma gather_identity : forall (c t : arr F) fl (delta : arr F) (RD : arr (@dual F)) od
                                 (phi : nat -> nat) P U I,
      wf c -> tangent_for c t -> length (vals c) = P * I ->
      length (vals delta) = P * U -> length (vals RD) = P * U ->
      (forall o, o < U -> phi o < I) ->
      (forall b o, b < P -> o < U ->
         nth (U * b + o) (vals RD) (f0 D2) = nth (I * b + phi o) (vals (lift c (mask O fl t))) (f0 D2)) ->
      match od with
      | Some d => wf d /\ dims d = dims c /\
                  forall b p, b < P -> p < I ->
                    (vals d) @ (I * b + p)
                    = vsum O (map (fun o => if phi o =? p then (vals delta) @ (U * b + o) else f0 O)
                                  (seq 0 U))
      | None => fl = false
      end ->
      exists x, child_term O c t fl od x /\ dot O (vals delta) (vals (tangent RD)) = x.
  Proof.
    intros c t fl delta RD od phi P U I Hwc Ht Hlc Hld HlR Hphi Hfw Hdel.
    (* the delivered values by flat position; the only place where a position is decomposed *)
    set (G := fun q => vsum O (map (fun o => if phi o =? q mod I then (vals delta) @ (U * (q / I) + o)
                                             else f0 O) (seq 0 U))).
    assert (Hd : deliv O (dims c) fl od G).
    { destruct od as [d|]; [|exact Hdel]. destruct Hdel as (Hwd & Hdd & Hv).
      split; [exact Hwd|]. split; [exact Hdd|]. intros q Hq. rewrite (proj2 Hwc), Hlc in Hq.
      assert (HI : I <> 0) by (clear - Hq; intros ->; lia).
      rewrite (Nat.div_mod q I HI) at 1.
      apply Hv; [apply Nat.div_lt_upper_bound; [exact HI|rewrite Nat.mul_comm; exact Hq]|].
      apply Nat.mod_upper_bound. exact HI. }
    assert (HG : forall b p, b < P -> p < I ->
                   G (I * b + p) = vsum O (map (fun o => if phi o =? p then (vals delta) @ (U * b + o)
                                                         else f0 O) (seq 0 U))).
    { intros b p _ Hp. unfold G. destruct (divmod_pos b p I Hp) as [E1 E2].
      rewrite (Nat.mul_comm I b), E1, E2. reflexivity. }
    clearbody G.
    destruct (deliv_own_term O R c t fl od G Hwc Ht Hd) as (x & Hx & ->).
    eexists. split; [exact Hx|].
    pose proof (tangent_for_length c _ Hwc (mask_tangent_for O fl c t Ht)) as Hlt.
    rewrite (dot_tangent O _ RD _ Hld HlR), Hlc, !(vsum_seq_mul O R).
    f_equal. apply map_ext_in. intros b Hb. apply in_seq in Hb.
    rewrite (map_ext_in _ (fun p => fmul O (vsum O (map (fun o => if phi o =? p then (vals delta) @ (U * b + o)
                                                                 else f0 O) (seq 0 U)))
                                       ((vals (mask O fl t)) @ (I * b + p))) (seq 0 I))
      by (intros p Hp; apply in_seq in Hp; rewrite HG by lia; reflexivity).
    rewrite (scatter_dot phi (fun o => (vals delta) @ (U * b + o))
                         (fun p => (vals (mask O fl t)) @ (I * b + p)) I (seq 0 U))
      by (intros o Ho; apply in_seq in Ho; apply Hphi; lia).
    f_equal. apply map_ext_in. intros o Ho. apply in_seq in Ho.
    rewrite (Hfw b o) by lia. rewrite lift_nth by exact Hlt. reflexivity.
  Qed.
End Scatter.

Lemma expand_index_inv : forall count S ri,
    1 <= count -> 1 <= S -> expand_index S count (expand_index count S ri) = ri.
Proof.
  intros count S ri Hc HS.
  assert (NL : S * count <> 0) by nia.
  pose proof (Nat.div_mod ri (S * count) NL) as H1.
  pose proof (Nat.mod_upper_bound ri (S * count) NL) as Hw.
  set (t := ri / (S * count)) in *. set (w := ri mod (S * count)) in *.
  pose proof (Nat.div_mod w S ltac:(lia)) as H2.
  pose proof (Nat.mod_upper_bound w S ltac:(lia)) as Hp.
  assert (Hf : w / S < count) by (apply Nat.div_lt_upper_bound; lia).
  set (f := w / S) in *. set (p := w mod S) in *.
  assert (E : ri = t * (S * count) + (f * S + p)) by lia.
  rewrite E at 1. rewrite expand_index_at by assumption.
  rewrite (Nat.mul_comm S count), expand_index_at by assumption. lia.
Qed.

Section ExpandClosed.
  Context {G : Type} (O' : ScalarOps G).

  Lemma expand_conv_closed : forall (a : arr G) batch rc cc count,
      wf a -> dims a = batch ++ [rc * cc; count] -> 1 <= rc -> 1 <= cc ->
      expand_conv O' a rc cc
      = Some {| dims := batch ++ [count; rc; cc];
                vals := map (fun ri => nth (expand_index count (rc * cc) ri) (vals a) (f0 O'))
                            (seq 0 (prod batch * (rc * cc * count))) |}.
  Proof.
    intros a batch rc cc count Hw Ed Hrc Hcc.
    destruct (wf_snoc2 a batch (rc * cc) count Hw Ed) as (Hbatch & HS & Hcount & Hva).
    set (S := rc * cc) in *. set (P := prod batch) in *.
    set (g := fun ri => nth (expand_index count S ri) (vals a) (f0 O')).
    assert (Hil : 1 <= S * count) by (clear - HS Hcount; nia).
    unfold expand_conv. cbv zeta. rewrite Ed, dim_back_snoc2_1. cbn [obind]. fold S.
    apply Nat.leb_le in Hil. rewrite Hil. cbn [guard obind].
    rewrite Hva. fold P. rewrite ceil_div_exact by (apply Nat.leb_le; exact Hil).
    rewrite (mapM_some_map _ g).
    - cbn [obind]. rewrite map_length, seq_length, Nat.leb_refl. cbn [guard obind].
      rewrite Nat.sub_diag. cbn [repeat]. rewrite app_nil_r, firstn_snoc2.
      apply mk_some. split; [|split; [|reflexivity]].
      + apply Forall_app. split; [exact Hbatch|]. repeat (constructor; [assumption|]). constructor.
      + rewrite map_length, seq_length, prod_app. fold P. cbn [prod fold_right]. unfold S. ring.
    - intros ri Hri. apply in_seq in Hri. unfold g. apply nth_error_some_nth.
      rewrite Hva. apply expand_index_lt; [assumption|assumption|]. fold P. lia.
  Qed.
End ExpandClosed.

Section Expand.

  Definition expand_pre (rc cc count : nat) (cs : list (arr F)) : Prop :=
    1 <= rc /\ 1 <= cc /\ exists batch, dims (nth 0 cs dummy_arr) = batch ++ [rc * cc; count].

  (** the closure of [expand_conv] on a child of [P] whole images: one assigning loop *)
  Lemma run_bop_expand : forall (c x : arr F) flags fcount stride P,
      prod (dims c) = P * (stride * fcount) -> 1 <= stride * fcount ->
      run_bop O (BExpand fcount stride) [c] flags x
      = (vals' <- fold_left (fun acc di => out <- acc ;; v <- nth_error (vals x) di ;;
                                           set_nth (expand_index fcount stride di) v out)
                            (seq 0 (P * (stride * fcount)))
                            (Some (repeat (f0 O) (P * (stride * fcount)))) ;;
         d <- mk (dims c) vals' ;; Some [Some d]).
  Proof.
    intros c x flags fcount stride P Hn Hil. cbn [run_bop]. cbv zeta. rewrite Hn.
    apply Nat.leb_le in Hil. rewrite Hil. cbn [guard obind].
    rewrite ceil_div_exact by (apply Nat.leb_le; exact Hil). reflexivity.
  Qed.

  Theorem expand_local : forall rc cc count,
      local_identity O 1 (expand_pre rc cc count)
                     (fwd1 (fun A => expand_conv D2 A rc cc))
                     (fun _ _ => BExpand count (rc * cc)).
  Proof.
    intros rc cc count. apply (local_identity_1 O R).
    intros c t flags delta RD ds (Hrc & Hcc & batch & Ed) Hwc Ht Ht' Hfwd Hwd Hdd Hrun.
    cbn [nth] in Ed. cbn [fwd1] in Hfwd. set (t' := mask O (flag flags 0) t) in *.
    destruct (wf_snoc2 c batch (rc * cc) count Hwc Ed) as (Hbatch & HS & Hcount & Hvc).
    set (S := rc * cc) in *. set (P := prod batch) in *. set (n := P * (S * count)) in *.
    rewrite (expand_conv_closed D2 (lift c t') batch rc cc count (lift_wf c t' Hwc Ht') Ed Hrc Hcc)
      in Hfwd.
    injection Hfwd as HRD. rewrite <- HRD in Hdd. cbn [dims] in Hdd. fold S P in Hdd.
    assert (Hn : prod (dims c) = n).
    { rewrite Ed, prod_app. cbn [prod fold_right]. unfold n, P, S. ring. }
    assert (Hld : length (vals delta) = n).
    { destruct Hwd as [_ H1]. rewrite <- H1, Hdd, prod_app. cbn [prod fold_right]. unfold n, P, S. ring. }
    assert (Hlt : forall ii, ii < n -> expand_index count S ii < n)
      by (intros ii Hii; apply expand_index_lt; assumption).
    (* the closure: an assigning scatter along the (injective) inverse index map *)
    rewrite (run_bop_expand c delta flags count S P Hn) in Hrun by (clear - HS Hcount; nia).
    fold n in Hrun.
    destruct (scatter_assign (expand_index count S) (vals delta) n (seq 0 n)) as (out & Hf & Hlo & Hv).
    { intros ii Hii. apply in_seq in Hii. split; [lia|]. apply Hlt. lia. }
    { apply Injective_map_NoDup; [|apply seq_NoDup]. intros x y E.
      rewrite <- (expand_index_inv count S x), <- (expand_index_inv count S y), E by assumption.
      reflexivity. }
    rewrite Hf in Hrun. cbn [obind] in Hrun.
    revert Hrun. apply obind_elim. intros d Hd Hrun. inversion Hrun; subst ds.
    apply mk_some in Hd. destruct Hd as (Hpd & Hld' & ->).
    destruct (gather_identity c t (flag flags 0) delta RD (Some {| dims := dims c; vals := out |})
                              (expand_index count S) 1 n n Hwc Ht)
      as (x & Hx & E); rewrite ?Nat.mul_1_l; try assumption.
    - rewrite <- HRD. cbn [vals]. rewrite map_length, seq_length. reflexivity.
    - intros b o Hb Ho. replace b with 0 by lia. rewrite Nat.mul_0_r, <- HRD. cbn [Nat.add vals].
      rewrite nth_map_seq by exact Ho. reflexivity.
    - split; [split; assumption|]. split; [reflexivity|].
      intros b p Hb _. replace b with 0 by lia. rewrite Nat.mul_0_r. cbn [Nat.add vals]. apply Hv.
    - eexists. exists x. auto.
  Qed.
End Expand.

Section MMCore.

  Local Notation "x + y" := (fadd O x y).
  Local Notation "x * y" := (fmul O x y).
  Definition SUM (n : nat) (f : nat -> F) : F := vsum O (map f (seq 0 n)).

  Lemma SUM_ext : forall n f g, (forall i, i < n -> f i = g i) -> SUM n f = SUM n g.
  Proof.
    intros n f g H. unfold SUM. f_equal. apply map_ext_in. intros i Hi. apply in_seq in Hi.
    apply H. lia.
  Qed.

  Lemma SUM_add : forall n f g, SUM n (fun i => f i + g i) = SUM n f + SUM n g.
  Proof. intros. unfold SUM. apply (vsum_map_add O R). Qed.

  Lemma SUM_scale_l : forall n c f, SUM n (fun i => c * f i) = c * SUM n f.
  Proof. intros. unfold SUM. apply (vsum_map_scale_l O R). Qed.

  Lemma SUM_scale_r : forall n c f, SUM n (fun i => f i * c) = SUM n f * c.
  Proof. intros. unfold SUM. apply (vsum_map_scale_r O R). Qed.

  Lemma SUM_exchange : forall n m (h : nat -> nat -> F),
      SUM n (fun i => SUM m (fun j => h i j)) = SUM m (fun j => SUM n (fun i => h i j)).
  Proof. intros. unfold SUM. apply (vsum_exchange O R). Qed.

  Lemma SUM_zero : forall n f, (forall i, i < n -> f i = f0 O) -> SUM n f = f0 O.
  Proof.
    intros n f H. unfold SUM. apply (vsum_zeros O R). intros y Hy. apply in_map_iff in Hy.
    destruct Hy as (i & <- & Hi). apply in_seq in Hi. apply H. lia.
  Qed.

  (** a sum over [L * (p * q)] flat positions, as a triple sum *)
  Lemma SUM_flat3 : forall L p q (f : nat -> F),
      SUM (L * (p * q)) f
      = SUM L (fun t => SUM p (fun i => SUM q (fun j => f (Nat.add (Nat.mul (Nat.mul p q) t) (Nat.add (Nat.mul q i) j))))).
  Proof.
    intros L p q f. unfold SUM. rewrite (vsum_seq_mul O R). f_equal. apply map_ext. intros t.
    rewrite (vsum_seq_mul O R (fun y => f (Nat.add (Nat.mul (Nat.mul p q) t) y))). reflexivity.
  Qed.

  (** for one batch: the transpose identity of [C = bias + A B] *)
  Lemma mm_core_batch : forall r c n (dl tc : nat -> nat -> F) (A tA : nat -> nat -> F)
                               (B tB : nat -> nat -> F),
      SUM r (fun i => SUM c (fun j =>
        dl i j * (tc i j + SUM n (fun k => A i k * tB k j + tA i k * B k j))))
      = (SUM r (fun i => SUM n (fun k => SUM c (fun j => dl i j * B k j) * tA i k))
         + SUM n (fun k => SUM c (fun j => SUM r (fun i => A i k * dl i j) * tB k j)))
        + SUM r (fun i => SUM c (fun j => dl i j * tc i j)).
  Proof.
    intros r c n dl tc A tA B tB.
    (* right-hand side to triple sums over i, j, k *)
    assert (H0 : SUM r (fun i => SUM n (fun k => SUM c (fun j => dl i j * B k j) * tA i k))
                 = SUM r (fun i => SUM c (fun j => SUM n (fun k => dl i j * (tA i k * B k j))))).
    { apply SUM_ext. intros i _.
      rewrite (SUM_ext n _ (fun k => SUM c (fun j => dl i j * (tA i k * B k j)))).
      - apply SUM_exchange.
      - intros k _. rewrite <- SUM_scale_r. apply SUM_ext. intros j _. ring. }
    assert (H1 : SUM n (fun k => SUM c (fun j => SUM r (fun i => A i k * dl i j) * tB k j))
                 = SUM r (fun i => SUM c (fun j => SUM n (fun k => dl i j * (A i k * tB k j))))).
    { rewrite (SUM_ext n _ (fun k => SUM c (fun j => SUM r (fun i => dl i j * (A i k * tB k j))))).
      2:{ intros k _. apply SUM_ext. intros j _. rewrite <- SUM_scale_r. apply SUM_ext.
          intros i _. ring. }
      rewrite (SUM_exchange n c).
      rewrite (SUM_ext c _ (fun j => SUM r (fun i => SUM n (fun k => dl i j * (A i k * tB k j)))))
        by (intros j _; apply SUM_exchange).
      apply SUM_exchange. }
    rewrite H0, H1, <- !SUM_add. apply SUM_ext. intros i _.
    rewrite <- !SUM_add. apply SUM_ext. intros j _.
    rewrite <- !SUM_add, (cr_distr_r O R), <- SUM_scale_l.
    rewrite (SUM_ext n (fun k => dl i j * (A i k * tB k j + tA i k * B k j))
                     (fun k => dl i j * (tA i k * B k j) + dl i j * (A i k * tB k j)))
      by (intros k _; ring).
    ring.
  Qed.
End MMCore.

Section MMTerms.

  (** a product without additive term, entry by entry *)
  Lemma matmul_nobias_flat : forall (x : arr F) tx (y : arr F) ty lx xr xc ly yr yc p,
      wf x -> wf y -> dims x = lx ++ [xr; xc] -> dims y = ly ++ [yr; yc] ->
      a_matmul O x tx y ty None = Some p ->
      wf p /\ dims p = bmax lx ly ++ [mm_rows tx xr xc; mm_cols ty yr yc] /\
      forall t i j, t < prod (bmax lx ly) -> i < mm_rows tx xr xc -> j < mm_cols ty yr yc ->
        (vals p) @ (mm_rows tx xr xc * mm_cols ty yr yc * t + (mm_cols ty yr yc * i + j))
        = SUM (mm_inner_a tx xr xc)
              (fun k => fmul O (getd O x (a_idx tx lx (unrank (bmax lx ly) t) i k))
                               (getd O y (b_idx ty ly (unrank (bmax lx ly) t) k j))).
  Proof.
    intros x tx y ty lx xr xc ly yr yc p Hwx Hwy Ex Ey Hp.
    destruct (matmul_fwd_inv O x tx y ty None p lx xr xc ly yr yc Ex Ey Hp) as (Hin & Hc & _).
    destruct (wf_snoc2 x lx xr xc Hwx Ex) as (Hlx & _). destruct (wf_snoc2 y ly yr yc Hwy Ey) as (Hly & _).
    destruct (matmul_post_flat O x tx y ty None lx ly _ _ _ _ p
                (matmul_spec_nobias O x tx y ty lx xr xc ly yr yc Hwx Hwy Ex Ey Hin Hc) Hp
                (bmax_pos _ _ Hlx Hly)) as (Hw & Hd & Hent).
    split; [exact Hw|]. split; [exact Hd|]. intros t i j Ht Hi Hj.
    rewrite (Hent t i j Ht Hi Hj). apply (cr_add_0_l O R).
  Qed.

  (** a delivered delta [od] of dimensions [lead ++ [x; y]] with entries [H t u v], against a
      child of dimensions [lc ++ [x; y]]: the contribution, batch by batch *)
  Lemma flat3_child_term : forall (c t0 : arr F) lc lead x y fl od (H : nat -> nat -> nat -> F),
      wf c -> dims c = lc ++ [x; y] -> tangent_for c t0 ->
      Forall (fun d => 1 <= d) lead -> sub_lead lc lead ->
      match od with
      | Some d => wf d /\ dims d = lead ++ [x; y] /\
                  forall t u v, t < prod lead -> u < x -> v < y ->
                                (vals d) @ (x * y * t + (y * u + v)) = H t u v
      | None => fl = false
      end ->
      exists x0,
        child_term O c t0 fl od x0 /\
        x0 = SUM (prod lead) (fun t => SUM x (fun u => SUM y (fun v =>
               fmul O (H t u v) (getd O (mask O fl t0) (bclamp lc (unrank lead t) ++ [u; v]))))).
  Proof.
    intros c t0 lc lead x y fl od H Hwc Ec Ht0 Hl Hsub Hod. destruct od as [d|].
    - destruct Hod as (Hwd & Hdd & Hv).
      destruct (deliv_term O R c t0 (lead ++ [x; y]) fl (Some d) (fun p => (vals d) @ p))
        as (x0 & Hx0 & ->); try assumption.
      + rewrite Ec. destruct lc; discriminate.
      + rewrite Ec. apply sub_lead_app. exact Hsub.
      + cbn [deliv]. auto.
      + eexists. split; [exact Hx0|]. rewrite prod_snoc2.
        change (vsum O (map ?f (seq 0 ?n))) with (SUM n f). rewrite (SUM_flat3).
        apply SUM_ext. intros t Ht. apply SUM_ext. intros u Hu. apply SUM_ext. intros v Hv'.
        rewrite (Hv t u v Ht Hu Hv'), Ec. f_equal. apply bpos_flat3; try assumption.
        destruct (mask_tangent_for O fl c t0 Ht0) as [_ E]. rewrite E. exact Ec.
    - subst fl. exists (f0 O). split; [split; reflexivity|]. symmetry.
      apply (SUM_zero). intros t _. apply (SUM_zero). intros u _. apply (SUM_zero). intros v _.
      unfold getd. cbn [mask]. rewrite zeros_like_nth. ring.
  Qed.

End MMTerms.

Lemma mm_facts : forall {G} (a b : arr G) la lb ar ac br bc,
    wf a -> wf b -> dims a = la ++ [ar; ac] -> dims b = lb ++ [br; bc] -> bcompat la lb ->
    Forall (fun x => 1 <= x) la /\ Forall (fun x => 1 <= x) lb /\
    Forall (fun x => 1 <= x) (bmax la lb) /\ sub_lead la (bmax la lb) /\ sub_lead lb (bmax la lb) /\
    1 <= ar /\ 1 <= ac /\ 1 <= br /\ 1 <= bc.
Proof.
  intros G a b la lb ar ac br bc Hwa Hwb Ea Eb Hcomp.
  destruct (wf_snoc2 a la ar ac Hwa Ea) as (Hpla & Har & Hac & _).
  destruct (wf_snoc2 b lb br bc Hwb Eb) as (Hplb & Hbr & Hbc & _).
  split; [exact Hpla|]. split; [exact Hplb|].
  split; [apply bmax_pos; assumption|].
  split; [apply bmax_sub_lead_l; assumption|].
  split; [apply bmax_sub_lead_r; assumption|].
  split; [exact Har|]. split; [exact Hac|]. split; [exact Hbr|]. exact Hbc.
Qed.

Lemma mm_pre_bias_shape : forall {G} ro co (c : arr G),
    wf c -> dims c = [co] \/ dims c = [ro; co] \/ dims c = [1; co] \/ dims c = [1] ->
    bias_shape ro co (Some c).
Proof.
  intros G ro co c Hw [E|[E|[E|E]]];
    [apply bias_row|apply bias_full|apply bias_row2|apply bias_one]; assumption.
Qed.

Section MMDeliver.

  Variables (a b delta : arr F) (la lb : list nat) (ar ac br bc : nat).
  Hypotheses (Hwa : wf a) (Hwb : wf b) (Hwd : wf delta).
  Hypotheses (Ea : dims a = la ++ [ar; ac]) (Eb : dims b = lb ++ [br; bc]).
  Hypothesis (Hcomp : bcompat la lb).

  Let lead := bmax la lb.

  (** entries, by batch number [t] (the leading index is [unrank lead t]) *)
  Definition Dl (t i j : nat) : F := getd O delta (unrank lead t ++ [i; j]).
  Definition Aent (ta : bool) (x : arr F) (t i k : nat) : F :=
    getd O x (a_idx ta la (unrank lead t) i k).
  Definition Bent (tb : bool) (x : arr F) (t k j : nat) : F :=
    getd O x (b_idx tb lb (unrank lead t) k j).

  (** entry [(i, k)] of [delta op(b)^T] and entry [(k, j)] of [op(a)^T delta] *)
  Definition dA (tb : bool) (co t i k : nat) : F :=
    SUM co (fun j => fmul O (Dl t i j) (Bent tb b t k j)).
  Definition dB (ta : bool) (ro t k j : nat) : F :=
    SUM ro (fun i => fmul O (Aent ta a t i k) (Dl t i j)).

  Lemma Dl_flat : forall ro co t i j,
      dims delta = lead ++ [ro; co] -> t < prod lead ->
      Dl t i j = (vals delta) @ ((ro * co) * t + (co * i + j)).
  Proof.
    intros ro co t i j Ed Ht.
    destruct (mm_facts a b la lb ar ac br bc Hwa Hwb Ea Eb Hcomp) as (_ & _ & Hl & _).
    apply (getd_flat3 O delta lead ro co); assumption.
  Qed.

  (** the delta delivered to the first operand, at storage position [(u, v)] of batch [t] *)
  Lemma deliver_a : forall ta tb d0,
      mm_inner_a ta ar ac = mm_inner_b tb br bc ->
      dims delta = lead ++ [mm_rows ta ar ac; mm_cols tb br bc] ->
      (if ta then a_matmul O b tb delta true None else a_matmul O delta false b (negb tb) None)
      = Some d0 ->
      wf d0 /\ dims d0 = lead ++ [ar; ac] /\
      forall t u v, t < prod lead -> u < ar -> v < ac ->
        (vals d0) @ (ar * ac * t + (ac * u + v))
        = if ta then dA tb (mm_cols tb br bc) t v u else dA tb (mm_cols tb br bc) t u v.
  Proof.
    intros ta tb d0 Hinner Ed H0.
    destruct (mm_facts a b la lb ar ac br bc Hwa Hwb Ea Eb Hcomp) as (_ & _ & Hl & _ & Hsb & _).
    destruct (sub_lead_bmax lb lead Hl Hsb) as [_ Hb].
    destruct ta; cbn [mm_rows mm_inner_a] in *.
    - (* op(b) delta^T *)
      destruct (matmul_nobias_flat b tb delta true lb br bc lead _ _ d0 Hwb Hwd Eb Ed H0)
        as (Hw & Hd & Hent).
      fold lead in Hb. rewrite Hb in Hd, Hent.
      change (mm_rows tb br bc) with (mm_inner_b tb br bc) in Hd, Hent. rewrite <- Hinner in Hd, Hent.
      cbn [mm_cols] in Hd, Hent.
      split; [exact Hw|]. split; [exact Hd|]. intros t u v Ht Hu Hv.
      rewrite (Hent t u v Ht Hu Hv). apply SUM_ext. intros j _.
      unfold Dl, Bent, b_idx. rewrite (bclamp_id lead) by (apply unrank_lt; exact Hl).
      apply (cr_mul_comm O R).
    - (* delta op(b)^T *)
      destruct (matmul_nobias_flat delta false b (negb tb) lead _ _ lb br bc d0 Hwd Hwb Ed Eb H0)
        as (Hw & Hd & Hent).
      rewrite bmax_sym in Hd, Hent. fold lead in Hb. rewrite Hb in Hd, Hent.
      replace (mm_cols (negb tb) br bc) with ac in Hd, Hent
        by (rewrite Hinner; destruct tb; reflexivity).
      cbn [mm_rows mm_inner_a] in Hd, Hent.
      split; [exact Hw|]. split; [exact Hd|]. intros t u v Ht Hu Hv.
      rewrite (Hent t u v Ht Hu Hv). apply SUM_ext. intros j _.
      unfold Dl, Bent, a_idx, b_idx. rewrite (bclamp_id lead) by (apply unrank_lt; exact Hl).
      destruct tb; reflexivity.
  Qed.

  (** the delta delivered to the second operand, at storage position [(u, v)] of batch [t] *)
  Lemma deliver_b : forall ta tb d1,
      mm_inner_a ta ar ac = mm_inner_b tb br bc ->
      dims delta = lead ++ [mm_rows ta ar ac; mm_cols tb br bc] ->
      (if tb then a_matmul O delta true a ta None else a_matmul O a (negb ta) delta false None)
      = Some d1 ->
      wf d1 /\ dims d1 = lead ++ [br; bc] /\
      forall t u v, t < prod lead -> u < br -> v < bc ->
        (vals d1) @ (br * bc * t + (bc * u + v))
        = if tb then dB ta (mm_rows ta ar ac) t v u else dB ta (mm_rows ta ar ac) t u v.
  Proof.
    intros ta tb d1 Hinner Ed H1.
    destruct (mm_facts a b la lb ar ac br bc Hwa Hwb Ea Eb Hcomp) as (_ & _ & Hl & Hsa & _).
    destruct (sub_lead_bmax la lead Hl Hsa) as [_ Hb]. fold lead in Hb.
    destruct tb; cbn [mm_cols mm_inner_b] in *.
    - (* delta^T op(a) *)
      destruct (matmul_nobias_flat delta true a ta lead _ _ la ar ac d1 Hwd Hwa Ed Ea H1)
        as (Hw & Hd & Hent).
      rewrite bmax_sym, Hb in Hd, Hent.
      replace (mm_cols ta ar ac) with bc in Hd, Hent by (rewrite <- Hinner; destruct ta; reflexivity).
      cbn [mm_rows mm_inner_a] in Hd, Hent.
      split; [exact Hw|]. split; [exact Hd|]. intros t u v Ht Hu Hv.
      rewrite (Hent t u v Ht Hu Hv). apply SUM_ext. intros i _.
      unfold Dl, Aent, a_idx, b_idx. rewrite (bclamp_id lead) by (apply unrank_lt; exact Hl).
      rewrite (cr_mul_comm O R). destruct ta; reflexivity.
    - (* op(a)^T delta *)
      destruct (matmul_nobias_flat a (negb ta) delta false la ar ac lead _ _ d1 Hwa Hwd Ea Ed H1)
        as (Hw & Hd & Hent).
      rewrite Hb in Hd, Hent.
      replace (mm_rows (negb ta) ar ac) with br in Hd, Hent
        by (rewrite <- Hinner; destruct ta; reflexivity).
      replace (mm_inner_a (negb ta) ar ac) with (mm_rows ta ar ac) in Hent by (destruct ta; reflexivity).
      cbn [mm_cols] in Hd, Hent.
      split; [exact Hw|]. split; [exact Hd|]. intros t u v Ht Hu Hv.
      rewrite (Hent t u v Ht Hu Hv). apply SUM_ext. intros i _.
      unfold Dl, Aent, a_idx, b_idx. rewrite (bclamp_id lead) by (apply unrank_lt; exact Hl).
      destruct ta; reflexivity.
  Qed.

  (** a double sum over the storage coordinates of a possibly transposed operand, as a sum
      over its logical coordinates *)
  Lemma SUM_transposed : forall (tr : bool) p q (f : nat -> nat -> F),
      SUM p (fun u => SUM q (fun v => if tr then f v u else f u v))
      = SUM (if tr then q else p) (fun i => SUM (if tr then p else q) (fun k => f i k)).
  Proof. intros [|] p q f; [apply (SUM_exchange)|reflexivity]. Qed.

  Lemma mm_term_a : forall ta tb (t0 : arr F) fl od0,
      mm_inner_a ta ar ac = mm_inner_b tb br bc ->
      dims delta = lead ++ [mm_rows ta ar ac; mm_cols tb br bc] ->
      tangent_for a t0 ->
      when fl (if ta then a_matmul O b tb delta true None
               else a_matmul O delta false b (negb tb) None) = Some od0 ->
      exists x0,
        child_term O a t0 fl od0 x0 /\
        x0 = SUM (prod lead) (fun t =>
             SUM (mm_rows ta ar ac) (fun i =>
             SUM (mm_inner_a ta ar ac) (fun k =>
               fmul O (dA tb (mm_cols tb br bc) t i k) (Aent ta (mask O fl t0) t i k)))).
  Proof.
    intros ta tb t0 fl od0 Hinner Ed Ht0 Hod.
    destruct (mm_facts a b la lb ar ac br bc Hwa Hwb Ea Eb Hcomp) as (_ & _ & Hl & Hsa & _).
    destruct (flat3_child_term a t0 la lead ar ac fl od0
                (fun t u v => if ta then dA tb (mm_cols tb br bc) t v u else dA tb (mm_cols tb br bc) t u v)
                Hwa Ea Ht0 Hl Hsa) as (x0 & Hx0 & ->).
    { apply when_some in Hod. destruct Hod as [(_ & d0 & Hd0 & ->)|(Hf & ->)]; [|exact Hf].
      exact (deliver_a ta tb d0 Hinner Ed Hd0). }
    eexists. split; [exact Hx0|]. apply SUM_ext. intros t _.
    rewrite <- (SUM_transposed ta ar ac). apply SUM_ext. intros u _. apply SUM_ext. intros v _.
    unfold Aent, a_idx. destruct ta; reflexivity.
  Qed.

  Lemma mm_term_b : forall ta tb (t1 : arr F) fl od1,
      mm_inner_a ta ar ac = mm_inner_b tb br bc ->
      dims delta = lead ++ [mm_rows ta ar ac; mm_cols tb br bc] ->
      tangent_for b t1 ->
      when fl (if tb then a_matmul O delta true a ta None
               else a_matmul O a (negb ta) delta false None) = Some od1 ->
      exists x1,
        child_term O b t1 fl od1 x1 /\
        x1 = SUM (prod lead) (fun t =>
             SUM (mm_inner_a ta ar ac) (fun k =>
             SUM (mm_cols tb br bc) (fun j =>
               fmul O (dB ta (mm_rows ta ar ac) t k j) (Bent tb (mask O fl t1) t k j)))).
  Proof.
    intros ta tb t1 fl od1 Hinner Ed Ht1 Hod.
    destruct (mm_facts a b la lb ar ac br bc Hwa Hwb Ea Eb Hcomp) as (_ & _ & Hl & _ & Hsb & _).
    destruct (flat3_child_term b t1 lb lead br bc fl od1
                (fun t u v => if tb then dB ta (mm_rows ta ar ac) t v u else dB ta (mm_rows ta ar ac) t u v)
                Hwb Eb Ht1 Hl Hsb) as (x1 & Hx1 & ->).
    { apply when_some in Hod. destruct Hod as [(_ & d1 & Hd1 & ->)|(Hf & ->)]; [|exact Hf].
      exact (deliver_b ta tb d1 Hinner Ed Hd1). }
    eexists. split; [exact Hx1|]. apply SUM_ext. intros t _.
    rewrite Hinner. unfold mm_inner_b, mm_cols.
    rewrite <- (SUM_transposed tb br bc). apply SUM_ext. intros u _. apply SUM_ext. intros v _.
    unfold Bent, b_idx. destruct tb; reflexivity.
  Qed.

  Lemma bias_sub_target : forall (dc : list nat) ro co,
      dc = [co] \/ dc = [ro; co] \/ dc = [1; co] \/ dc = [1] ->
      sub_target dc (lead ++ [ro; co]) /\ length dc <= 2 /\ dc <> [].
  Proof.
    intros dc ro co [E|[E|[E|E]]]; subst dc; (split; [|split; [cbn; lia|discriminate]]).
    - change (lead ++ [ro; co]) with (lead ++ [ro] ++ [co]). rewrite app_assoc. apply sub_lead_tail.
    - apply sub_lead_tail.
    - split; [rewrite length_snoc2; cbn; lia|]. cbn [length]. rewrite lastn2_snoc2.
      constructor; [left; reflexivity|]. constructor; [right; reflexivity|constructor].
    - split; [rewrite length_snoc2; cbn; lia|]. cbn [length].
      change (lead ++ [ro; co]) with (lead ++ [ro] ++ [co]).
      rewrite app_assoc, lastn_app_drop by (cbn; lia).
      constructor; [left; reflexivity|constructor].
  Qed.

  Lemma mm_term_c : forall ro co (c3 t2 : arr F) (fl : bool),
      dims delta = lead ++ [ro; co] ->
      wf c3 -> tangent_for c3 t2 ->
      dims c3 = [co] \/ dims c3 = [ro; co] \/ dims c3 = [1; co] \/ dims c3 = [1] ->
      exists x2,
        child_term O c3 t2 fl (if fl then Some delta else None) x2 /\
        x2 = SUM (prod lead) (fun t => SUM ro (fun i => SUM co (fun j =>
               fmul O (Dl t i j) (getd O (mask O fl t2) (bclamp (dims c3) [i; j]))))).
  Proof.
    intros ro co c3 t2 fl Ed Hwc Ht2 Hshape.
    destruct (mm_facts a b la lb ar ac br bc Hwa Hwb Ea Eb Hcomp) as (_ & _ & Hl & _).
    destruct (bias_sub_target (dims c3) ro co Hshape) as (Hsub & Hrk & Hnc).
    destruct (deliv_term O R c3 t2 (lead ++ [ro; co]) fl (if fl then Some delta else None)
                         (fun pos => (vals delta) @ pos) Hwc Hnc Ht2 Hsub) as (x2 & Hx2 & ->).
    { destruct fl; cbn [deliv]; auto. }
    eexists. split; [exact Hx2|]. rewrite prod_snoc2.
    change (vsum O (map ?f (seq 0 ?n))) with (SUM n f). rewrite (SUM_flat3).
    apply SUM_ext. intros t Ht. apply SUM_ext. intros i Hi. apply SUM_ext. intros j Hj.
    rewrite <- (Dl_flat ro co t i j Ed Ht). f_equal. unfold bpos, getd.
    assert (HI : in_range (unrank lead t ++ [i; j]) (lead ++ [ro; co])).
    { apply in_range_snoc2; [apply unrank_lt; exact Hl|exact Hi|exact Hj]. }
    replace ((ro * co) * t + (co * i + j)) with (rowmajor (lead ++ [ro; co]) (unrank lead t ++ [i; j])).
    - rewrite (unrank_rowmajor _ _ HI), bclamp_app_drop by (cbn [length]; exact Hrk).
      destruct (mask_tangent_for O fl c3 t2 Ht2) as [_ E]. rewrite E. reflexivity.
    - rewrite rowmajor_snoc2 by (rewrite unrank_length; reflexivity).
      rewrite rowmajor_unrank by assumption. lia.
  Qed.
  (** the left-hand side: the adjoint paired with the tangent of the dual-number run, batch by
      batch, in terms of the entries of the operands and of their tangents *)
  Lemma mm_lhs : forall ta tb (c3 ta' tb' tc' : arr F) (RD : arr (@dual F)),
      wf c3 -> tangent_for a ta' -> tangent_for b tb' -> tangent_for c3 tc' ->
      (let ro := mm_rows ta ar ac in let co := mm_cols tb br bc in
       dims c3 = [co] \/ dims c3 = [ro; co] \/ dims c3 = [1; co] \/ dims c3 = [1]) ->
      a_matmul D2 (lift a ta') ta (lift b tb') tb (Some (lift c3 tc')) = Some RD ->
      dims delta = dims RD ->
      mm_inner_a ta ar ac = mm_inner_b tb br bc /\
      dims delta = lead ++ [mm_rows ta ar ac; mm_cols tb br bc] /\
      dot O (vals delta) (vals (tangent RD))
      = SUM (prod lead) (fun t => SUM (mm_rows ta ar ac) (fun i => SUM (mm_cols tb br bc) (fun j =>
          fmul O (Dl t i j)
               (fadd O (getd O tc' (bclamp (dims c3) [i; j]))
                     (SUM (mm_inner_a ta ar ac) (fun k =>
                        fadd O (fmul O (Aent ta a t i k) (Bent tb tb' t k j))
                               (fmul O (Aent ta ta' t i k) (Bent tb b t k j)))))))).
  Proof.
    intros ta tb c3 ta' tb' tc' RD Hwc Hta' Htb' Htc' Hshape Hfwd Hdd. cbv zeta in Hshape.
    pose proof (lift_wf a ta' Hwa Hta') as HwA. pose proof (lift_wf b tb' Hwb Htb') as HwB.
    pose proof (lift_wf c3 tc' Hwc Htc') as HwC.
    assert (EA : dims (lift a ta') = la ++ [ar; ac]) by exact Ea.
    assert (EB : dims (lift b tb') = lb ++ [br; bc]) by exact Eb.
    destruct (matmul_fwd_inv D2 _ ta _ tb _ RD la ar ac lb br bc EA EB Hfwd) as [Hinner _].
    destruct (mm_facts a b la lb ar ac br bc Hwa Hwb Ea Eb Hcomp) as (_ & _ & Hl & _).
    set (ro := mm_rows ta ar ac) in *. set (co := mm_cols tb br bc) in *.
    destruct (matmul_post_flat D2 _ ta _ tb _ la lb ro co _ _ RD
                (matmul_spec D2 _ ta _ tb _ la ar ac lb br bc HwA HwB EA EB Hinner Hcomp
                             (mm_pre_bias_shape ro co _ HwC Hshape)) Hfwd Hl)
      as (Hwr & Hdr & Hent).
    fold lead in Hdr, Hent. rewrite Hdr in Hdd. split; [exact Hinner|]. split; [exact Hdd|].
    assert (Hld : length (vals delta) = prod lead * (ro * co)).
    { destruct Hwd as [_ H]. rewrite <- H, Hdd. apply prod_snoc2. }
    assert (HlR : length (vals RD) = prod lead * (ro * co)).
    { destruct Hwr as [_ H]. rewrite <- H, Hdr. apply prod_snoc2. }
    rewrite (dot_tangent O _ RD _ Hld HlR).
    change (vsum O (map ?f (seq 0 ?n))) with (SUM n f). rewrite (SUM_flat3).
    apply SUM_ext. intros t Ht. apply SUM_ext. intros i Hi. apply SUM_ext. intros j Hj.
    rewrite <- (Dl_flat ro co t i j Hdd Ht). f_equal.
    rewrite (Hent t i j Ht Hi Hj). cbn [dual_ops fadd snd]. f_equal.
    - unfold cterm. rewrite (getd_lift O c3 tc' _ Hwc Htc'). reflexivity.
    - rewrite vsum_dual. cbn [snd]. rewrite map_map. unfold SUM. f_equal.
      apply map_ext. intros k. unfold Aent, Bent.
      rewrite (getd_lift O a ta' _ Hwa Hta'), (getd_lift O b tb' _ Hwb Htb'). reflexivity.
  Qed.
End MMDeliver.

Section MatmulLocal.

  (** both operands have rank at least 2; the additive term (third child) has one of the
      four admissible shapes *)
  Definition mm_pre (ta tb : bool) (cs : list (arr F)) : Prop :=
    exists la ar ac lb br bc,
      dims (nth 0 cs dummy_arr) = la ++ [ar; ac] /\
      dims (nth 1 cs dummy_arr) = lb ++ [br; bc] /\
      let dc := dims (nth 2 cs dummy_arr) in
      let ro := mm_rows ta ar ac in
      let co := mm_cols tb br bc in
      dc = [co] \/ dc = [ro; co] \/ dc = [1; co] \/ dc = [1].

  Lemma matmul_terms : forall ta tb (a b c3 t0 t1 t2 : arr F) flags (delta : arr F)
                              (RD : arr (@dual F)) ds,
      mm_pre ta tb [a; b; c3] -> wf a -> wf b -> wf c3 ->
      tangent_for a t0 -> tangent_for b t1 -> tangent_for c3 t2 ->
      a_matmul D2 (lift a (mask O (flag flags 0) t0)) ta (lift b (mask O (flag flags 1) t1)) tb
               (Some (lift c3 (mask O (flag flags 2) t2))) = Some RD ->
      wf delta -> dims delta = dims RD ->
      run_bop O (BMatmul ta tb) [a; b; c3] flags delta = Some ds ->
      exists od0 od1 od2 x0 x1 x2,
        ds = [od0; od1; od2] /\ child_term O a t0 (flag flags 0) od0 x0 /\
        child_term O b t1 (flag flags 1) od1 x1 /\ child_term O c3 t2 (flag flags 2) od2 x2 /\
        dot O (vals delta) (vals (tangent RD)) = fadd O (fadd O x0 x1) x2.
  Proof.
    intros ta tb a b c3 t0 t1 t2 flags delta RD ds Hpre Hwa Hwb Hwc Ht0 Ht1 Ht2 Hfwd Hwd Hdd Hrun.
    destruct Hpre as (la & ar & ac & lb & br & bc & Ea & Eb & Hshape). cbn [nth] in Ea, Eb, Hshape.
    destruct (matmul_fwd_inv D2 (lift a _) ta (lift b _) tb _ RD la ar ac lb br bc Ea Eb Hfwd)
      as (_ & Hcomp & _).
    destruct (mm_lhs a b delta la lb ar ac br bc Hwa Hwb Hwd Ea Eb Hcomp ta tb c3 _ _ _ RD Hwc
                     (mask_tangent_for O _ a t0 Ht0) (mask_tangent_for O _ b t1 Ht1)
                     (mask_tangent_for O _ c3 t2 Ht2) Hshape Hfwd Hdd) as (Hinner & Hdd' & ->).
    cbv zeta in Hshape.
    cbn [run_bop] in Hrun. cbv zeta in Hrun.
    rewrite Ea, ltb_snoc2 in Hrun. cbn [andb] in Hrun.
    revert Hrun. apply obind_elim. intros od0 H0 Hrun.
    revert Hrun. apply obind_elim. intros od1 H1 Hrun. inversion Hrun; subst ds. clear Hrun.
    destruct (mm_term_a a b delta la lb ar ac br bc Hwa Hwb Hwd Ea Eb Hcomp ta tb t0 _ od0
                        Hinner Hdd' Ht0 H0) as (x0 & Hx0 & ->).
    destruct (mm_term_b a b delta la lb ar ac br bc Hwa Hwb Hwd Ea Eb Hcomp ta tb t1 _ od1
                        Hinner Hdd' Ht1 H1) as (x1 & Hx1 & ->).
    destruct (mm_term_c a b delta la lb ar ac br bc Hwa Hwb Hwd Ea Eb Hcomp _ _ c3 t2 (flag flags 2)
                        Hdd' Hwc Ht2 Hshape) as (x2 & Hx2 & ->).
    do 6 eexists. split; [reflexivity|]. split; [exact Hx0|]. split; [exact Hx1|]. split; [exact Hx2|].
    unfold dA, dB. rewrite <- !(SUM_add). apply SUM_ext. intros t _.
    exact (mm_core_batch _ _ _ (Dl delta la lb t)
                         (fun i j => getd O (mask O (flag flags 2) t2) (bclamp (dims c3) [i; j]))
                         (Aent la lb ta a t) (Aent la lb ta (mask O (flag flags 0) t0) t)
                         (fun k j => Bent la lb tb b t k j)
                         (fun k j => Bent la lb tb (mask O (flag flags 1) t1) t k j)).
  Qed.

  Theorem matmul_local : forall ta tb,
      local_identity O 3 (mm_pre ta tb)
                     (fwd3 (fun A B C => a_matmul D2 A ta B tb (Some C)))
                     (fun _ _ => BMatmul ta tb).
  Proof.
    intros ta tb. apply (local_identity_3 O R).
    intros a b c ta' tb' tc' flags delta RD ds Hpre Hwa Hwb Hwc Hta Htb Htc _ _ _.
    apply matmul_terms; assumption.
  Qed.
End MatmulLocal.

(** the target offset (inside one image) written by [roll_sop] for the flat source position *)
Definition roll_psi (depth rows cols sr sc fr fc ccount ii : nat) : nat :=
  let usize := fr * fc in
  let i := ii / (usize * depth) in
  let j := ii mod (usize * depth) in
  let stride_offset := cols * sr * (i / ccount) + sc * (i mod ccount) in
  let current_depth := j / usize in
  let filter_index := j mod usize in
  filter_index mod fc + cols * (filter_index / fc) + rows * cols * current_depth + stride_offset.

Lemma roll_psi_unroll_phi : forall depth rows cols sr sc fr fc cc ii,
    1 <= depth -> 1 <= fr -> 1 <= fc -> 1 <= cc ->
    roll_psi depth rows cols sr sc fr fc cc ii = unroll_phi depth rows cols sr sc fr fc cc ii.
Proof.
  intros depth rows cols sr sc fr fc cc ii Hd Hfr Hfc Hcc. unfold roll_psi, unroll_phi. cbv zeta.
  assert (Hu : 1 <= fr * fc) by nia.
  rewrite (mod_mul_mod ii (fr * fc) depth Hu Hd), (mod_mul_div ii (fr * fc) depth Hu Hd).
  rewrite (Nat.mul_comm fr fc).
  rewrite (mod_mul_mod ii fc fr Hfc Hfr), (mod_mul_div ii fc fr Hfc Hfr).
  rewrite (Nat.div_div ii (fc * fr * depth) cc) by nia.
  set (n := ii mod fc). set (m := (ii / fc) mod fr). set (k := (ii / (fc * fr)) mod depth).
  set (c := (ii / (fc * fr * depth)) mod cc). set (r := ii / (fc * fr * depth * cc)).
  ring.
Qed.

Section RollClosed.

  Variables (depth rows cols sr sc fr fc : nat).
  Hypothesis (Hdepth : 1 <= depth) (Hsr : 1 <= sr) (Hsc : 1 <= sc).
  Hypothesis (Hfr : 1 <= fr) (Hfc : 1 <= fc) (Hfr' : fr <= rows) (Hfc' : fc <= cols).

  Let rc := out_count rows fr sr.
  Let cc := out_count cols fc sc.
  Let U := rc * cc * depth * fr * fc.
  Let I3 := depth * (rows * (cols * 1)).

  (** the summing roll of one block *)
  Definition roll_g (s : list F) : list F :=
    match roll_sop O true (rc * cc) depth rows cols sr sc fr fc cc (repeat (f0 O) I3) [s] with
    | Some o => o
    | None => []
    end.

  Lemma roll_g_spec : forall s : list F,
      length s = U ->
      roll_sop O true (rc * cc) depth rows cols sr sc fr fc cc (repeat (f0 O) I3) [s] = Some (roll_g s) /\
      length (roll_g s) = I3 /\
      forall p, (roll_g s) @ p
                = vsum O (map (fun ii => if unroll_phi depth rows cols sr sc fr fc cc ii =? p
                                         then s @ ii else f0 O) (seq 0 U)).
  Proof.
    intros s Hs.
    assert (Hcc : 1 <= cc) by apply out_count_pos.
    assert (EU : rc * cc * (fr * fc * depth) = U) by (unfold U; ring).
    destruct (scatter_add (roll_psi depth rows cols sr sc fr fc cc) s (seq 0 U)
                          (repeat (f0 O) I3)) as (out & Hf & Hlen & Hv).
    { intros ii Hii. apply in_seq in Hii. split; [lia|].
      rewrite repeat_length, roll_psi_unroll_phi by assumption.
      apply (unroll_phi_lt depth rows cols sr sc fr fc); try assumption. fold rc cc U. lia. }
    assert (Hroll : roll_sop O true (rc * cc) depth rows cols sr sc fr fc cc (repeat (f0 O) I3) [s]
                    = Some out).
    { unfold roll_sop. cbv zeta. rewrite EU. exact Hf. }
    unfold roll_g. rewrite Hroll. split; [reflexivity|].
    split; [rewrite Hlen; apply repeat_length|].
    intros p. rewrite Hv, nth_repeat_same, (cr_add_0_l O R). f_equal.
    apply map_ext. intros ii. rewrite roll_psi_unroll_phi by assumption. reflexivity.
  Qed.
End RollClosed.

Section Unroll.

  Definition unroll_pre (depth rows cols sr sc fr fc : nat) (cs : list (arr F)) : Prop :=
    1 <= sr /\ 1 <= sc /\ 1 <= fr /\ 1 <= fc /\ fr <= rows /\ fc <= cols /\
    exists batch, dims (nth 0 cs dummy_arr) = batch ++ [depth; rows; cols].

  (** closed form of the forward operation, block by block (any scalar instance) *)
  Lemma unroll_blocks_blocks : forall {G} (O' : ScalarOps G) (image : arr G) batch depth rows cols sr sc fr fc,
      wf image -> dims image = batch ++ [depth; rows; cols] ->
      1 <= sr -> 1 <= sc -> 1 <= fr -> 1 <= fc -> fr <= rows -> fc <= cols ->
      let rc := out_count rows fr sr in
      let cc := out_count cols fc sc in
      exists u,
        unroll_blocks O' image sr sc fr fc = Some u /\ wf u /\
        dims u = batch ++ [rc * cc; depth * (fr * fc)] /\
        forall t, t < prod batch ->
          block (rc * cc * (depth * (fr * fc) * 1)) t (vals u)
          = unroll_g O' depth rows cols sr sc fr fc rc cc (block (depth * (rows * (cols * 1))) t (vals image)).
  Proof.
    intros G O' image batch depth rows cols sr sc fr fc Hw Ed Hsr Hsc Hfr Hfc Hfr' Hfc' rc cc.
    assert (Hpd : Forall (fun v => 1 <= v) (dims image)) by apply Hw.
    rewrite Ed in Hpd. apply Forall_app in Hpd. destruct Hpd as [Hbatch Htr].
    inversion Htr as [|? ? Hdepth Htr1]; subst. inversion Htr1 as [|? ? Hrows Htr2]; subst.
    inversion Htr2 as [|? ? Hcols _]; subst.
    assert (Hrc : 1 <= rc) by apply out_count_pos.
    assert (Hcc : 1 <= cc) by apply out_count_pos.
    assert (Hpo : Forall (fun v => 1 <= v) [rc * cc; depth * (fr * fc)]).
    { constructor; [nia|]. constructor; [nia|constructor]. }
    destruct (sliced_op_single O' image (unroll_sop depth rows cols sr sc fr fc rc cc)
                               (unroll_g O' depth rows cols sr sc fr fc rc cc)
                               batch [depth; rows; cols] [rc * cc; depth * (fr * fc)]
                               Hw Ed Hpo) as (u & Hu & Hwu & Hdu & Hblk).
    { intros s Hs. cbn [prod fold_right] in Hs |- *. apply unroll_g_spec; assumption. }
    exists u. split; [|split; [exact Hwu|split; [exact Hdu|exact Hblk]]].
    unfold unroll_blocks. cbv zeta. rewrite Ed.
    rewrite dim_back_snoc3_3, dim_back_snoc3_2, dim_back_snoc3_1. cbn [obind].
    rewrite (stride_count_some rows fr sr Hfr' Hsr), (stride_count_some cols fc sc Hfc' Hsc).
    cbn [obind]. rewrite firstn_snoc3. exact Hu.
  Qed.

  (** closed form of the summing roll, block by block *)
  Lemma roll_blocks_blocks : forall (delta : arr F) batch depth rows cols sr sc fr fc d,
      wf delta -> 1 <= depth -> 1 <= sr -> 1 <= sc -> 1 <= fr -> 1 <= fc -> fr <= rows -> fc <= cols ->
      let rc := out_count rows fr sr in
      let cc := out_count cols fc sc in
      dims delta = batch ++ [rc * cc; depth * (fr * fc)] ->
      roll_blocks O true delta depth rows cols sr sc fr fc = Some d ->
      wf d /\ dims d = batch ++ [depth; rows; cols] /\
      forall t, t < prod batch ->
        block (depth * (rows * (cols * 1))) t (vals d)
        = roll_g depth rows cols sr sc fr fc (block (rc * cc * depth * fr * fc) t (vals delta)).
  Proof.
    intros delta batch depth rows cols sr sc fr fc d Hwd Hdepth Hsr Hsc Hfr Hfc Hfr' Hfc' rc cc Hdd Hd.
    assert (EU : rc * cc * (depth * (fr * fc) * 1) = rc * cc * depth * fr * fc) by ring.
    unfold roll_blocks in Hd. cbv zeta in Hd. rewrite Hdd in Hd.
    rewrite dim_back_snoc2_2 in Hd. cbn [obind] in Hd.
    rewrite (stride_count_some cols fc sc Hfc' Hsc) in Hd. cbn [obind] in Hd.
    rewrite firstn_snoc2 in Hd. fold cc in Hd.
    assert (Hrows : 1 <= rows) by lia. assert (Hcols : 1 <= cols) by lia.
    assert (Hpo : Forall (fun v => 1 <= v) [depth; rows; cols]) by (repeat constructor; assumption).
    destruct (sliced_op_single O delta (roll_sop O true (rc * cc) depth rows cols sr sc fr fc cc)
                               (roll_g depth rows cols sr sc fr fc)
                               batch [rc * cc; depth * (fr * fc)] [depth; rows; cols]
                               Hwd Hdd Hpo) as (u & Hu & Hwu & Hdu & Hblk).
    { intros s Hs. cbn [prod fold_right] in Hs |- *. rewrite EU in Hs.
      destruct (roll_g_spec depth rows cols sr sc fr fc Hdepth Hsr Hsc Hfr Hfc Hfr' Hfc' s Hs)
        as (H1 & H2 & _). split; assumption. }
    cbn [length] in Hu. rewrite Hd in Hu. injection Hu as <-.
    split; [exact Hwu|]. split; [exact Hdu|]. intros t Ht.
    cbn [prod fold_right] in Hblk. rewrite EU in Hblk. exact (Hblk t Ht).
  Qed.

  Theorem unroll_local : forall depth rows cols sr sc fr fc,
      local_identity O 1 (unroll_pre depth rows cols sr sc fr fc)
                     (fwd1 (fun A => unroll_blocks D2 A sr sc fr fc))
                     (fun _ _ => BUnroll depth rows cols sr sc fr fc).
  Proof.
    intros depth rows cols sr sc fr fc. apply (local_identity_1 O R).
    intros c t flags delta RD ds (Hsr & Hsc & Hfr & Hfc & Hfr' & Hfc' & batch & Ed)
           Hwc Ht Ht' Hfwd Hwd Hdd Hrun.
    cbn [nth] in Ed. cbn [fwd1] in Hfwd. set (t' := mask O (flag flags 0) t) in *.
    assert (Hpd : Forall (fun v => 1 <= v) (dims c)) by apply Hwc.
    rewrite Ed in Hpd. apply Forall_app in Hpd. destruct Hpd as [_ Htr].
    inversion Htr as [|? ? Hdepth _]; subst. assert (Hrows : 1 <= rows) by lia.
    assert (Hcols : 1 <= cols) by lia.
    set (rc := out_count rows fr sr) in *. set (cc := out_count cols fc sc) in *.
    set (P := prod batch). set (U := rc * cc * depth * fr * fc).
    set (I3 := depth * (rows * (cols * 1))).
    assert (EU : rc * cc * (depth * (fr * fc) * 1) = U) by (unfold U; ring).
    destruct (unroll_blocks_blocks D2 (lift c t') batch depth rows cols sr sc fr fc
                                   (lift_wf c t' Hwc Ht') Ed Hsr Hsc Hfr Hfc Hfr' Hfc')
      as (u & Hu & Hwu & Hdu & Hblk).
    cbv zeta in Hdu, Hblk. fold rc cc in Hdu, Hblk. rewrite EU in Hblk. fold I3 P in Hblk.
    rewrite Hfwd in Hu. injection Hu as <-. rewrite Hdu in Hdd.
    assert (Hlc : length (vals c) = P * I3).
    { destruct Hwc as [_ H]. rewrite <- H, Ed, prod_app. reflexivity. }
    assert (Hld : length (vals delta) = P * U).
    { destruct Hwd as [_ H]. rewrite <- H, Hdd, prod_app. cbn [prod fold_right]. fold P. rewrite <- EU. ring. }
    assert (HlR : length (vals RD) = P * U).
    { destruct Hwu as [_ H]. rewrite <- H, Hdu, prod_app. cbn [prod fold_right]. fold P. rewrite <- EU. ring. }
    assert (Hphi : forall o, o < U -> unroll_phi depth rows cols sr sc fr fc cc o < I3)
      by (intros o Ho; apply (unroll_phi_lt depth rows cols sr sc fr fc); assumption).
    cbn [run_bop] in Hrun.
    revert Hrun. apply obind_elim. intros od Hod Hrun. inversion Hrun; subst ds. clear Hrun.
    destruct (gather_identity c t (flag flags 0) delta RD od
                              (unroll_phi depth rows cols sr sc fr fc cc) P U I3 Hwc Ht Hlc Hld HlR Hphi)
      as (x & Hx & E).
    - intros b o Hb Ho.
      rewrite <- (nth_block U b (vals RD) o (f0 D2) Ho), (Hblk b Hb). unfold unroll_g. fold U.
      rewrite nth_map_seq by exact Ho. apply nth_block. apply Hphi. exact Ho.
    - apply when_some in Hod. destruct Hod as [(_ & d & Hd & ->)|(Hf & ->)]; [|exact Hf].
      destruct (roll_blocks_blocks delta batch depth rows cols sr sc fr fc d Hwd Hdepth Hsr Hsc Hfr Hfc
                                   Hfr' Hfc' Hdd Hd) as (Hwd' & Hdd' & Hblk').
      fold rc cc U I3 P in Hblk'.
      split; [exact Hwd'|]. split; [rewrite Hdd'; symmetry; exact Ed|]. intros b p Hb Hp.
      rewrite <- (nth_block I3 b (vals d) p (f0 O) Hp), (Hblk' b Hb).
      assert (Hbs : length (block U b (vals delta)) = U) by (apply (block_length U _ P); assumption).
      destruct (roll_g_spec depth rows cols sr sc fr fc Hdepth Hsr Hsc Hfr Hfc Hfr' Hfc' _ Hbs)
        as (_ & _ & H3). fold rc cc U in H3. rewrite H3. f_equal.
      apply map_ext_in. intros ii Hii. apply in_seq in Hii.
      rewrite nth_block by apply Hii. reflexivity.
    - exists od, x. auto.
  Qed.
End Unroll.

(** [op_matmul] records a fresh, untracked [zeros1] as third child when there is no additive
    term.  The forward result is the same as with that [zeros1] as additive term, so
    [matmul_local] applies (with [flag flags 2 = false]). *)

Section MatmulAbsent.
  Context {G : Type} (O' : ScalarOps G).

  Lemma bias_flat_zeros1 : forall co i j, bias_flat O' (Some (zeros1 O')) co i j = f0 O'.
  Proof.
    intros co i j. unfold bias_flat. cbn [zeros1 vals length]. rewrite Nat.mod_1_r. reflexivity.
  Qed.

  Theorem matmul_none_zeros1 : forall (a : arr G) ta (b : arr G) tb la ar ac lb br bc,
      wf a -> wf b -> dims a = la ++ [ar; ac] -> dims b = lb ++ [br; bc] ->
      a_matmul O' a ta b tb None = a_matmul O' a ta b tb (Some (zeros1 O')).
  Proof.
    intros a ta b tb la ar ac lb br bc Hwa Hwb Ea Eb.
    destruct (Nat.eq_dec (mm_inner_a ta ar ac) (mm_inner_b tb br bc)) as [Hinner|Hne].
    2:{ rewrite !(matmul_refuses O' a ta b tb _ la ar ac lb br bc Ea Eb (or_introl Hne)). reflexivity. }
    destruct (element_wise_dimensions la lb) as [d|] eqn:Ee.
    2:{ apply element_wise_dimensions_refuses in Ee.
        rewrite !(matmul_refuses O' a ta b tb _ la ar ac lb br bc Ea Eb (or_intror Ee)). reflexivity. }
    apply element_wise_dimensions_spec in Ee. destruct Ee as [Hcomp _].
    destruct (mm_facts a b la lb ar ac br bc Hwa Hwb Ea Eb Hcomp)
      as (_ & _ & Hl & _ & _ & Har & Hac & Hbr & Hbc).
    set (ro := mm_rows ta ar ac). set (co := mm_cols tb br bc).
    assert (Hro : 1 <= ro) by (unfold ro, mm_rows; destruct ta; assumption).
    assert (Hco : 1 <= co) by (unfold co, mm_cols; destruct tb; assumption).
    pose proof (matmul_core O' a ta b tb None la ar ac lb br bc Hwa Hwb Ea Eb Hinner Hcomp I) as P1.
    assert (Hadm : bias_admissible (Some (zeros1 O')) ro co).
    { split; [apply wf_zeros1|]. split; [cbn; lia|reflexivity]. }
    pose proof (matmul_core O' a ta b tb _ la ar ac lb br bc Hwa Hwb Ea Eb Hinner Hcomp Hadm) as P2.
    pose proof P1 as (r1 & Hr1 & _). pose proof P2 as (r2 & Hr2 & _).
    destruct (matmul_post_flat O' a ta b tb _ la lb _ _ _ _ r1 P1 Hr1 Hl) as ([_ Hl1] & Hd1 & Hv1).
    destruct (matmul_post_flat O' a ta b tb _ la lb _ _ _ _ r2 P2 Hr2 Hl) as ([_ Hl2] & Hd2 & Hv2).
    rewrite Hr1, Hr2. f_equal. fold ro co in Hd1, Hd2, Hv1, Hv2.
    rewrite Hd1, prod_snoc2 in Hl1. rewrite Hd2, prod_snoc2 in Hl2.
    apply (arr_ext O'); [congruence|congruence|].
    intros pos Hpos. rewrite <- Hl1 in Hpos.
    destruct (encode_flat3 ro co pos _ Hro Hco Hpos) as (Ht & Hi & Hj & ->).
    rewrite (Hv1 _ _ _ Ht Hi Hj), (Hv2 _ _ _ Ht Hi Hj), bias_flat_zeros1. reflexivity.
  Qed.
End MatmulAbsent.

Section MatmulAbsentLocal.

  Lemma lift_zeros1 : forall t2 : arr F,
      tangent_for (zeros1 O) t2 -> lift (zeros1 O) (mask O false t2) = zeros1 D2.
  Proof.
    intros t2 [[_ Hl] Hd]. cbn [zeros1 dims] in Hd. rewrite Hd in Hl. cbn [prod fold_right] in Hl.
    unfold lift, mask, zeros_like, zeros1. cbn [dims vals]. f_equal.
    destruct (vals t2) as [|x [|y l]]; cbn [length] in Hl; try discriminate. reflexivity.
  Qed.

  (** an identity for the run with additive term, under [pre], is an identity for the run
      without one, the third child being the untracked [zeros1] *)
  Lemma absent_of_bias : forall ta tb (pre : list (arr F) -> Prop),
      local_identity O 3 pre (fwd3 (fun A B C => a_matmul D2 A ta B tb (Some C)))
                     (fun _ _ => BMatmul ta tb) ->
      (forall (a b c3 t0 t1 : arr F),
          wf a -> wf b -> tangent_for a t0 -> tangent_for b t1 -> pre [a; b; c3] ->
          a_matmul D2 (lift a t0) ta (lift b t1) tb None
          = a_matmul D2 (lift a t0) ta (lift b t1) tb (Some (zeros1 D2))) ->
      forall (cs ts : list (arr F)) flags (delta : arr F) (RD : arr (@dual F)) ds,
        length cs = 3 -> pre cs -> nth 2 cs dummy_arr = zeros1 O -> flag flags 2 = false ->
        Forall wf cs -> Forall2 tangent_for cs ts ->
        fwd3 (fun A B _ => a_matmul D2 A ta B tb None) (lift_children O 0 flags cs ts) = Some RD ->
        wf delta -> dims delta = dims RD ->
        run_bop O (BMatmul ta tb) cs flags delta = Some ds ->
        exists xs, child_terms O 0 flags cs ts ds xs /\
                   dot O (vals delta) (vals (tangent RD)) = vsum O xs.
  Proof.
    intros ta tb pre Hloc Heq cs ts flags delta RD ds Hlen Hpre Hz Hfl Hwf Hts Hfwd Hwd Hdd Hrun.
    apply (Hloc cs ts flags delta RD ds Hlen Hpre Hwf Hts); try assumption.
    destruct cs as [|a [|b [|c3 [|? ?]]]]; try discriminate Hlen.
    inversion Hts as [|? t0 ? ts1 Ht0 Hts1]; subst.
    inversion Hts1 as [|? t1 ? ts2 Ht1 Hts2]; subst.
    inversion Hts2 as [|? t2 ? ts3 Ht2 Hts3]; subst. inversion Hts3; subst.
    inversion Hwf as [|? ? Hwa Hwf1]; subst. inversion Hwf1 as [|? ? Hwb _]; subst.
    cbn [nth] in Hz. subst c3.
    cbn [lift_children fwd3] in Hfwd |- *. rewrite Hfl, (lift_zeros1 t2 Ht2).
    rewrite <- Hfwd. symmetry.
    apply (Heq a b (zeros1 O)); try assumption; apply mask_tangent_for; assumption.
  Qed.

  Theorem matmul_local_absent : forall ta tb (cs ts : list (arr F)) flags (delta : arr F)
                                       (RD : arr (@dual F)) ds,
      length cs = 3 -> mm_pre ta tb cs -> nth 2 cs dummy_arr = zeros1 O -> flag flags 2 = false ->
      Forall wf cs -> Forall2 tangent_for cs ts ->
      fwd3 (fun A B _ => a_matmul D2 A ta B tb None) (lift_children O 0 flags cs ts) = Some RD ->
      wf delta -> dims delta = dims RD ->
      run_bop O (BMatmul ta tb) cs flags delta = Some ds ->
      exists xs, child_terms O 0 flags cs ts ds xs /\
                 dot O (vals delta) (vals (tangent RD)) = vsum O xs.
  Proof.
    intros ta tb. apply (absent_of_bias ta tb _ (matmul_local ta tb)).
    intros a b c3 t0 t1 Hwa Hwb Ht0 Ht1 (la & ar & ac & lb & br & bc & Ea & Eb & _).
    apply (matmul_none_zeros1 D2 _ ta _ tb la ar ac lb br bc);
      [apply lift_wf; assumption|apply lift_wf; assumption|exact Ea|exact Eb].
  Qed.
End MatmulAbsentLocal.
End Closures.

Module Sanity2.
  Definition Zd := dual_ops Z_ops.
  Definition mkZ (d : list nat) (v : list Z) : arr Z := {| dims := d; vals := v |}.
  Definition ok (r : option (Z * Z)) : bool :=
    match r with Some (x, y) => Z.eqb x y | None => false end.
  Definition ramp (k : Z) (n : nat) : list Z := map (fun i => (Z.of_nat i * Z.of_nat i - k * Z.of_nat i + 1)%Z) (seq 1 n).
  Definition arrZ (k : Z) (d : list nat) : arr Z := mkZ d (ramp k (prod d)).

  Fixpoint flagsets (n : nat) : list (list bool) :=
    match n with 0 => [[]] | S n' => flat_map (fun l => [true :: l; false :: l]) (flagsets n') end.

  Definition chk (n : nat) fwdD code (cs ts : list (arr Z)) d :=
    forallb (fun fl => ok (eval_identity Z_ops fwdD code cs ts fl d)) (flagsets n).

  Example cmul_ok : chk 2 (custom_forward Zd CMul) (fun _ _ => BCustom CMul)
                        [arrZ 3 [2;3]; arrZ 5 [2;3]] [arrZ 7 [2;3]; arrZ 2 [2;3]] (arrZ 4 [2;3]) = true.
  Proof. vm_compute. reflexivity. Qed.
  Example caff_ok : chk 2 (custom_forward Zd CAff) (fun _ _ => BCustom CAff)
                        [arrZ 3 [2;3]; arrZ 5 [2;3]] [arrZ 7 [2;3]; arrZ 2 [2;3]] (arrZ 4 [2;3]) = true.
  Proof. vm_compute. reflexivity. Qed.
  Example csq_ok : chk 1 (custom_forward Zd CSq) (fun _ _ => BCustom CSq)
                       [arrZ 3 [2;3]] [arrZ 7 [2;3]] (arrZ 4 [2;3]) = true.
  Proof. vm_compute. reflexivity. Qed.

  (* expand: [windows = 4; count = 3] per image, two images *)
  Example expand_ok : chk 1 (fwd1 (fun a => expand_conv Zd a 2 2)) (fun _ _ => BExpand 3 4)
                          [arrZ 3 [2;4;3]] [arrZ 7 [2;4;3]] (arrZ 4 [2;3;2;2]) = true.
  Proof. vm_compute. reflexivity. Qed.

  (* matmul, all four transposition pairs, leading dims [2] vs [1;2], all flag triples *)
  Definition mm ta tb := fwd3 (fun A B C => a_matmul Zd A ta B tb (Some C)).
  Example mm_ff : chk 3 (mm false false) (fun _ _ => BMatmul false false)
      [arrZ 3 [2;2;3]; arrZ 5 [1;2;3;2]; arrZ 1 [2]] [arrZ 7 [2;2;3]; arrZ 2 [1;2;3;2]; arrZ 6 [2]]
      (arrZ 4 [1;2;2;2]) = true.
  Proof. vm_compute. reflexivity. Qed.
  Example mm_tf : chk 3 (mm true false) (fun _ _ => BMatmul true false)
      [arrZ 3 [2;3;2]; arrZ 5 [1;2;3;2]; arrZ 1 [2;2]] [arrZ 7 [2;3;2]; arrZ 2 [1;2;3;2]; arrZ 6 [2;2]]
      (arrZ 4 [1;2;2;2]) = true.
  Proof. vm_compute. reflexivity. Qed.
  Example mm_ft : chk 3 (mm false true) (fun _ _ => BMatmul false true)
      [arrZ 3 [2;2;3]; arrZ 5 [1;2;2;3]; arrZ 1 [1;2]] [arrZ 7 [2;2;3]; arrZ 2 [1;2;2;3]; arrZ 6 [1;2]]
      (arrZ 4 [1;2;2;2]) = true.
  Proof. vm_compute. reflexivity. Qed.
  Example mm_tt : chk 3 (mm true true) (fun _ _ => BMatmul true true)
      [arrZ 3 [2;3;2]; arrZ 5 [1;2;2;3]; arrZ 1 [1]] [arrZ 7 [2;3;2]; arrZ 2 [1;2;2;3]; arrZ 6 [1]]
      (arrZ 4 [1;2;2;2]) = true.
  Proof. vm_compute. reflexivity. Qed.
  (* plain [2;3] x [3;2] *)
  Example mm_plain : chk 3 (mm false false) (fun _ _ => BMatmul false false)
      [arrZ 3 [2;3]; arrZ 5 [3;2]; arrZ 1 [1]] [arrZ 7 [2;3]; arrZ 2 [3;2]; arrZ 6 [1]]
      (arrZ 4 [2;2]) = true.
  Proof. vm_compute. reflexivity. Qed.
  (* rank-1 forms: dot product, vector-matrix, matrix-vector *)
  Example mm_dot : chk 3 (mm false false) (fun _ _ => BMatmul false false)
      [arrZ 3 [3]; arrZ 5 [3]; arrZ 1 [1]] [arrZ 7 [3]; arrZ 2 [3]; arrZ 6 [1]] (arrZ 4 [1]) = true.
  Proof. vm_compute. reflexivity. Qed.

  (* unroll: depth 2, 3x3 image, 2x2 filter, stride 1, batch of 2 *)
  Example unroll_ok : chk 1 (fwd1 (fun a => unroll_blocks Zd a 1 1 2 2)) (fun _ _ => BUnroll 2 3 3 1 1 2 2)
      [arrZ 3 [2;2;3;3]] [arrZ 7 [2;2;3;3]] (arrZ 4 [2;4;8]) = true.
  Proof. vm_compute. reflexivity. Qed.
  Example unroll_ok2 : chk 1 (fwd1 (fun a => unroll_blocks Zd a 2 1 2 3)) (fun _ _ => BUnroll 1 4 5 2 1 2 3)
      [arrZ 3 [1;4;5]] [arrZ 7 [1;4;5]] (arrZ 4 [6;6]) = true.
  Proof. vm_compute. reflexivity. Qed.
End Sanity2.

Print Assumptions cmul_local.
Print Assumptions caff_local.
Print Assumptions csq_local.
Print Assumptions sigmoid_local.
Print Assumptions expand_local.
Print Assumptions matmul_local.
Print Assumptions unroll_local.
Print Assumptions matmul_local_absent.
