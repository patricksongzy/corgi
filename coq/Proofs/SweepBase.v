(** Structure of the declarative backward pass [sweep] / [adjoints]
    (Proofs/AdjointSpec.v): shape of the resulting table, dependence on the
    skeleton of the store only, behaviour under appending nodes, and the
    characterisation of the non-empty slots by [reach]. *)

From Coq Require Import List Arith Bool Lia PeanoNat.
From Corgi Require Import Lib.OptionMonad Model.Engine Proofs.EngineDefs Proofs.EngineBase
     Proofs.Propagate Proofs.AdjointSpec Proofs.ValueAlg.
Import ListNotations.

Lemma nth_nth_error : forall {A} (l : list (option A)) j,
    nth j l None = match nth_error l j with Some x => x | None => None end.
Proof.
  intros A l. induction l as [|x l IH]; intros j.
  - destruct j; reflexivity.
  - destruct j as [|j]; [reflexivity | simpl; apply IH].
Qed.

Lemma nth_some : forall {A} (l : list (option A)) j x,
    nth j l None = Some x <-> nth_error l j = Some (Some x).
Proof.
  intros A l j x. rewrite nth_nth_error.
  destruct (nth_error l j) as [[y|]|]; split; intro H; congruence.
Qed.

Lemma nth_some_ex : forall {A} (l : list (option A)) j,
    (exists x, nth j l None = Some x) <-> (exists x, nth_error l j = Some (Some x)).
Proof. intros A l j. split; intros (x & H); exists x; apply nth_some; exact H. Qed.

Lemma nth_repeat_none : forall {A} k j, nth j (repeat (@None A) k) None = None.
Proof.
  intros A k. induction k as [|k IH]; intros j.
  - destruct j; reflexivity.
  - destruct j as [|j]; [reflexivity | simpl; apply IH].
Qed.

Lemma set_nth_inv : forall {A} i (x : A) l l',
    set_nth i x l = Some l' -> i < length l /\ l' = firstn i l ++ x :: skipn (S i) l.
Proof.
  intros A i x l l' H. unfold set_nth in H.
  destruct (i <? length l) eqn:Hlt; [|discriminate H].
  apply Nat.ltb_lt in Hlt. injection H as H. split; [exact Hlt | symmetry; exact H].
Qed.

Lemma set_nth_len : forall {A} i (x : A) l l', set_nth i x l = Some l' -> length l' = length l.
Proof.
  intros A i x l l' H. apply set_nth_inv in H. destruct H as [Hlt H]. subst l'.
  apply set_nth_length. exact Hlt.
Qed.

Lemma set_nth_nth : forall {A} i (x : option A) l l' j,
    set_nth i x l = Some l' -> nth j l' None = if j =? i then x else nth j l None.
Proof.
  intros A i x l l' j H. apply set_nth_inv in H. destruct H as [Hlt H]. subst l'.
  rewrite !nth_nth_error. rewrite set_nth_spec by exact Hlt.
  destruct (j =? i); reflexivity.
Qed.

Lemma set_nth_some : forall {A} i (x : A) l, i < length l -> exists l', set_nth i x l = Some l'.
Proof.
  intros A i x l H. unfold set_nth. apply Nat.ltb_lt in H. rewrite H. eexists. reflexivity.
Qed.

Lemma set_nth_app : forall {A} i (x : A) l pad,
    i < length l ->
    set_nth i x (l ++ pad) = option_map (fun t => t ++ pad) (set_nth i x l).
Proof.
  intros A i x l pad H. unfold set_nth. rewrite app_length.
  assert (H1 : (i <? length l + length pad) = true) by (apply Nat.ltb_lt; lia).
  assert (H2 : (i <? length l) = true) by (apply Nat.ltb_lt; lia).
  rewrite H1, H2. cbn [option_map]. f_equal.
  rewrite firstn_app, skipn_app.
  replace (i - length l) with 0 by lia. replace (S i - length l) with 0 by lia.
  simpl. rewrite app_nil_r. rewrite <- app_assoc. reflexivity.
Qed.

Fixpoint desc (l : list nat) : Prop :=
  match l with
  | [] => True
  | n :: rest => (forall m, In m rest -> m < n) /\ desc rest
  end.

Lemma down_from_0 : down_from 0 = [0].
Proof. reflexivity. Qed.

Lemma down_from_S : forall r, down_from (S r) = S r :: down_from r.
Proof.
  intro r. unfold down_from. rewrite (seq_S (S r) 0). rewrite rev_app_distr. reflexivity.
Qed.

Lemma in_down_from : forall r n, In n (down_from r) <-> n <= r.
Proof.
  intros r n. unfold down_from. rewrite <- in_rev. rewrite in_seq. lia.
Qed.

Lemma desc_down_from : forall r, desc (down_from r).
Proof.
  intro r. induction r as [|r IH].
  - simpl. split; [intros m [] | exact I].
  - rewrite down_from_S. simpl. split; [|exact IH].
    intros m Hm. apply in_down_from in Hm. lia.
Qed.

Section SweepBase.
  Context {P D : Type}.
  Variable E : eops P D.

  Lemma init_table_nth : forall n r (s : D) j,
      nth j (init_table n r s) None = if j =? r then Some s else None.
  Proof.
    intros n r s j. unfold init_table.
    destruct (lt_eq_lt_dec j r) as [[Hlt | Heq] | Hgt].
    - rewrite app_nth1 by (rewrite repeat_length; exact Hlt).
      rewrite nth_repeat_none.
      assert (Hne : (j =? r) = false) by (apply Nat.eqb_neq; lia). rewrite Hne. reflexivity.
    - subst j. rewrite app_nth2 by (rewrite repeat_length; lia).
      rewrite repeat_length, Nat.sub_diag, Nat.eqb_refl. reflexivity.
    - rewrite app_nth2 by (rewrite repeat_length; lia).
      rewrite repeat_length.
      assert (Hne : (j =? r) = false) by (apply Nat.eqb_neq; lia). rewrite Hne.
      destruct (j - r) as [|k] eqn:Hk; [lia |].
      simpl. apply nth_repeat_none.
  Qed.

  Lemma init_table_length : forall n r (s : D), r < n -> length (init_table n r s) = n.
  Proof.
    intros n r s H. unfold init_table. rewrite !app_length, !repeat_length. simpl. lia.
  Qed.

  Lemma init_table_app : forall n k r (s : D),
      r < n -> init_table (n + k) r s = init_table n r s ++ repeat None k.
  Proof.
    intros n k r s H. unfold init_table.
    replace (n + k - S r) with ((n - S r) + k) by lia.
    rewrite repeat_app. rewrite <- !app_assoc. reflexivity.
  Qed.

  Lemma tab_add_unfold : forall tab c,
      tab_add E tab c =
      (cur <- nth_error tab (fst c) ;; nw <- oadd E cur (snd c) ;; set_nth (fst c) (Some nw) tab).
  Proof. reflexivity. Qed.

  Lemma tab_add_inv : forall tab c tab',
      tab_add E tab c = Some tab' ->
      fst c < length tab /\ length tab' = length tab /\
      exists nw, oadd E (nth (fst c) tab None) (snd c) = Some nw /\
                 forall j, nth j tab' None = if j =? fst c then Some nw else nth j tab None.
  Proof.
    intros tab c tab' H. rewrite tab_add_unfold in H.
    revert H. apply obind_elim. intros cur Hcur H.
    revert H. apply obind_elim. intros nw Hnw H.
    assert (Hlt : fst c < length tab).
    { apply nth_error_Some. rewrite Hcur. discriminate. }
    split; [exact Hlt |]. split; [eapply set_nth_len; exact H |].
    exists nw. split.
    - rewrite nth_nth_error, Hcur. exact Hnw.
    - intro j. eapply set_nth_nth. exact H.
  Qed.

  Lemma tab_add_intro : forall tab c nw,
      fst c < length tab -> oadd E (nth (fst c) tab None) (snd c) = Some nw ->
      exists tab', tab_add E tab c = Some tab'.
  Proof.
    intros tab c nw Hlt Hnw. rewrite tab_add_unfold.
    rewrite nth_nth_error in Hnw.
    destruct (nth_error tab (fst c)) as [cur|] eqn:Hcur.
    - simpl. rewrite Hnw. simpl. apply set_nth_some. exact Hlt.
    - apply nth_error_None in Hcur. lia.
  Qed.

  Lemma tab_add_all_nil : forall tab, tab_add_all E tab [] = Some tab.
  Proof. reflexivity. Qed.

  Lemma tab_add_all_cons : forall tab c cs,
      tab_add_all E tab (c :: cs) = (t <- tab_add E tab c ;; tab_add_all E t cs).
  Proof.
    intros tab c cs. unfold tab_add_all. simpl.
    destruct (tab_add E tab c) as [t|]; simpl; [reflexivity |].
    apply fold_left_none. intro b. reflexivity.
  Qed.

  Lemma tab_add_all_length : forall cs tab tab',
      tab_add_all E tab cs = Some tab' -> length tab' = length tab.
  Proof.
    intro cs. induction cs as [|c cs IH]; intros tab tab' H.
    - rewrite tab_add_all_nil in H. injection H as H. subst tab'. reflexivity.
    - rewrite tab_add_all_cons in H. revert H. apply obind_elim. intros t Ht H.
      apply IH in H. apply tab_add_inv in Ht. destruct Ht as (_ & Hl & _). lia.
  Qed.

  Lemma tab_add_all_bound : forall cs tab tab',
      tab_add_all E tab cs = Some tab' -> forall c, In c cs -> fst c < length tab.
  Proof.
    intro cs. induction cs as [|c cs IH]; intros tab tab' H c0 Hin.
    - destruct Hin.
    - rewrite tab_add_all_cons in H. revert H. apply obind_elim. intros t Ht H.
      apply tab_add_inv in Ht. destruct Ht as (Hlt & Hl & _).
      destruct Hin as [Heq | Hin].
      + subst c0. exact Hlt.
      + rewrite <- Hl. eapply IH; [exact H | exact Hin].
  Qed.

  Lemma tab_add_all_other : forall cs tab tab' j,
      tab_add_all E tab cs = Some tab' -> ~ In j (map fst cs) ->
      nth j tab' None = nth j tab None.
  Proof.
    intro cs. induction cs as [|c cs IH]; intros tab tab' j H Hn.
    - rewrite tab_add_all_nil in H. injection H as H. subst tab'. reflexivity.
    - rewrite tab_add_all_cons in H. revert H. apply obind_elim. intros t Ht H.
      simpl in Hn. rewrite (IH t tab' j H) by tauto.
      apply tab_add_inv in Ht. destruct Ht as (_ & _ & nw & _ & Hj).
      rewrite Hj. assert (Hne : (j =? fst c) = false) by (apply Nat.eqb_neq; intro; apply Hn; left; congruence).
      rewrite Hne. reflexivity.
  Qed.

  Lemma tab_add_all_mono : forall cs tab tab' j,
      tab_add_all E tab cs = Some tab' -> nth j tab None <> None -> nth j tab' None <> None.
  Proof.
    intro cs. induction cs as [|c cs IH]; intros tab tab' j H Hn.
    - rewrite tab_add_all_nil in H. injection H as H. subst tab'. exact Hn.
    - rewrite tab_add_all_cons in H. revert H. apply obind_elim. intros t Ht H.
      apply (IH t tab' j H).
      apply tab_add_inv in Ht. destruct Ht as (_ & _ & nw & _ & Hj).
      rewrite Hj. destruct (j =? fst c); [discriminate | exact Hn].
  Qed.

  Lemma tab_add_all_hit : forall cs tab tab' j,
      tab_add_all E tab cs = Some tab' -> In j (map fst cs) -> nth j tab' None <> None.
  Proof.
    intro cs. induction cs as [|c cs IH]; intros tab tab' j H Hin.
    - destruct Hin.
    - rewrite tab_add_all_cons in H. revert H. apply obind_elim. intros t Ht H.
      destruct (in_dec Nat.eq_dec j (map fst cs)) as [Hi | Hni].
      + apply (IH t tab' j H Hi).
      + simpl in Hin. destruct Hin as [Heq | Hin]; [|contradiction].
        apply (tab_add_all_mono cs t tab' j H).
        apply tab_add_inv in Ht. destruct Ht as (_ & _ & nw & _ & Hj).
        rewrite Hj. subst j. rewrite Nat.eqb_refl. discriminate.
  Qed.

  Lemma tab_add_app : forall tab pad c,
      fst c < length tab ->
      tab_add E (tab ++ pad) c = option_map (fun t => t ++ pad) (tab_add E tab c).
  Proof.
    intros tab pad c Hlt. rewrite !tab_add_unfold.
    rewrite nth_error_app1 by exact Hlt.
    destruct (nth_error tab (fst c)) as [cur|]; [|reflexivity]. simpl.
    destruct (oadd E cur (snd c)) as [nw|]; [|reflexivity]. simpl.
    apply set_nth_app. exact Hlt.
  Qed.

  Lemma tab_add_all_app : forall cs tab pad,
      (forall c, In c cs -> fst c < length tab) ->
      tab_add_all E (tab ++ pad) cs = option_map (fun t => t ++ pad) (tab_add_all E tab cs).
  Proof.
    intro cs. induction cs as [|c cs IH]; intros tab pad Hb.
    - reflexivity.
    - rewrite !tab_add_all_cons. rewrite tab_add_app by (apply Hb; left; reflexivity).
      destruct (tab_add E tab c) as [t|] eqn:Ht; [|reflexivity]. simpl.
      apply IH. intros c0 Hc0.
      apply tab_add_inv in Ht. destruct Ht as (_ & Hl & _). rewrite Hl.
      apply Hb. right. exact Hc0.
  Qed.

  Definition child_pay (g : store P D) (e : entry) : option P :=
    c <- nth_error g (e_node e) ;; Some (n_pay c).

  Definition cstep (g : store P D) (p : entry * option D) (acc : option (list (nat * D)))
    : option (list (nat * D)) :=
    rest <- acc ;;
    match snd p with
    | None => Some rest
    | Some d =>
      c <- nth_error g (e_node (fst p)) ;;
      d' <- eo_flat E d (n_pay c) ;;
      Some ((e_node (fst p), d') :: rest)
    end.

  Definition cflat (g : store P D) (ps : list (entry * option D)) : option (list (nat * D)) :=
    fold_right (cstep g) (Some []) ps.

  Definition cfold (g : store P D) (es : list entry) (ds : list (option D))
    : option (list (nat * D)) := cflat g (combine es ds).

  Lemma contribs_unfold : forall g n delta,
      contribs E g n delta =
      (nd <- nth_error g n ;;
       if hasop E nd then
         pays <- mapM (child_pay g) (n_children nd) ;;
         ds <- eo_bop E (n_pay nd) pays (map e_tracked (n_children nd)) delta ;;
         cfold g (n_children nd) ds
       else Some []).
  Proof. reflexivity. Qed.

  Lemma cflat_skip : forall g e ps, cflat g ((e, None) :: ps) = cflat g ps.
  Proof.
    intros g e ps. unfold cflat. simpl. unfold cstep at 1. simpl.
    destruct (fold_right _ _ ps); reflexivity.
  Qed.

  Lemma cflat_some : forall g e d ps,
      cflat g ((e, Some d) :: ps) =
      (rest <- cflat g ps ;; c <- nth_error g (e_node e) ;; d' <- eo_flat E d (n_pay c) ;;
       Some ((e_node e, d') :: rest)).
  Proof. reflexivity. Qed.

  Lemma cflat_some_inv : forall g e d ps own,
      cflat g ((e, Some d) :: ps) = Some own ->
      exists rest c d', cflat g ps = Some rest /\ nth_error g (e_node e) = Some c /\
                        eo_flat E d (n_pay c) = Some d' /\ own = (e_node e, d') :: rest.
  Proof.
    intros g e d ps own H. rewrite cflat_some in H.
    revert H. apply obind_elim. intros rest Hrest H.
    revert H. apply obind_elim. intros c Hc H.
    revert H. apply obind_elim. intros d' Hd' H.
    injection H as H. exists rest, c, d'. repeat split; congruence.
  Qed.

  Lemma cflat_some_fwd : forall g e d ps rest c d',
      cflat g ps = Some rest -> nth_error g (e_node e) = Some c ->
      eo_flat E d (n_pay c) = Some d' ->
      cflat g ((e, Some d) :: ps) = Some ((e_node e, d') :: rest).
  Proof.
    intros g e d ps rest c d' Hrest Hc Hd'. rewrite cflat_some, Hrest. simpl.
    rewrite Hc. simpl. rewrite Hd'. reflexivity.
  Qed.

  Lemma cflat_targets : forall g ps own m d,
      cflat g ps = Some own -> In (m, d) own ->
      exists e d0 c, In (e, Some d0) ps /\ e_node e = m /\ nth_error g m = Some c /\
                     eo_flat E d0 (n_pay c) = Some d.
  Proof.
    intros g ps. induction ps as [|[e od] ps IH]; intros own m d Hown Hin.
    - injection Hown as Hown. subst own. destruct Hin.
    - assert (Hrec : forall rest, cflat g ps = Some rest -> In (m, d) rest ->
                 exists e' d0 c, In (e', Some d0) ((e, od) :: ps) /\ e_node e' = m /\
                                 nth_error g m = Some c /\ eo_flat E d0 (n_pay c) = Some d).
      { intros rest Hrest Hr. destruct (IH rest m d Hrest Hr) as (e' & d0 & c & Hin' & H).
        exists e', d0, c. split; [right; exact Hin' | exact H]. }
      destruct od as [d0|]; [| rewrite cflat_skip in Hown; exact (Hrec own Hown Hin)].
      apply cflat_some_inv in Hown.
      destruct Hown as (rest & c & d' & Hrest & Hc & Hd' & Hown). subst own.
      destruct Hin as [Hin|Hin]; [| exact (Hrec rest Hrest Hin)].
      injection Hin as Hm Hd. subst m d'. exists e, d0, c.
      split; [left; reflexivity | tauto].
  Qed.

  Lemma cflat_fst : forall g ps own, cflat g ps = Some own -> map fst own = dl ps.
  Proof.
    intros g ps. induction ps as [|[e [d|]] ps IH]; intros own H.
    - injection H as H. subst own. reflexivity.
    - apply cflat_some_inv in H. destruct H as (rest & c & d' & Hrest & _ & _ & H). subst own.
      simpl. rewrite (IH rest Hrest). reflexivity.
    - rewrite cflat_skip in H. apply (IH own H).
  Qed.

  Lemma cflat_ext : forall g g' ps,
      (forall e od, In (e, od) ps ->
                    option_map n_pay (nth_error g (e_node e)) = option_map n_pay (nth_error g' (e_node e))) ->
      cflat g ps = cflat g' ps.
  Proof.
    intros g g' ps. induction ps as [|[e od] ps IH]; intro H; [reflexivity |].
    assert (IH' : cflat g ps = cflat g' ps)
      by (apply IH; intros e0 o0 He0; apply (H e0 o0); right; exact He0).
    destruct od as [d|]; [| rewrite !cflat_skip; exact IH'].
    rewrite !cflat_some, IH'. destruct (cflat g' ps) as [rest|]; [| reflexivity]. simpl.
    specialize (H e (Some d) (or_introl eq_refl)).
    destruct (nth_error g (e_node e)) as [c|]; destruct (nth_error g' (e_node e)) as [c'|];
      simpl in H; try discriminate H; [| reflexivity].
    injection H as H. simpl. rewrite H. reflexivity.
  Qed.

  Lemma cfold_nil_l : forall g ds, cfold g [] ds = Some [].
  Proof. reflexivity. Qed.

  Lemma cfold_nil_r : forall g es, cfold g es [] = Some [].
  Proof. intros g es. destruct es; reflexivity. Qed.

  Lemma cfold_cons : forall g e es o ds,
      cfold g (e :: es) (o :: ds) =
      (rest <- cfold g es ds ;;
       match o with
       | None => Some rest
       | Some d =>
         c <- nth_error g (e_node e) ;;
         d' <- eo_flat E d (n_pay c) ;;
         Some ((e_node e, d') :: rest)
       end).
  Proof. reflexivity. Qed.

  Lemma cfold_tks : forall g es ds cs,
      length ds <= length es ->
      (forall i e, nth_error es i = Some e ->
                   (e_tracked e = true <-> exists d, nth_error ds i = Some (Some d))) ->
      cfold g es ds = Some cs -> map fst cs = tks es.
  Proof.
    intros g es ds cs Hlen Hc H. rewrite (cflat_fst g _ cs H). apply dl_combine; assumption.
  Qed.

  Lemma child_pay_ext : forall g g' e,
      option_map n_pay (nth_error g (e_node e)) = option_map n_pay (nth_error g' (e_node e)) ->
      child_pay g e = child_pay g' e.
  Proof.
    intros g g' e H. unfold child_pay.
    destruct (nth_error g (e_node e)) as [c|]; destruct (nth_error g' (e_node e)) as [c'|];
      simpl in H; try discriminate H; [|reflexivity].
    injection H as H. simpl. rewrite H. reflexivity.
  Qed.

  Lemma contribs_ext : forall g g' n nd nd' delta,
      nth_error g n = Some nd -> nth_error g' n = Some nd' ->
      n_pay nd = n_pay nd' -> n_children nd = n_children nd' ->
      (forall e, In e (n_children nd) ->
                 option_map n_pay (nth_error g (e_node e)) = option_map n_pay (nth_error g' (e_node e))) ->
      contribs E g n delta = contribs E g' n delta.
  Proof.
    intros g g' n nd nd' delta Hn Hn' Hp Hc Hch.
    rewrite !contribs_unfold. rewrite Hn, Hn'. simpl.
    unfold hasop. rewrite <- Hp, <- Hc.
    destruct (eo_hasop E (n_pay nd)); [|reflexivity].
    rewrite (mapM_ext (child_pay g) (child_pay g') (n_children nd))
      by (intros e He; apply child_pay_ext; apply Hch; exact He).
    destruct (mapM (child_pay g') (n_children nd)) as [pays|]; [|reflexivity]. simpl.
    destruct (eo_bop E (n_pay nd) pays (map e_tracked (n_children nd)) delta) as [ds|]; [|reflexivity].
    simpl. apply cflat_ext. intros e od Hin. apply Hch. eapply in_combine_l. exact Hin.
  Qed.

  Lemma contribs_inv : forall g n delta cs,
      contribs E g n delta = Some cs ->
      exists nd, nth_error g n = Some nd /\
        ((hasop E nd = false /\ cs = []) \/
         (hasop E nd = true /\ exists pays ds,
             mapM (child_pay g) (n_children nd) = Some pays /\
             eo_bop E (n_pay nd) pays (map e_tracked (n_children nd)) delta = Some ds /\
             cfold g (n_children nd) ds = Some cs)).
  Proof.
    intros g n delta cs H. rewrite contribs_unfold in H.
    revert H. apply obind_elim. intros nd Hnd H. exists nd. split; [exact Hnd |].
    destruct (hasop E nd) eqn:Hop.
    - right. split; [reflexivity |].
      revert H. apply obind_elim. intros pays Hpays H.
      revert H. apply obind_elim. intros ds Hds H.
      exists pays, ds. tauto.
    - left. injection H as H. subst cs. tauto.
  Qed.

  Lemma contribs_targets : forall g n delta cs m d,
      wfg E g -> contribs E g n delta = Some cs -> In (m, d) cs ->
      m < n /\ exists c d0, nth_error g m = Some c /\ eo_flat E d0 (n_pay c) = Some d.
  Proof.
    intros g n delta cs m d Hwf H Hin. apply contribs_inv in H. destruct H as (nd & Hnd & H).
    destruct H as [[_ Hcs] | [_ (pays & ds & _ & _ & Hcf)]]; [subst cs; destruct Hin |].
    destruct (cflat_targets g _ cs m d Hcf Hin) as (e & d0 & c & Hin' & He & Hcm & Hfl).
    apply in_combine_l in Hin'. destruct (Hwf n nd Hnd) as (Hlt & _).
    specialize (Hlt e Hin'). split; [lia |]. exists c, d0. tauto.
  Qed.

  Lemma contribs_lt : forall g n delta cs c,
      wfg E g -> contribs E g n delta = Some cs -> In c cs -> fst c < n.
  Proof.
    intros g n delta cs [m d] Hwf H Hin. apply (contribs_targets g n delta cs m d Hwf H Hin).
  Qed.

  Lemma contribs_tks : forall g n delta cs nd,
      bop_contract E g -> contribs E g n delta = Some cs -> nth_error g n = Some nd ->
      hasop E nd = true -> map fst cs = tks (n_children nd).
  Proof.
    intros g n delta cs nd Hbc H Hnd Hop. apply contribs_inv in H. destruct H as (nd' & Hnd' & H).
    rewrite Hnd in Hnd'. injection Hnd' as Hnd'. subst nd'.
    destruct H as [[Hop' _] | [_ (pays & ds & _ & Hds & Hcf)]]; [congruence |].
    destruct (Hbc n nd pays delta ds Hnd Hds) as (Hlen & Hflags).
    apply (cfold_tks g _ ds cs Hlen Hflags Hcf).
  Qed.

  Lemma sweep_cons : forall g n rest tab,
      sweep E g (n :: rest) tab =
      match nth n tab None with
      | None => sweep E g rest tab
      | Some delta =>
        cs <- contribs E g n delta ;; tab' <- tab_add_all E tab cs ;; sweep E g rest tab'
      end.
  Proof. reflexivity. Qed.

  Lemma sweep_cons_inv : forall g n rest tab tab',
      sweep E g (n :: rest) tab = Some tab' ->
      (nth n tab None = None /\ sweep E g rest tab = Some tab') \/
      (exists delta cs tab1, nth n tab None = Some delta /\ contribs E g n delta = Some cs /\
                             tab_add_all E tab cs = Some tab1 /\ sweep E g rest tab1 = Some tab').
  Proof.
    intros g n rest tab tab' H. rewrite sweep_cons in H.
    destruct (nth n tab None) as [delta|].
    - right. revert H. apply obind_elim. intros cs Hcs H.
      revert H. apply obind_elim. intros tab1 Ht1 H.
      exists delta, cs, tab1. tauto.
    - left. tauto.
  Qed.

  Lemma sweep_length : forall g ids tab tab',
      sweep E g ids tab = Some tab' -> length tab' = length tab.
  Proof.
    intros g ids. induction ids as [|n rest IH]; intros tab tab' H.
    - injection H as H. subst tab'. reflexivity.
    - apply sweep_cons_inv in H.
      destruct H as [[_ H] | (delta & cs & tab1 & _ & _ & Ht1 & H)].
      + apply IH. exact H.
      + apply IH in H. apply tab_add_all_length in Ht1. lia.
  Qed.

  Lemma sweep_unchanged : forall g ids tab tab' j,
      wfg E g -> sweep E g ids tab = Some tab' ->
      (forall n, In n ids -> n <= j) -> nth j tab' None = nth j tab None.
  Proof.
    intros g ids. induction ids as [|n rest IH]; intros tab tab' j Hwf H Hb.
    - injection H as H. subst tab'. reflexivity.
    - assert (Hb' : forall m, In m rest -> m <= j) by (intros m Hm; apply Hb; right; exact Hm).
      apply sweep_cons_inv in H.
      destruct H as [[_ H] | (delta & cs & tab1 & _ & Hcs & Ht1 & H)].
      + apply IH; assumption.
      + rewrite (IH tab1 tab' j Hwf H Hb').
        apply (tab_add_all_other cs tab tab1 j Ht1).
        intro Hin. apply in_map_iff in Hin. destruct Hin as (c & Hc & Hin).
        assert (Hlt : fst c < n) by (eapply contribs_lt; eassumption).
        assert (Hn : n <= j) by (apply Hb; left; reflexivity). lia.
  Qed.

  Lemma sweep_mono : forall g ids tab tab' j,
      sweep E g ids tab = Some tab' -> nth j tab None <> None -> nth j tab' None <> None.
  Proof.
    intros g ids. induction ids as [|n rest IH]; intros tab tab' j H Hj.
    - injection H as H. subst tab'. exact Hj.
    - apply sweep_cons_inv in H.
      destruct H as [[_ H] | (delta & cs & tab1 & _ & _ & Ht1 & H)].
      + eapply IH; eassumption.
      + apply (IH tab1 tab' j H). eapply tab_add_all_mono; eassumption.
  Qed.

  (** ** (S0) shape of the table *)

  Theorem adjoints_shape : forall g r s tab,
      wfg E g -> r < length g -> adjoints E g r s = Some tab ->
      length tab = length g /\ nth r tab None = Some s /\
      (forall id, r < id -> nth id tab None = None).
  Proof.
    intros g r s tab Hwf Hr H. unfold adjoints in H. split; [|split].
    - apply sweep_length in H. rewrite H. apply init_table_length. exact Hr.
    - rewrite (sweep_unchanged g _ _ tab r Hwf H).
      + rewrite init_table_nth, Nat.eqb_refl. reflexivity.
      + intros n Hn. apply in_down_from in Hn. exact Hn.
    - intros id Hid. rewrite (sweep_unchanged g _ _ tab id Hwf H).
      + rewrite init_table_nth.
        assert (Hne : (id =? r) = false) by (apply Nat.eqb_neq; lia). rewrite Hne. reflexivity.
      + intros n Hn. apply in_down_from in Hn. lia.
  Qed.

  (** ** (S0, S3) the sweep reads the skeleton of the store only *)

  Definition skel_eq (g g' : store P D) : Prop :=
    length g = length g' /\
    forall id nd nd', nth_error g id = Some nd -> nth_error g' id = Some nd' ->
                      n_pay nd = n_pay nd' /\ n_children nd = n_children nd'.

  Lemma skel_eq_nth : forall g g' id,
      skel_eq g g' ->
      (nth_error g id = None /\ nth_error g' id = None) \/
      (exists nd nd', nth_error g id = Some nd /\ nth_error g' id = Some nd' /\
                      n_pay nd = n_pay nd' /\ n_children nd = n_children nd').
  Proof.
    intros g g' id [Hl H].
    destruct (nth_error g id) as [nd|] eqn:Hn; destruct (nth_error g' id) as [nd'|] eqn:Hn'.
    - right. exists nd, nd'. destruct (H id nd nd' Hn Hn') as [Ha Hb]. tauto.
    - apply nth_error_None in Hn'. apply nth_lt in Hn. lia.
    - apply nth_error_None in Hn. apply nth_lt in Hn'. lia.
    - left. tauto.
  Qed.

  Lemma skel_eq_some : forall g g' id nd,
      skel_eq g g' -> nth_error g id = Some nd ->
      exists nd', nth_error g' id = Some nd' /\ n_pay nd = n_pay nd' /\
                  n_children nd = n_children nd'.
  Proof.
    intros g g' id nd Hs Hn.
    destruct (skel_eq_nth g g' id Hs) as [[Ha _] | (a & nd' & Ha & Hb & Hpc)]; [congruence |].
    rewrite Hn in Ha. injection Ha as Ha. subst a. exists nd'. tauto.
  Qed.

  Lemma skel_eq_map_sk : forall g g', skel_eq g g' <-> map sk g = map sk g'.
  Proof.
    intros g g'. split.
    - intro H. apply nth_error_ext. intro j. rewrite !nth_error_map.
      destruct (skel_eq_nth g g' j H) as [[Ha Hb] | (nd & nd' & Ha & Hb & Hp & Hc)];
        rewrite Ha, Hb; simpl; [reflexivity |].
      unfold sk. rewrite Hp, Hc. reflexivity.
    - intro H. split; [eapply map_eq_length; exact H |].
      intros id nd nd' Hn Hn'.
      destruct (map_eq_nth sk g g' id nd H Hn) as (nd2 & Hn2 & Hsk).
      rewrite Hn' in Hn2. injection Hn2 as Hn2. subst nd2.
      unfold sk in Hsk. injection Hsk as Hp Hc. split; symmetry; assumption.
  Qed.

  Lemma skel_eq_refl : forall g, skel_eq g g.
  Proof. intro g. apply skel_eq_map_sk. reflexivity. Qed.

  Lemma skel_eq_sym : forall g g', skel_eq g g' -> skel_eq g' g.
  Proof. intros g g' H. apply skel_eq_map_sk. symmetry. apply skel_eq_map_sk. exact H. Qed.

  Lemma skel_eq_trans : forall g1 g2 g3, skel_eq g1 g2 -> skel_eq g2 g3 -> skel_eq g1 g3.
  Proof.
    intros g1 g2 g3 H12 H23. apply skel_eq_map_sk.
    rewrite (proj1 (skel_eq_map_sk g1 g2) H12). apply skel_eq_map_sk. exact H23.
  Qed.

  Lemma skel_eq_pay : forall g g' id,
      skel_eq g g' -> option_map n_pay (nth_error g id) = option_map n_pay (nth_error g' id).
  Proof.
    intros g g' id H.
    destruct (skel_eq_nth g g' id H) as [[Ha Hb] | (nd & nd' & Ha & Hb & Hp & _)];
      rewrite Ha, Hb; simpl; [reflexivity | rewrite Hp; reflexivity].
  Qed.

  Lemma skel_eq_put : forall g id nd nd' g',
      nth_error g id = Some nd -> put g id nd' = Some g' ->
      n_pay nd' = n_pay nd -> n_children nd' = n_children nd -> skel_eq g g'.
  Proof.
    intros g id nd nd' g' Hn Hput Hp Hc. apply skel_eq_map_sk. symmetry.
    eapply put_map; [exact Hput | exact Hn |]. unfold sk. rewrite Hp, Hc. reflexivity.
  Qed.

  Lemma skel_eq_put_count : forall g id nd c g',
      nth_error g id = Some nd -> put g id (set_count nd c) = Some g' -> skel_eq g g'.
  Proof. intros g id nd c g' Hn Hput. eapply skel_eq_put; [exact Hn | exact Hput | |]; reflexivity. Qed.

  Lemma skel_eq_put_delta : forall g id nd d g',
      nth_error g id = Some nd -> put g id (set_delta nd d) = Some g' -> skel_eq g g'.
  Proof. intros g id nd d g' Hn Hput. eapply skel_eq_put; [exact Hn | exact Hput | |]; reflexivity. Qed.

  Lemma skel_eq_put_grad : forall g id nd d g',
      nth_error g id = Some nd -> put g id (set_grad nd d) = Some g' -> skel_eq g g'.
  Proof. intros g id nd d g' Hn Hput. eapply skel_eq_put; [exact Hn | exact Hput | |]; reflexivity. Qed.

  Lemma contribs_skel : forall g g' n delta,
      skel_eq g g' -> contribs E g n delta = contribs E g' n delta.
  Proof.
    intros g g' n delta H.
    destruct (skel_eq_nth g g' n H) as [[Ha Hb] | (nd & nd' & Ha & Hb & Hp & Hc)].
    - rewrite !contribs_unfold, Ha, Hb. reflexivity.
    - eapply contribs_ext; try eassumption.
      intros e _. apply skel_eq_pay. exact H.
  Qed.

  Lemma sweep_skel : forall g g' ids tab,
      skel_eq g g' -> sweep E g ids tab = sweep E g' ids tab.
  Proof.
    intros g g' ids. induction ids as [|n rest IH]; intros tab H.
    - reflexivity.
    - rewrite !sweep_cons. destruct (nth n tab None) as [delta|]; [|apply IH; exact H].
      rewrite (contribs_skel g g' n delta H).
      destruct (contribs E g' n delta) as [cs|]; [|reflexivity]. simpl.
      destruct (tab_add_all E tab cs) as [tab1|]; [|reflexivity]. simpl.
      apply IH. exact H.
  Qed.

  Theorem adjoints_skel : forall g g' r s,
      skel_eq g g' -> adjoints E g r s = adjoints E g' r s.
  Proof.
    intros g g' r s H. unfold adjoints. destruct H as [Hl H'].
    rewrite <- Hl. apply sweep_skel. split; assumption.
  Qed.

  Corollary adjoints_cells_irrelevant : forall g g' r s,
      map sk g = map sk g' -> adjoints E g r s = adjoints E g' r s.
  Proof. intros g g' r s H. apply adjoints_skel. apply skel_eq_map_sk. exact H. Qed.

  (** ** (S0) appending nodes *)

  Lemma contribs_app : forall g extra n delta,
      wfg E g -> n < length g -> contribs E (g ++ extra) n delta = contribs E g n delta.
  Proof.
    intros g extra n delta Hwf Hn.
    destruct (nth_error g n) as [nd|] eqn:Hnd; [|apply nth_error_None in Hnd; lia].
    eapply contribs_ext.
    - rewrite nth_error_app1 by exact Hn. exact Hnd.
    - exact Hnd.
    - reflexivity.
    - reflexivity.
    - intros e He. destruct (Hwf n nd Hnd) as [Hlt _]. specialize (Hlt e He).
      rewrite nth_error_app1 by lia. reflexivity.
  Qed.

  Lemma sweep_app : forall g extra pad ids tab,
      wfg E g -> length tab = length g -> (forall n, In n ids -> n < length g) ->
      sweep E (g ++ extra) ids (tab ++ pad) = option_map (fun t => t ++ pad) (sweep E g ids tab).
  Proof.
    intros g extra pad ids. induction ids as [|n rest IH]; intros tab Hwf Hl Hb.
    - reflexivity.
    - assert (Hn : n < length g) by (apply Hb; left; reflexivity).
      assert (Hb' : forall m, In m rest -> m < length g) by (intros m Hm; apply Hb; right; exact Hm).
      rewrite !sweep_cons. rewrite app_nth1 by lia.
      destruct (nth n tab None) as [delta|]; [|apply IH; assumption].
      rewrite contribs_app by assumption.
      destruct (contribs E g n delta) as [cs|] eqn:Hcs; [|reflexivity]. simpl.
      rewrite tab_add_all_app.
      + destruct (tab_add_all E tab cs) as [tab1|] eqn:Ht1; [|reflexivity]. simpl.
        apply IH; try assumption. apply tab_add_all_length in Ht1. lia.
      + intros c Hc. assert (Hlt : fst c < n) by (eapply contribs_lt; eassumption). lia.
  Qed.

  Theorem adjoints_app : forall g extra r s,
      wfg E g -> r < length g ->
      adjoints E (g ++ extra) r s =
      option_map (fun t => t ++ repeat None (length extra)) (adjoints E g r s).
  Proof.
    intros g extra r s Hwf Hr. unfold adjoints. rewrite app_length.
    rewrite init_table_app by exact Hr.
    apply sweep_app.
    - exact Hwf.
    - apply init_table_length. exact Hr.
    - intros n Hn. apply in_down_from in Hn. lia.
  Qed.

  (** ** (S0) the non-empty slots are the nodes reachable through tracked entries *)

  Lemma sweep_reach_sound : forall g r ids tab tab',
      bop_contract E g -> sweep E g ids tab = Some tab' ->
      (forall j, nth j tab None <> None -> reach g r j) ->
      forall j, nth j tab' None <> None -> reach g r j.
  Proof.
    intros g r ids. induction ids as [|n rest IH]; intros tab tab' Hbc H Hinv.
    - injection H as H. subst tab'. exact Hinv.
    - apply sweep_cons_inv in H.
      destruct H as [[_ H] | (delta & cs & tab1 & Hd & Hcs & Ht1 & H)].
      + eapply IH; eassumption.
      + apply (IH tab1 tab' Hbc H).
        assert (Hrn : reach g r n) by (apply Hinv; rewrite Hd; discriminate).
        intros j Hj.
        destruct (in_dec Nat.eq_dec j (map fst cs)) as [Hi | Hni].
        * destruct (contribs_inv g n delta cs Hcs) as (nd & Hnd & [[_ Hnil] | [Hop _]]);
            [subst cs; destruct Hi |].
          rewrite (contribs_tks g n delta cs nd Hbc Hcs Hnd Hop) in Hi.
          apply tks_in in Hi. destruct Hi as (e & He & Htr & Hej). subst j.
          eapply reach_step; eassumption.
        * apply Hinv. rewrite <- (tab_add_all_other cs tab tab1 j Ht1 Hni). exact Hj.
  Qed.

  Lemma sweep_children_filled : forall g ids tab tab',
      wfg E g -> bop_contract E g -> desc ids -> sweep E g ids tab = Some tab' ->
      forall m nd e, In m ids -> nth m tab' None <> None -> nth_error g m = Some nd ->
                     In e (n_children nd) -> e_tracked e = true ->
                     nth (e_node e) tab' None <> None.
  Proof.
    intros g ids. induction ids as [|n rest IH]; intros tab tab' Hwf Hbc Hdesc H m nd e Hm Hne Hnd He Ht.
    - destruct Hm.
    - destruct Hdesc as [Hlt Hdesc].
      assert (Hsame : nth n tab' None = nth n tab None).
      { apply (sweep_unchanged g (n :: rest) tab tab' n Hwf H).
        intros k [Hk | Hk]; [lia | specialize (Hlt k Hk); lia]. }
      apply sweep_cons_inv in H.
      destruct H as [[Hd H] | (delta & cs & tab1 & Hd & Hcs & Ht1 & H)].
      + destruct Hm as [Hm | Hm].
        * subst m. rewrite Hsame, Hd in Hne. contradiction Hne. reflexivity.
        * eapply (IH tab tab'); eassumption.
      + destruct Hm as [Hm | Hm].
        * subst m. apply (sweep_mono g rest tab1 tab' _ H).
          apply (tab_add_all_hit cs tab tab1 _ Ht1).
          destruct (hasop E nd) eqn:Hop;
            [| destruct (Hwf n nd Hnd) as (_ & Hnil); rewrite (Hnil Hop) in He; destruct He].
          rewrite (contribs_tks g n delta cs nd Hbc Hcs Hnd Hop).
          apply tks_in. exists e. tauto.
        * eapply (IH tab1 tab'); eassumption.
  Qed.

  Theorem adjoints_reach : forall g r s tab,
      wfg E g -> bop_contract E g -> r < length g -> adjoints E g r s = Some tab ->
      forall id, nth id tab None <> None <-> reach g r id.
  Proof.
    intros g r s tab Hwf Hbc Hr H id. split.
    - unfold adjoints in H. revert id.
      apply (sweep_reach_sound g r _ _ tab Hbc H).
      intros j Hj. rewrite init_table_nth in Hj.
      destruct (j =? r) eqn:Hjr; [|contradiction Hj; reflexivity].
      apply Nat.eqb_eq in Hjr. subst j. apply reach_root.
    - intro Hreach. induction Hreach as [|m nd e Hm IH Hnd He Ht].
      + destruct (adjoints_shape g r s tab Hwf Hr H) as (_ & Hs & _). rewrite Hs. discriminate.
      + unfold adjoints in H.
        apply (sweep_children_filled g _ _ tab Hwf Hbc (desc_down_from r) H m nd e); try assumption.
        apply in_down_from. eapply (reach_le E); eassumption.
  Qed.

  Corollary adjoints_beyond : forall g r s tab id,
      wfg E g -> r < length g -> adjoints E g r s = Some tab -> length g <= id ->
      nth id tab None = None.
  Proof.
    intros g r s tab id Hwf Hr H Hid.
    destruct (adjoints_shape g r s tab Hwf Hr H) as (Hl & _ & _).
    apply nth_overflow. lia.
  Qed.
End SweepBase.
