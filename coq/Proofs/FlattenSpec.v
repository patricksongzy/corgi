(** C03: [flatten_to] is the transpose (adjoint) of broadcasting.

    Shape facts need no assumption on the scalars; the value theorems are stated for a
    commutative ring of scalars ([is_cring], Lib/Sums.v), because the model accumulates
    the contributions in loop order. *)

From Coq Require Import List Arith Bool Lia PeanoNat.
From Corgi Require Import Lib.OptionMonad Lib.IdxDefs Lib.Idx Model.Scalar Model.Arr
     Model.SlicedOp Model.Elementwise Lib.Sums Proofs.ArrFacts Proofs.BroadcastDims
     Proofs.SpecDefs Proofs.SlicedOpSpec Proofs.EwSpec Proofs.ReduceSpec.
Import ListNotations.

Fixpoint list_eqb (x y : list nat) : bool :=
  match x, y with
  | [], [] => true
  | a :: x', b :: y' => (a =? b) && list_eqb x' y'
  | _, _ => false
  end.

Lemma list_eqb_spec : forall x y, list_eqb x y = true <-> x = y.
Proof.
  induction x as [|a x IH]; intros [|b y]; simpl; split; intros H;
    try reflexivity; try discriminate.
  - apply andb_true_iff in H. destruct H as [H1 H2]. apply Nat.eqb_eq in H1.
    apply IH in H2. congruence.
  - inversion H; subst. rewrite Nat.eqb_refl. apply IH. reflexivity.
Qed.

(** [t] is right-aligned below-or-unit w.r.t. [d]: the predicate [sub_lead] of
    Proofs/SlicedOpSpec.v, under the name used for a [flatten_to] target *)
Definition sub_target (t d : list nat) : Prop :=
  length t <= length d /\
  Forall2 (fun x y => x = 1 \/ x = y) t (lastn (length t) d).

Lemma sub_target_sub_lead : forall t d, sub_target t d <-> sub_lead t d.
Proof. intros. reflexivity. Qed.

(** the flat position of the target [t] that flat position [j] of the source [d] is
    broadcast from *)
Definition bpos (d t : list nat) (j : nat) : nat := rowmajor t (bclamp t (unrank d j)).

Lemma combine_map_map : forall {A B C} (f : C -> A) (g : C -> B) l,
    combine (map f l) (map g l) = map (fun k => (f k, g k)) l.
Proof. intros A B C f g l. induction l as [|x l IH]; simpl; [reflexivity|]. rewrite IH. reflexivity. Qed.

Section Tab.
  Context {A : Type}.

  Lemma nth_map_seq : forall (f : nat -> A) s n x d,
      x < n -> nth x (map f (seq s n)) d = f (s + x).
  Proof.
    intros f s n x d Hx. rewrite nth_nth_error, nth_error_map, nth_error_seq by exact Hx. reflexivity.
  Qed.

  Lemma list_as_map_seq : forall (l : list A) d,
      l = map (fun k => nth k l d) (seq 0 (length l)).
  Proof.
    intros l d. apply nth_error_ext. intros x. rewrite nth_error_map.
    destruct (Nat.lt_ge_cases x (length l)) as [Hx|Hx].
    - rewrite nth_error_seq by exact Hx. cbn [option_map Nat.add].
      apply nth_error_nth'. exact Hx.
    - replace (nth_error l x) with (@None A) by (symmetry; apply nth_error_None; exact Hx).
      replace (nth_error (seq 0 (length l)) x) with (@None nat)
        by (symmetry; apply nth_error_None; rewrite seq_length; exact Hx).
      reflexivity.
  Qed.

  Lemma combine_seq_nth : forall (l : list A) d,
      combine (seq 0 (length l)) l = map (fun k => (k, nth k l d)) (seq 0 (length l)).
  Proof.
    intros l d. rewrite (list_as_map_seq l d) at 2.
    rewrite <- (map_id (seq 0 (length l))) at 1.
    apply combine_map_map.
  Qed.

  Lemma slice_length : forall off len (l s : list A), slice off len l = Some s -> length s = len.
  Proof.
    intros off len l s H. unfold slice in H.
    destruct (off + len <=? length l) eqn:E; [|discriminate].
    apply Nat.leb_le in E. inversion H; subst. rewrite firstn_length, skipn_length. lia.
  Qed.

  Lemma filter_map_swap : forall {B} (p : A -> bool) (f : B -> A) l,
      filter p (map f l) = map f (filter (fun x => p (f x)) l).
  Proof.
    intros B p f l. induction l as [|x l IH]; simpl; [reflexivity|].
    destruct (p (f x)); simpl; rewrite IH; reflexivity.
  Qed.
End Tab.

Lemma nth_repeat_same : forall {A} (z : A) n x, nth x (repeat z n) z = z.
Proof. intros A z n x. apply nth_repeat. Qed.

Section Shape.
  Context {F : Type} (O : ScalarOps F).

  Definition flatten_head (a : arr F) (t : list nat) : option (arr F) :=
    let fdc := length (dims a) - length t in
    if fdc =? 0 then Some a
    else sliced_op O [a] (flatten_sop O) (dims a) (skipn fdc (dims a)) (length (dims a)) 0.

  Definition flatten_tail (fl : arr F) (t : list nat) : option (arr F) :=
    if dims_eqb (dims fl) t then Some fl
    else sliced_op O [fl] (flatten_sop O) (dims fl) t 1 0.

  Lemma flatten_to_unfold : forall (a : arr F) t,
      flatten_to O a t = (fl <- flatten_head a t ;; flatten_tail fl t).
  Proof.
    intros a t. unfold flatten_to, flatten_head, flatten_tail. cbv zeta.
    destruct (dims_eqb (dims a) t) eqn:E; [|reflexivity].
    pose proof E as E'. apply dims_eqb_spec in E'. rewrite <- E', Nat.sub_diag.
    cbn [Nat.eqb obind]. rewrite E' at 2. rewrite E. reflexivity.
  Qed.

  Theorem flatten_to_same : forall a : arr F, flatten_to O a (dims a) = Some a.
  Proof.
    intros a. unfold flatten_to.
    replace (dims_eqb (dims a) (dims a)) with true
      by (symmetry; apply dims_eqb_spec; reflexivity).
    reflexivity.
  Qed.

  Lemma flatten_head_shape : forall (a fl : arr F) t,
      wf a -> flatten_head a t = Some fl ->
      wf fl /\ dims fl = skipn (length (dims a) - length t) (dims a).
  Proof.
    intros a fl t Hwa H. unfold flatten_head in H. cbv zeta in H.
    destruct (length (dims a) - length t =? 0) eqn:E.
    - inversion H; subst fl. apply Nat.eqb_eq in E. rewrite E. split; [exact Hwa|reflexivity].
    - apply sliced_op_shape in H. exact H.
  Qed.

  Lemma flatten_tail_shape : forall (fl r : arr F) t,
      wf fl -> flatten_tail fl t = Some r -> wf r /\ dims r = t.
  Proof.
    intros fl r t Hw H. unfold flatten_tail in H.
    destruct (dims_eqb (dims fl) t) eqn:E.
    - inversion H; subst r. apply dims_eqb_spec in E. split; assumption.
    - apply sliced_op_shape in H. exact H.
  Qed.

  (** (B3) whenever [flatten_to] returns, the result is well formed with the target
      dimensions *)
  Theorem flatten_to_shape : forall (a r : arr F) t,
      wf a -> flatten_to O a t = Some r -> wf r /\ dims r = t.
  Proof.
    intros a r t Hwa H. rewrite flatten_to_unfold in H.
    revert H. apply obind_elim. intros fl Hh Ht.
    destruct (flatten_head_shape a fl t Hwa Hh) as [Hwfl _].
    exact (flatten_tail_shape fl r t Hwfl Ht).
  Qed.
End Shape.

Section AccLoop.
  Context {A : Type}.
  Variables (g M : nat) (phi : nat -> nat) (upd : nat -> list A -> list A).
  Hypothesis upd_len : forall i cur, length cur = g -> length (upd i cur) = g.

  Definition astep (i : nat) (out : list A) : option (list A) :=
    bstep g (fun _ cur => Some (upd i cur)) (phi i) out.

  Lemma acc_loop : forall l out0,
      length out0 = M * g -> (forall i, In i l -> phi i < M) ->
      exists out,
        iterM astep l out0 = Some out /\ length out = M * g /\
        forall b, b < M ->
          block g b out
          = fold_left (fun blk i => if phi i =? b then upd i blk else blk) l (block g b out0).
  Proof.
    induction l as [|i l IH]; intros out0 Hl Hphi.
    - exists out0. split; [reflexivity|]. split; [exact Hl|]. reflexivity.
    - assert (Hi : phi i < M) by (apply Hphi; left; reflexivity).
      set (new := upd i (block g (phi i) out0)).
      assert (Hnew : length new = g).
      { apply upd_len. apply (block_length g (phi i) M out0 Hl Hi). }
      pose proof (bstep_complete g M (fun _ cur => Some (upd i cur)) (phi i) out0 new Hl Hi
                                 eq_refl Hnew) as Hstep.
      destruct (bstep_some g M _ (phi i) out0 _ Hl Hi Hstep) as (_ & Hl1 & Hother).
      destruct (IH (splice (g * phi i) new out0) Hl1) as (out & Hit & Hlen & Hb).
      { intros j Hj. apply Hphi. right. exact Hj. }
      exists out. split; [|split; [exact Hlen|]].
      + cbn [iterM]. unfold astep at 1. rewrite Hstep. cbn [obind]. exact Hit.
      + intros b Hb'. rewrite (Hb b Hb'). cbn [fold_left]. f_equal.
        destruct (phi i =? b) eqn:E.
        * apply Nat.eqb_eq in E. subst b.
          apply (block_splice_same g (phi i) M new out0 Hl Hi Hnew).
        * apply Nat.eqb_neq in E. apply Hother. congruence.
  Qed.
End AccLoop.

Section FlattenSop.
  Context {F : Type} (O : ScalarOps F).

  Definition fl_upd (g : nat) (s cur : list F) : list F :=
    map (fun k => fadd O (nth k cur (f0 O)) (vsum O (strided O k g s))) (seq 0 g).

  Lemma flatten_sop_upd : forall g (s cur : list F),
      length cur = g -> flatten_sop O cur [s] = Some (fl_upd g s cur).
  Proof.
    intros g s cur Hg. unfold flatten_sop, fl_upd. cbv zeta. f_equal.
    rewrite (combine_seq_nth cur (f0 O)), map_map, Hg. reflexivity.
  Qed.

  Lemma fl_upd_length : forall g s cur, length (fl_upd g s cur) = g.
  Proof. intros. unfold fl_upd. rewrite map_length, seq_length. reflexivity. Qed.

  Lemma fl_upd_nth : forall g s cur x,
      x < g -> nth x (fl_upd g s cur) (f0 O)
               = fadd O (nth x cur (f0 O)) (vsum O (strided O x g s)).
  Proof. intros g s cur x Hx. unfold fl_upd. rewrite nth_map_seq by exact Hx. reflexivity. Qed.

  (** ** phase 1: the leading dimensions are summed away in a single application *)
  Lemma flatten_phase1 : forall (a : arr F) fdc,
      wf a ->
      let d1 := skipn fdc (dims a) in
      sliced_op O [a] (flatten_sop O) (dims a) d1 (length (dims a)) 0
      = Some {| dims := d1;
                vals := map (fun x => fadd O (f0 O) (vsum O (strided O x (prod d1) (vals a))))
                            (seq 0 (prod d1)) |}.
  Proof.
    intros a fdc Hwa d1.
    (* no leading dimensions are left: a single application to the whole operand *)
    rewrite (sliced_op_tab O [a] _ (dims a) (length (dims a)) [] d1 0 d1
               (fun _ => fl_upd (prod d1) (vals a) (repeat (f0 O) (prod d1)))).
    - cbn [prod fold_right seq map concat]. rewrite app_nil_r. unfold fl_upd. do 2 f_equal.
      apply map_ext. intros k. rewrite nth_repeat. reflexivity.
    - rewrite Nat.sub_diag. reflexivity.
    - constructor.
    - constructor; [|constructor]. apply operand_whole; [exact Hwa|reflexivity].
    - intros t _. cbn [map]. rewrite oblock_whole by (exact Hwa || reflexivity).
      split; [|apply fl_upd_length]. apply flatten_sop_upd. apply repeat_length.
    - reflexivity.
    - apply Forall_skipn. apply Hwa.
    - cbn [prod fold_right]. lia.
  Qed.
End FlattenSop.

Section FlattenPhase2.
  Context {F : Type} (O : ScalarOps F).

  Lemma fold_upd_nth : forall g (phi : nat -> nat) (row : nat -> list F) b x l blk,
      length blk = g -> x < g ->
      nth x (fold_left (fun blk i => if phi i =? b then fl_upd O g (row i) blk else blk) l blk)
          (f0 O)
      = fold_left (fun acc i => if phi i =? b
                                then fadd O acc (vsum O (strided O x g (row i))) else acc)
                  l (nth x blk (f0 O)).
  Proof.
    intros g phi row b x l. induction l as [|i l IH]; intros blk Hg Hx; [reflexivity|].
    cbn [fold_left]. destruct (phi i =? b).
    - rewrite IH; [|apply fl_upd_length|exact Hx].
      rewrite fl_upd_nth by exact Hx. reflexivity.
    - apply IH; assumption.
  Qed.

  (** ** phase 2: unit dimensions of the target are collapsed, row by row; the rows whose
      clamped leading index is [b] accumulate into block [b] of the output *)
  Lemma flatten_phase2 : forall (fl : arr F) l1 n1 lt nt,
      wf fl -> dims fl = l1 ++ [n1] -> length lt = length l1 -> sub_lead lt l1 ->
      Forall (fun x => 1 <= x) lt -> 1 <= nt ->
      let phi := fun i => rowmajor lt (bclamp lt (unrank l1 i)) in
      exists out,
        sliced_op O [fl] (flatten_sop O) (dims fl) (lt ++ [nt]) 1 0
        = Some {| dims := lt ++ [nt]; vals := out |} /\
        length out = prod lt * nt /\
        forall b x, b < prod lt -> x < nt ->
          nth (nt * b + x) out (f0 O)
          = fold_left (fun acc i =>
                         if phi i =? b
                         then fadd O acc (vsum O (strided O x nt (block n1 i (vals fl))))
                         else acc)
                      (seq 0 (prod l1)) (f0 O).
  Proof.
    intros fl l1 n1 lt nt Hw Ed Hlen Hsub Hplt Hnt phi.
    destruct (wf_snoc fl l1 n1 Hw Ed) as (Hpl1 & Hn1 & Hvl).
    set (row := fun i => block n1 i (vals fl)).
    set (upd := fun i => fl_upd O nt (row i)).
    assert (Hphi : forall i, phi i < prod lt) by (intros i; apply (bidx_lt lt l1 i); assumption).
    assert (E1 : length (l1 ++ [n1]) - 1 = length l1) by (rewrite app_length; cbn [length]; lia).
    assert (E3 : prod (skipn (length l1) (lt ++ [nt])) = nt).
    { rewrite <- Hlen, skipn_app_len. cbn [prod fold_right]. lia. }
    assert (Hstep : forall i s', In i (seq 0 (prod l1)) ->
               sliced_step (flatten_sop O) [fl] 1 (length l1) l1 (lt ++ [nt]) nt i s'
               = astep nt phi upd i s').
    { intros i s' Hi. apply in_seq in Hi. unfold sliced_step. cbv zeta. cbn [mapM].
      rewrite (operand_slice_spec 1 (length l1) l1 i fl Hw Hpl1 eq_refl)
        by (rewrite (lead_dims_snoc fl l1 n1 Ed); apply sub_lead_refl).
      change (block _ _ (vals fl)) with (oblock 1 l1 i fl). rewrite (oblock_own 1 fl l1 [n1] i Ed eq_refl Hpl1), prod_single by lia.
      cbn [obind].
      assert (Ephi : clamp_fold (unrank l1 i) (lt ++ [nt]) = phi i).
      { apply clamp_fold_firstn; rewrite unrank_length; [|exact Hlen].
        rewrite <- Hlen. apply firstn_app_len. }
      rewrite Ephi. unfold astep, bstep.
      destruct (slice (nt * phi i) nt s') as [cur|] eqn:Es; cbn [obind]; [|reflexivity].
      rewrite (flatten_sop_upd O nt) by (eapply slice_length; exact Es). reflexivity. }
    destruct (acc_loop nt (prod lt) phi upd (fun i cur _ => fl_upd_length O nt (row i) cur)
                       (seq 0 (prod l1)) (repeat (f0 O) (prod lt * nt)))
      as (out & Hit & Hlo & Hblk).
    { apply repeat_length. }
    { intros i _. apply Hphi. }
    exists out. split; [|split; [exact Hlo|]].
    - rewrite sliced_op_unfold. cbv zeta. rewrite Ed, E1, firstn_app_len, E3.
      cbn [forallb]. rewrite sliced_valid_sub_lead
        by (rewrite (lead_dims_snoc fl l1 n1 Ed), E1, firstn_app_len; apply sub_lead_refl).
      cbn [andb guard obind].
      rewrite (sliced_loop_from_zero _ _ _ _ _ _ _ Hpl1 _ _ eq_refl).
      rewrite (iterM_ext _ _ _ _ Hstep).
      rewrite prod_app. cbn [prod fold_right]. rewrite Nat.mul_1_r, Hit. cbn [Nat.eqb obind].
      apply mk_some. split; [|split; [|reflexivity]].
      + apply Forall_app. split; [exact Hplt|]. constructor; [exact Hnt|constructor].
      + rewrite prod_app. cbn [prod fold_right]. lia.
    - intros b x Hb Hx. rewrite <- nth_block by exact Hx. rewrite (Hblk b Hb).
      unfold upd. rewrite (fold_upd_nth nt phi row b x);
        [|apply (block_length nt b (prod lt)); [apply repeat_length|exact Hb]|exact Hx].
      rewrite (block_repeat nt b (prod lt) (f0 O) Hb), nth_repeat_same. reflexivity.
  Qed.
End FlattenPhase2.

Lemma mod_mul_mod : forall n d P, 1 <= d -> 1 <= P -> (n mod (d * P)) mod d = n mod d.
Proof.
  intros n d P Hd HP. rewrite Nat.mod_mul_r by lia.
  rewrite (Nat.mul_comm d), Nat.mod_add by lia. apply Nat.mod_mod. lia.
Qed.

Lemma mod_mul_div : forall n d P, 1 <= d -> 1 <= P -> (n mod (d * P)) / d = (n / d) mod P.
Proof.
  intros n d P Hd HP. rewrite Nat.mod_mul_r by lia.
  rewrite (Nat.mul_comm d), Nat.div_add by lia.
  rewrite Nat.div_small by (apply Nat.mod_upper_bound; lia). reflexivity.
Qed.

Lemma unrank_app : forall d1 d2 n,
    Forall (fun x => 1 <= x) d2 ->
    unrank (d1 ++ d2) n = unrank d1 (n / prod d2) ++ unrank d2 (n mod prod d2).
Proof.
  intros d1 d2. induction d2 as [|l d2 IH] using rev_ind; intros n H.
  - cbn [prod fold_right]. rewrite !app_nil_r, Nat.div_1_r. reflexivity.
  - apply Forall_app in H. destruct H as [Hd Hl]. apply Forall_inv in Hl.
    pose proof (prod_pos d2 Hd) as HP.
    rewrite app_assoc, !unrank_snoc, IH, prod_app, prod_single by exact Hd.
    rewrite (Nat.mul_comm (prod d2) l), mod_mul_mod, mod_mul_div, Nat.div_div by lia.
    rewrite <- app_assoc. reflexivity.
Qed.

Lemma lastn_app_drop : forall {A} n (l1 l2 : list A),
    n <= length l2 -> lastn n (l1 ++ l2) = lastn n l2.
Proof.
  intros A n l1 l2 H. unfold lastn. rewrite app_length, skipn_app.
  rewrite skipn_all2 by lia. cbn [app]. f_equal. lia.
Qed.

Lemma bclamp_app_drop : forall t Q I1,
    length t <= length I1 -> bclamp t (Q ++ I1) = bclamp t I1.
Proof. intros t Q I1 H. rewrite !bclamp_eq, lastn_app_drop by exact H. reflexivity. Qed.

Lemma bpos_app : forall dq d1 t j,
    Forall (fun x => 1 <= x) d1 -> length t <= length d1 ->
    bpos (dq ++ d1) t j = bpos d1 t (j mod prod d1).
Proof.
  intros dq d1 t j H Hl. unfold bpos. rewrite unrank_app by exact H.
  rewrite bclamp_app_drop by (rewrite unrank_length; exact Hl). reflexivity.
Qed.

Lemma bpos_id : forall d j, Forall (fun x => 1 <= x) d -> j < prod d -> bpos d d j = j.
Proof. intros d j. exact (bidx_id d j). Qed.

Lemma bpos_lt : forall d t j,
    Forall (fun x => 1 <= x) d -> Forall (fun x => 1 <= x) t -> sub_lead t d ->
    bpos d t j < prod t.
Proof. intros d t j. exact (bidx_lt t d j). Qed.

Lemma bpos_snoc : forall l1 n1 lt nt i y,
    length lt <= length l1 -> 1 <= n1 -> y < n1 ->
    bpos (l1 ++ [n1]) (lt ++ [nt]) (n1 * i + y)
    = rowmajor lt (bclamp lt (unrank l1 i)) * nt + cl (y, nt).
Proof.
  intros l1 n1 lt nt i y Hl Hn Hy. unfold bpos.
  rewrite unrank_snoc.
  replace ((n1 * i + y) / n1) with i
    by (rewrite Nat.mul_comm, Nat.div_add_l, Nat.div_small by lia; lia).
  replace ((n1 * i + y) mod n1) with y
    by (rewrite Nat.add_comm, Nat.mul_comm, Nat.mod_add, Nat.mod_small by lia; reflexivity).
  rewrite bclamp_snoc by (rewrite unrank_length; exact Hl).
  rewrite rowmajor_snoc by (rewrite bclamp_length; [reflexivity|rewrite unrank_length; exact Hl]).
  reflexivity.
Qed.

Lemma strided_cond : forall x j g,
    1 <= g -> x < g -> ((x <=? j) && ((j - x) mod g =? 0)) = (j mod g =? x).
Proof.
  intros x j g Hg Hx. apply eq_true_iff_eq.
  rewrite andb_true_iff, Nat.leb_le, !Nat.eqb_eq. split.
  - intros [Hle Hm]. apply Nat.mod_divides in Hm; [|lia]. destruct Hm as (c & Hc).
    replace j with (x + c * g) by lia. rewrite Nat.mod_add by lia. apply Nat.mod_small. exact Hx.
  - intros Hm. pose proof (Nat.div_mod j g ltac:(lia)) as Hdm. rewrite Hm in Hdm.
    set (q := j / g) in *. clearbody q.
    split; [nia|]. replace (j - x) with (q * g) by nia. apply Nat.mod_mul. lia.
Qed.

Lemma eqb_mul_add : forall p b nt c x,
    c < nt -> x < nt -> (p * nt + c =? nt * b + x) = ((p =? b) && (c =? x)).
Proof.
  intros p b nt c x Hc Hx. apply eq_true_iff_eq.
  rewrite andb_true_iff, !Nat.eqb_eq. split; [intros H|intros [-> ->]; lia].
  assert (p = b) by nia. subst p. split; [reflexivity|nia].
Qed.

Section FlattenValues.
  Context {F : Type} (O : ScalarOps F) (R : is_cring O).

  (** flat form of the specification: position [o] of the result is the sum of the source
      positions that broadcasting reads from [o] *)
  Definition flat_sum (d t : list nat) (v : list F) (o : nat) : F :=
    vsum O (map (fun j => if bpos d t j =? o then nth j v (f0 O) else f0 O) (seq 0 (prod d))).

  Lemma strided_sum : forall x g (s : list F),
      1 <= g -> x < g ->
      vsum O (strided O x g s)
      = vsum O (map (fun j => if j mod g =? x then nth j s (f0 O) else f0 O) (seq 0 (length s))).
  Proof.
    intros x g s Hg Hx. unfold strided. rewrite (vsum_filter_ind O R).
    f_equal. apply map_ext. intros j. rewrite strided_cond by assumption. reflexivity.
  Qed.

  Lemma flat_sum_id : forall d (v : list F) o,
      Forall (fun x => 1 <= x) d -> o < prod d -> flat_sum d d v o = nth o v (f0 O).
  Proof.
    intros d v o Hd Ho. unfold flat_sum.
    rewrite <- (vsum_delta_seq O R (fun j => nth j v (f0 O)) o (prod d) Ho).
    f_equal. apply map_ext_in. intros j Hj. apply in_seq in Hj.
    rewrite bpos_id by (try assumption; lia). rewrite Nat.eqb_sym. reflexivity.
  Qed.

  Lemma flatten_tail_flat : forall (fl : arr F) t,
      wf fl -> length t = length (dims fl) -> t <> [] ->
      Forall (fun x => 1 <= x) t -> sub_lead t (dims fl) ->
      exists r, flatten_tail O fl t = Some r /\ wf r /\ dims r = t /\
        forall o, o < prod t -> nth o (vals r) (f0 O) = flat_sum (dims fl) t (vals fl) o.
  Proof.
    intros fl t Hw Hlen Hne Hpt Hsub. unfold flatten_tail.
    destruct (dims_eqb (dims fl) t) eqn:E.
    - apply dims_eqb_spec in E. exists fl. split; [reflexivity|]. split; [exact Hw|].
      split; [exact E|]. intros o Ho. rewrite E. symmetry. apply flat_sum_id; assumption.
    - clear E.
      destruct (exists_last Hne) as (lt & nt & Et).
      assert (Hned : dims fl <> []) by (intros E0; rewrite E0 in Hlen; destruct t; [congruence|discriminate]).
      destruct (exists_last Hned) as (l1 & n1 & Ed).
      assert (Hl : length lt = length l1).
      { rewrite Et, Ed, !app_length in Hlen. cbn [length] in Hlen. lia. }
      destruct Hsub as [_ Hf]. rewrite Hlen, lastn_all, Et, Ed in Hf.
      apply Forall2_snoc_inv in Hf. destruct Hf as [Hf Hnt].
      assert (Hsl : sub_lead lt l1).
      { split; [lia|]. rewrite Hl, lastn_all. exact Hf. }
      rewrite Et in Hpt. apply Forall_app in Hpt. destruct Hpt as [Hplt Hpnt].
      inversion Hpnt as [|? ? Hnt1 _]; subst.
      destruct (wf_snoc fl l1 n1 Hw Ed) as (Hpl1 & Hn1 & Hvl).
      destruct (flatten_phase2 O fl l1 n1 lt nt Hw Ed Hl Hsl Hplt Hnt1) as (out & Hop & Hlo & Hval).
      cbv zeta in Hval.
      exists {| dims := lt ++ [nt]; vals := out |}. split; [exact Hop|].
      assert (Hprod : prod (lt ++ [nt]) = prod lt * nt)
        by (rewrite prod_app; cbn [prod fold_right]; lia).
      split; [|split; [reflexivity|]].
      { split; cbn [dims vals].
        - apply Forall_app. split; [exact Hplt|]. constructor; [exact Hnt1|constructor].
        - rewrite Hprod. symmetry. exact Hlo. }
      intros o Ho. rewrite Hprod in Ho. cbn [vals].
      set (b := o / nt). set (x := o mod nt).
      assert (Hb : b < prod lt) by (apply Nat.div_lt_upper_bound; lia).
      assert (Hx : x < nt) by (apply Nat.mod_upper_bound; lia).
      assert (Eo : o = nt * b + x) by (apply Nat.div_mod; lia).
      rewrite Eo at 1. rewrite (Hval b x Hb Hx).
      rewrite (fold_acc_ind O R), (cr_add_0_l O R).
      unfold flat_sum. rewrite Ed.
      replace (prod (l1 ++ [n1])) with (prod l1 * n1)
        by (rewrite prod_app; cbn [prod fold_right]; lia).
      rewrite (vsum_seq_mul O R). f_equal. apply map_ext_in. intros i Hi.
      rewrite (strided_sum _ _ _ Hnt1 Hx).
      assert (Hrow : length (block n1 i (vals fl)) = n1).
      { apply in_seq in Hi. apply (block_length n1 i (prod l1)); [exact Hvl|lia]. }
      rewrite Hrow. rewrite (vsum_ind_in O R). f_equal. apply map_ext_in. intros y Hy.
      apply in_seq in Hy.
      rewrite bpos_snoc by lia.
      rewrite <- (mod_cl y nt n1 Hnt1 Hnt ltac:(lia)).
      rewrite Eo, eqb_mul_add by (try exact Hx; apply Nat.mod_upper_bound; lia).
      rewrite nth_block by lia.
      destruct (rowmajor lt (bclamp lt (unrank l1 i)) =? b), (y mod nt =? x); reflexivity.
  Qed.

  Theorem flatten_to_flat : forall (a : arr F) t,
      wf a -> t <> [] -> Forall (fun x => 1 <= x) t -> sub_target t (dims a) ->
      exists r, flatten_to O a t = Some r /\ wf r /\ dims r = t /\
        forall o, o < prod t -> nth o (vals r) (f0 O) = flat_sum (dims a) t (vals a) o.
  Proof.
    intros a t Hwa Hne Hpt Hsub. pose proof Hwa as [Hpa Hla].
    rewrite flatten_to_unfold. unfold flatten_head. cbv zeta.
    destruct Hsub as [Hlen Hf].
    destruct (length (dims a) - length t =? 0) eqn:E.
    - apply Nat.eqb_eq in E. cbn [obind].
      apply flatten_tail_flat; try assumption; [lia|]. split; assumption.
    - apply Nat.eqb_neq in E.
      set (fdc := length (dims a) - length t) in *.
      rewrite (flatten_phase1 O a fdc Hwa). cbn [obind].
      set (d1 := skipn fdc (dims a)). set (P := prod d1).
      set (out1 := map (fun x => fadd O (f0 O) (vsum O (strided O x P (vals a)))) (seq 0 P)).
      set (fl := {| dims := d1; vals := out1 |}).
      assert (Hpd1 : Forall (fun x => 1 <= x) d1) by (apply Forall_skipn; exact Hpa).
      assert (HP : 1 <= P) by (apply prod_pos; exact Hpd1).
      assert (Hwfl : wf fl).
      { split; [exact Hpd1|]. unfold fl, out1. cbn [dims vals].
        rewrite map_length, seq_length. reflexivity. }
      assert (Hl1 : length d1 = length t) by (unfold d1; rewrite skipn_length; lia).
      assert (Hsub1 : sub_lead t (dims fl)).
      { cbn [dims fl]. split; [lia|]. rewrite <- Hl1, lastn_all. exact Hf. }
      destruct (flatten_tail_flat fl t Hwfl (eq_sym Hl1) Hne Hpt Hsub1)
        as (r & Hr & Hwr & Hdr & Hval).
      exists r. split; [exact Hr|]. split; [exact Hwr|]. split; [exact Hdr|].
      intros o Ho. rewrite (Hval o Ho). cbn [dims vals fl].
      unfold flat_sum. fold P.
      assert (Ed : dims a = firstn fdc (dims a) ++ d1) by (symmetry; apply firstn_skipn).
      transitivity (vsum O (map (fun j => if bpos d1 t (j mod P) =? o
                                         then nth j (vals a) (f0 O) else f0 O)
                                (seq 0 (prod (dims a))))).
      2:{ f_equal. apply map_ext. intros j. rewrite Ed, bpos_app by (try exact Hpd1; lia).
          reflexivity. }
      rewrite (vsum_fiber O R (fun j => j mod P) (fun o' => bpos d1 t o' =? o) _ P)
        by (intros j _; apply Nat.mod_upper_bound; lia).
      f_equal. apply map_ext_in. intros o' Ho'. apply in_seq in Ho'.
      destruct (bpos d1 t o' =? o); [|reflexivity].
      unfold out1. rewrite nth_map_seq by lia. cbn [Nat.add].
      rewrite (cr_add_0_l O R), strided_sum by lia. rewrite Hla. reflexivity.
  Qed.

  (** ** the main theorem (C03): [flatten_to] is the transpose of broadcasting *)
  Theorem flatten_to_spec : forall (a : arr F) t,
      wf a -> dims a <> [] -> t <> [] -> Forall (fun x => 1 <= x) t ->
      sub_target t (dims a) ->
      exists r, flatten_to O a t = Some r /\ wf r /\ dims r = t /\
        forall J, in_range J t ->
          get r J
          = Some (vsum O (map (fun I => nth (rowmajor (dims a) I) (vals a) (f0 O))
                              (filter (fun I => list_eqb (bclamp t I) J)
                                      (all_indices (dims a))))).
  Proof.
    intros a t Hwa _ Hne Hpt Hsub. pose proof Hwa as [Hpa Hla].
    destruct (flatten_to_flat a t Hwa Hne Hpt Hsub) as (r & Hr & Hwr & Hdr & Hval).
    exists r. split; [exact Hr|]. split; [exact Hwr|]. split; [exact Hdr|].
    intros J HJ. pose proof Hwr as [_ Hlr]. rewrite Hdr in Hlr.
    pose proof (rowmajor_lt_prod t J HJ) as Ho.
    unfold get. rewrite Hdr.
    rewrite (nth_error_nth' (vals r) (f0 O)) by lia. f_equal.
    rewrite (Hval _ Ho). unfold flat_sum, all_indices.
    rewrite filter_map_swap, map_map, (vsum_filter_ind O R).
    f_equal. apply map_ext_in. intros j Hj. apply in_seq in Hj.
    rewrite rowmajor_unrank by (try exact Hpa; lia).
    replace (list_eqb (bclamp t (unrank (dims a) j)) J) with (bpos (dims a) t j =? rowmajor t J);
      [reflexivity|].
    apply eq_true_iff_eq. rewrite Nat.eqb_eq, list_eqb_spec. unfold bpos.
    assert (Hin : in_range (bclamp t (unrank (dims a) j)) t).
    { apply (bclamp_in_range t (dims a)); [exact Hpt|exact Hsub|].
      apply unrank_lt. exact Hpa. }
    split; [|intros ->; reflexivity].
    intros Heq. rewrite <- (unrank_rowmajor t _ Hin), <- (unrank_rowmajor t J HJ), Heq.
    reflexivity.
  Qed.

  (** ** (B2) the pairing form: [flatten_to] is the adjoint of broadcasting *)

  Definition dot (x y : list F) : F :=
    vsum O (map (fun p => fmul O (fst p) (snd p)) (combine x y)).

  Definition bcast_to (u : arr F) (d : list nat) : arr F :=
    {| dims := d;
       vals := map (fun I => nth (rowmajor (dims u) (bclamp (dims u) I)) (vals u) (f0 O))
                   (all_indices d) |}.

  Lemma dot_seq : forall (x y : list F) n,
      length x = n -> length y = n ->
      dot x y = vsum O (map (fun k => fmul O (nth k x (f0 O)) (nth k y (f0 O))) (seq 0 n)).
  Proof.
    intros x y n Hx Hy. subst n. unfold dot.
    replace (combine x y)
      with (map (fun k => (nth k x (f0 O), nth k y (f0 O))) (seq 0 (length x))).
    - rewrite map_map. reflexivity.
    - rewrite <- combine_map_map. f_equal.
      + symmetry. apply list_as_map_seq.
      + rewrite <- Hy. symmetry. apply list_as_map_seq.
  Qed.

  Lemma bcast_to_wf : forall (u : arr F) d, Forall (fun x => 1 <= x) d -> wf (bcast_to u d).
  Proof.
    intros u d Hd. split; [exact Hd|]. cbn [bcast_to dims vals].
    rewrite map_length, all_indices_length. reflexivity.
  Qed.

  Lemma bcast_to_nth : forall (u : arr F) d j,
      j < prod d -> nth j (vals (bcast_to u d)) (f0 O) = nth (bpos d (dims u) j) (vals u) (f0 O).
  Proof.
    intros u d j Hj. cbn [bcast_to vals]. unfold all_indices. rewrite map_map.
    rewrite nth_map_seq by exact Hj. reflexivity.
  Qed.

  Lemma bcast_to_get : forall (u : arr F) d I,
      Forall (fun x => 1 <= x) d -> in_range I d ->
      get (bcast_to u d) I = Some (nth (rowmajor (dims u) (bclamp (dims u) I)) (vals u) (f0 O)).
  Proof.
    intros u d I Hd HI. unfold get. cbn [bcast_to dims vals].
    pose proof (rowmajor_lt_prod d I HI) as Hlt.
    rewrite nth_error_map, nth_error_all_indices by exact Hlt. cbn [option_map].
    rewrite unrank_rowmajor by exact HI. reflexivity.
  Qed.

  Theorem flatten_to_adjoint : forall (a r u : arr F) t,
      wf a -> dims a <> [] -> t <> [] -> Forall (fun x => 1 <= x) t ->
      sub_target t (dims a) -> flatten_to O a t = Some r ->
      wf u -> dims u = t ->
      dot (vals r) (vals u) = dot (vals a) (vals (bcast_to u (dims a))).
  Proof.
    intros a r u t Hwa _ Hne Hpt Hsub Hr Hwu Hdu. pose proof Hwa as [Hpa Hla].
    destruct (flatten_to_flat a t Hwa Hne Hpt Hsub) as (r' & Hr' & Hwr & Hdr & Hval).
    rewrite Hr in Hr'. inversion Hr'; subst r'. clear Hr'.
    destruct Hwr as [_ Hlr]. destruct Hwu as [_ Hlu]. rewrite Hdr in Hlr. rewrite Hdu in Hlu.
    rewrite (dot_seq (vals r) (vals u) (prod t)) by (symmetry; assumption).
    rewrite (dot_seq (vals a) (vals (bcast_to u (dims a))) (prod (dims a)));
      [|symmetry; exact Hla|cbn [bcast_to vals]; rewrite map_length; apply all_indices_length].
    transitivity (vsum O (map (fun j => if (fun _ : nat => true) (bpos (dims a) t j)
                                       then fmul O (nth j (vals a) (f0 O))
                                                 (nth (bpos (dims a) t j) (vals u) (f0 O))
                                       else f0 O) (seq 0 (prod (dims a))))).
    2:{ f_equal. apply map_ext_in. intros j Hj. apply in_seq in Hj.
        rewrite bcast_to_nth by lia. rewrite Hdu. reflexivity. }
    rewrite (vsum_fiber O R (bpos (dims a) t) (fun _ => true)
                        (fun j => fmul O (nth j (vals a) (f0 O))
                                       (nth (bpos (dims a) t j) (vals u) (f0 O)))
                        (prod t) (seq 0 (prod (dims a))))
      by (intros j _; apply bpos_lt; assumption).
    cbv beta. f_equal. apply map_ext_in. intros o Ho. apply in_seq in Ho.
    rewrite (Hval o) by lia. unfold flat_sum.
    rewrite <- (vsum_map_scale_r O R). f_equal. apply map_ext. intros j.
    destruct (bpos (dims a) t j =? o) eqn:E.
    - apply Nat.eqb_eq in E. rewrite E. reflexivity.
    - apply (cr_mul_0_l O R).
  Qed.

  Lemma arr_ext : forall (x y : arr F),
      dims x = dims y -> length (vals x) = length (vals y) ->
      (forall k, k < length (vals x) -> nth k (vals x) (f0 O) = nth k (vals y) (f0 O)) ->
      x = y.
  Proof.
    intros [dx vx] [dy vy] Hd Hl Hn. cbn [dims vals] in *. subst dy. f_equal.
    rewrite (list_as_map_seq vx (f0 O)), (list_as_map_seq vy (f0 O)), <- Hl.
    apply map_ext_in. intros k Hk. apply in_seq in Hk. apply Hn. lia.
  Qed.

  Lemma a_add_same_dims : forall (a b : arr F),
      wf a -> wf b -> dims a = dims b -> dims a <> [] ->
      exists c, a_add O a b = Some c /\ wf c /\ dims c = dims a /\
        forall j, j < prod (dims a) ->
          nth j (vals c) (f0 O) = fadd O (nth j (vals a) (f0 O)) (nth j (vals b) (f0 O)).
  Proof.
    intros a b Hwa Hwb Hd Hne. pose proof Hwa as [Hpa Hla]. pose proof Hwb as [_ Hlb].
    destruct (a_add_spec O a b Hwa Hwb Hne) as (c & Hc & Hwc & Hdc & Hval).
    { rewrite <- Hd. exact Hne. }
    { rewrite <- Hd. apply bcompat_refl. }
    rewrite <- Hd, bmax_idem in Hdc.
    exists c. split; [exact Hc|]. split; [exact Hwc|]. split; [exact Hdc|].
    intros j Hj. pose proof Hwc as [_ Hlc]. rewrite Hdc in Hlc.
    assert (HI : in_range (unrank (dims a) j) (dims a)) by (apply unrank_lt; exact Hpa).
    destruct (Hval (unrank (dims a) j)) as (x & y & Hx & Hy & Hz); [rewrite Hdc; exact HI|].
    rewrite <- Hd in Hy. rewrite (bclamp_id _ _ HI) in Hx, Hy.
    unfold get in Hx, Hy, Hz. rewrite <- Hd in Hy. rewrite Hdc in Hz.
    rewrite rowmajor_unrank in Hx, Hy, Hz by assumption.
    rewrite !nth_nth_error, Hx, Hy, Hz. reflexivity.
  Qed.

  Theorem flatten_to_add : forall (a b : arr F) t,
      wf a -> wf b -> dims a = dims b -> dims a <> [] -> t <> [] ->
      Forall (fun x => 1 <= x) t -> sub_target t (dims a) ->
      exists c ra rb rc,
        a_add O a b = Some c /\ flatten_to O a t = Some ra /\ flatten_to O b t = Some rb /\
        flatten_to O c t = Some rc /\ a_add O ra rb = Some rc.
  Proof.
    intros a b t Hwa Hwb Hd Hne Hnt Hpt Hsub.
    destruct (a_add_same_dims a b Hwa Hwb Hd Hne) as (c & Hc & Hwc & Hdc & Hcv).
    destruct (flatten_to_flat a t Hwa Hnt Hpt Hsub) as (ra & Hra & Hwra & Hdra & Hva).
    destruct (flatten_to_flat b t Hwb Hnt Hpt) as (rb & Hrb & Hwrb & Hdrb & Hvb);
      [rewrite <- Hd; exact Hsub|].
    destruct (flatten_to_flat c t Hwc Hnt Hpt) as (rc & Hrc & Hwrc & Hdrc & Hvc);
      [rewrite Hdc; exact Hsub|].
    destruct (a_add_same_dims ra rb Hwra Hwrb) as (rs & Hrs & Hwrs & Hdrs & Hvs);
      [congruence|rewrite Hdra; exact Hnt|].
    exists c, ra, rb, rc. repeat (split; [assumption|]).
    rewrite Hrs. f_equal. rewrite Hdra in Hdrs, Hvs.
    destruct Hwrs as [_ Hlrs]. destruct Hwrc as [_ Hlrc]. rewrite Hdrs in Hlrs. rewrite Hdrc in Hlrc.
    apply arr_ext; [congruence|congruence|].
    intros o Ho. rewrite <- Hlrs in Ho.
    rewrite (Hvs o Ho), (Hvc o Ho), (Hva o Ho), (Hvb o Ho).
    unfold flat_sum. rewrite Hdc, <- Hd. rewrite <- (vsum_map_add O R).
    f_equal. apply map_ext_in. intros j Hj. apply in_seq in Hj.
    destruct (bpos (dims a) t j =? o).
    - symmetry. apply Hcv. lia.
    - rewrite (cr_add_0_l O R). reflexivity.
  Qed.
End FlattenValues.

Print Assumptions flatten_to_spec.
Print Assumptions flatten_to_adjoint.
Print Assumptions flatten_to_shape.
Print Assumptions flatten_to_same.
Print Assumptions flatten_to_add.
