(** Facts about constructors, row-major layout, indexing and equality (C16). *)

From Coq Require Import List Arith Bool Lia.
From Corgi Require Import Lib.OptionMonad Lib.ListFacts Model.Scalar Model.Arr.
Import ListNotations.

(** [rowmajor d I] = sum_j I_j * prod_{l>j} d_l *)
Fixpoint rowmajor (d idx : list nat) : nat :=
  match d, idx with
  | _ :: ds, i :: is_ => i * prod ds + rowmajor ds is_
  | _, _ => 0
  end.

(** [I] is a full multi-index of an array of dimensions [d] *)
Definition in_range (idx d : list nat) : Prop := Forall2 lt idx d.

Lemma rowmajor_single : forall l x, rowmajor [l] [x] = x.
Proof. intros l x. cbn. lia. Qed.

Lemma rowmajor_lt_prod : forall d idx, in_range idx d -> rowmajor d idx < prod d.
Proof.
  intros d idx H. unfold in_range in H.
  induction H as [|i d0 is_ ds Hlt H IH]; [simpl; lia|].
  cbn [rowmajor]. change (prod (d0 :: ds)) with (d0 * prod ds). nia.
Qed.

Lemma guard_some_iff : forall b : bool, guard b = Some tt <-> b = true.
Proof. destruct b; simpl; split; congruence. Qed.

Lemma dims_valid_spec : forall d, dims_valid d = true <-> Forall (fun x => 1 <= x) d.
Proof.
  intros d. unfold dims_valid. rewrite forallb_forall, Forall_forall.
  split; intros H x Hx; specialize (H x Hx).
  - apply Nat.leb_le in H. exact H.
  - apply Nat.leb_le. exact H.
Qed.

Section ArrFacts.
  Context {F : Type}.

  Theorem mk_some : forall (d : list nat) (v : list F) a,
      mk d v = Some a <->
      (Forall (fun x => 1 <= x) d /\ prod d = length v /\ a = {| dims := d; vals := v |}).
  Proof.
    intros d v a. unfold mk.
    destruct (dims_valid d) eqn:Hd; simpl.
    - destruct (prod d =? length v) eqn:Hp; simpl.
      + apply Nat.eqb_eq in Hp. apply dims_valid_spec in Hd.
        split.
        * intros H. inversion H. auto.
        * intros (_ & _ & ->). reflexivity.
      + apply Nat.eqb_neq in Hp. split; [discriminate|]. intros (_ & H & _). contradiction.
    - split; [discriminate|]. intros (H & _). apply dims_valid_spec in H. congruence.
  Qed.

  Corollary mk_none : forall (d : list nat) (v : list F),
      mk d v = None <-> ~ (Forall (fun x => 1 <= x) d /\ prod d = length v).
  Proof.
    intros d v. destruct (mk d v) as [a|] eqn:E.
    - apply mk_some in E. destruct E as (H1 & H2 & _). split; [discriminate|]. intros H. exfalso; auto.
    - split; [|reflexivity]. intros _ (H1 & H2).
      assert (mk d v = Some {| dims := d; vals := v |}) by (apply mk_some; auto).
      congruence.
  Qed.

  Theorem from_flat_spec : forall (v : list F) a,
      from_flat v = Some a <-> (v <> [] /\ a = {| dims := [length v]; vals := v |}).
  Proof.
    intros v a. unfold from_flat. rewrite mk_some. simpl.
    split.
    - intros (H1 & H2 & H3). split; [|exact H3]. inversion H1; subst.
      destruct v; simpl in *; [lia|discriminate].
    - intros (H1 & H2). split; [|split; [lia|exact H2]].
      constructor; [|constructor]. destruct v; simpl; [congruence|lia].
  Qed.

  Lemma dims_eqb_spec : forall a b : list nat, dims_eqb a b = true <-> a = b.
  Proof.
    unfold dims_eqb. induction a as [|x a IH]; intros [|y b]; simpl; split; intros H;
      try reflexivity; try discriminate.
    - apply andb_true_iff in H. destruct H as [H1 H2].
      apply andb_true_iff in H2. destruct H2 as [H2 H3].
      apply Nat.eqb_eq in H2. subst y. f_equal. apply IH.
      apply andb_true_iff. split; [exact H1|exact H3].
    - inversion H; subst. apply andb_true_iff. split.
      + simpl. apply Nat.eqb_refl.
      + simpl. rewrite Nat.eqb_refl. simpl.
        assert (E : dims_eqb b b = true) by (apply IH; reflexivity).
        unfold dims_eqb in E. apply andb_true_iff in E. apply E.
  Qed.

  Lemma length_concat_same : forall (l : list (arr F)) n,
      Forall (fun a => length (vals a) = n) l ->
      length (concat (map vals l)) = length l * n.
  Proof.
    induction l as [|a l IH]; intros n H; simpl; [reflexivity|].
    inversion H; subst. rewrite app_length, (IH _ H3). lia.
  Qed.

  Definition wf (a : arr F) : Prop :=
    Forall (fun x => 1 <= x) (dims a) /\ prod (dims a) = length (vals a).

  Lemma wf_same_length : forall x y : arr F, wf x -> wf y -> dims x = dims y ->
                                             length (vals x) = length (vals y).
  Proof. intros x y [_ Hx] [_ Hy] Hd. rewrite <- Hx, <- Hy, Hd. reflexivity. Qed.

  (** [Array::from(vec![a1; ...; ak])] of well-formed arrays succeeds exactly when the
      list is non-empty and all dimensions agree; the result stacks the arrays. *)
  Theorem from_arrays_spec : forall (l : list (arr F)) r,
      Forall wf l ->
      (from_arrays l = Some r <->
       exists first rest, l = first :: rest /\
                          Forall (fun a => dims a = dims first) rest /\
                          r = {| dims := length l :: dims first; vals := concat (map vals l) |}).
  Proof.
    intros l r Hwf. destruct l as [|first rest].
    - simpl. split; [discriminate|]. intros (f & rs & H & _). discriminate.
    - assert (Hall : forallb (fun a => dims_eqb (dims a) (dims first)) rest = true
                     <-> Forall (fun a => dims a = dims first) rest).
      { rewrite forallb_forall, Forall_forall.
        split; intros H a Ha; apply dims_eqb_spec, H, Ha. }
      unfold from_arrays. rewrite obind_some. split.
      + intros ([] & Hg & Hmk). apply guard_some_iff, Hall in Hg.
        apply mk_some in Hmk. destruct Hmk as (_ & _ & ->). exists first, rest. auto.
      + intros (f & rs & E & Hs & ->). inversion E; subst f rs.
        exists tt. split; [apply guard_some_iff, Hall; exact Hs|].
        pose proof (Forall_inv Hwf) as Hf. apply mk_some. split; [|split; [|reflexivity]].
        * constructor; [simpl; lia|apply Hf].
        * transitivity (length (first :: rest) * prod (dims first)); [reflexivity|].
          symmetry. apply length_concat_same. constructor; [symmetry; apply Hf|].
          rewrite Forall_forall in Hs. apply Forall_forall. intros a Ha.
          rewrite <- (Hs a Ha). symmetry. apply (proj1 (Forall_forall _ _) (Forall_inv_tail Hwf) a Ha).
  Qed.

  Lemma horner_rowmajor : forall (ds rest : list nat) acc,
      Forall2 lt rest ds ->
      fold_left (fun acc (p : nat * nat) => if snd p =? 1 then acc else acc * snd p + fst p)
                (combine rest ds) acc
      = acc * prod ds + rowmajor ds rest.
  Proof.
    intros ds rest acc H. revert acc. induction H as [|i d is_ ds' Hlt H IH]; intros acc; simpl.
    - lia.
    - destruct (d =? 1) eqn:E.
      + apply Nat.eqb_eq in E. subst d. assert (i = 0) by lia. subst i.
        rewrite IH. lia.
      + rewrite IH. lia.
  Qed.

  Theorem flatten_indices_rowmajor : forall idx d,
      d <> [] -> in_range idx d ->
      flatten_indices idx d = Some (rowmajor d idx).
  Proof.
    intros idx d Hne H. unfold in_range in H.
    assert (Hlen : length idx = length d) by (eapply Forall2_len; eauto).
    unfold flatten_indices. rewrite Hlen, Nat.leb_refl, Nat.sub_diag. simpl.
    destruct H as [|i d0 is_ ds Hlt H]; [congruence|].
    simpl. rewrite horner_rowmajor by assumption. reflexivity.
  Qed.

  (** [a[vec![i1; ...; ir]]] is the row-major element *)
  Theorem index_multi_spec : forall (a : arr F) idx,
      wf a -> dims a <> [] -> in_range idx (dims a) ->
      exists x, index_multi a idx = Some x /\ nth_error (vals a) (rowmajor (dims a) idx) = Some x.
  Proof.
    intros a idx [_ Hp] Hne H. unfold index_multi.
    rewrite flatten_indices_rowmajor by assumption. simpl.
    pose proof (rowmajor_lt_prod _ _ H) as Hlt. rewrite Hp in Hlt.
    destruct (nth_error (vals a) (rowmajor (dims a) idx)) eqn:E.
    - eauto.
    - apply nth_error_None in E. lia.
  Qed.

  (** [a[i]] is the i-th value, and panics exactly when [i] is out of range *)
  Theorem index_flat_spec : forall (a : arr F) i,
      (i < length (vals a) -> index_flat a i = nth_error (vals a) i /\ index_flat a i <> None)
      /\ (length (vals a) <= i -> index_flat a i = None).
  Proof.
    intros a i. unfold index_flat. split; intros H.
    - assert (E : (i <? length (vals a)) = true) by (apply Nat.ltb_lt; exact H).
      rewrite E. simpl. split; [reflexivity|]. apply nth_error_Some. exact H.
    - assert (E : (i <? length (vals a)) = false) by (apply Nat.ltb_ge; exact H).
      rewrite E. reflexivity.
  Qed.
End ArrFacts.

Lemma map_wf : forall {F G} (g : F -> G) (a : arr F),
    wf a -> wf {| dims := dims a; vals := map g (vals a) |}.
Proof. intros F G g a [Hp Hl]. split; cbn [dims vals]; [exact Hp|]. rewrite map_length. exact Hl. Qed.

Section Eq.
  Context {F : Type} (O : ScalarOps F).
  Hypothesis feqb_eq : forall x y, feqb O x y = true <-> x = y.

  Theorem zeros_spec : forall d a,
      zeros O d = Some a <->
      (Forall (fun x => 1 <= x) d /\ a = {| dims := d; vals := repeat (f0 O) (prod d) |}).
  Proof.
    intros d a. unfold zeros. rewrite mk_some, repeat_length. tauto.
  Qed.

  Lemma vals_eqb_spec : forall x y, vals_eqb O x y = true <-> x = y.
  Proof.
    induction x as [|a x IH]; intros [|b y]; simpl; split; intros H;
      try reflexivity; try discriminate.
    - apply andb_true_iff in H. destruct H as [H1 H2]. apply feqb_eq in H1. apply IH in H2.
      congruence.
    - inversion H; subst. apply andb_true_iff. split; [apply feqb_eq; reflexivity|].
      apply IH. reflexivity.
  Qed.

  (** [==] is true exactly when dimensions and values are equal; an [arr] is nothing
      but dimensions and values, so tracking, graph and gradient cannot matter. *)
  Theorem arr_eqb_spec : forall a b : arr F,
      arr_eqb O a b = true <-> (dims a = dims b /\ vals a = vals b).
  Proof.
    intros a b. unfold arr_eqb. rewrite andb_true_iff, dims_eqb_spec, vals_eqb_spec. tauto.
  Qed.
End Eq.
