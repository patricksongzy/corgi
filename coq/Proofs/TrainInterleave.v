(** C14, interleaving: what [Model::update] depends on is not changed by anything a program
    may do between [Model::backward] and [Model::update] other than passes, gradient edits
    and updates -- in particular by a (validation) forward pass.

    [harmless i]: the instructions that build leaves, run a forward pass, clone or drop
    handles, or only observe.  Such an instruction keeps the layer parameter handles, the
    nodes they point to (values AND stored gradients), the learning rate, and the invariant
    [armed] that [model_update] needs ([step_harmless], [exec_harmless]).

    Hence the update run after any number of harmless instructions rebinds every parameter
    to exactly the values the update run immediately would have produced
    ([model_update_same_values], [interleaved_update_same_values]): the step is taken along
    the gradients deposited by the LAST BACKWARD, whatever forward passes came after it and
    whatever the model's stored output is by then. *)

From Coq Require Import List Arith Bool Lia PeanoNat.
From Corgi Require Import Lib.OptionMonad Model.Scalar Model.Arr Model.Ops Model.Engine Model.Program
     Proofs.ArrFacts Proofs.EngineBase Proofs.OpsWf Proofs.OptimSpec Proofs.HistoryInv
     Proofs.ProgramFacts Proofs.ConcretePasses Proofs.TrainLoop.
Import ListNotations.

Section TrainInterleave.
  Context {F : Type} (O : ScalarOps F).

  Local Notation state := (@Program.state F).
  Local Notation gnode := (@Program.gnode F).
  Local Notation instr := (@Program.instr F).

  Definition same_params (s s' : state) : Prop :=
    st_layers s' = st_layers s /\ st_lr s' = st_lr s /\
    forall h, In h (model_params s) -> h_node s' h = h_node s h.

  Lemma same_params_reads : forall s s',
      same_params s s' ->
      model_params s' = model_params s /\
      (forall p, In p (model_params s) -> h_arr s' p = h_arr s p /\ grad_of s' p = grad_of s p).
  Proof.
    intros s s' (H1 & _ & H3). split; [apply model_params_layers; exact H1 |].
    intros p Hp. unfold h_arr, grad_of. rewrite (H3 p Hp). split; reflexivity.
  Qed.

  Definition harmless (i : instr) : bool :=
    match i with
    | ILeaf _ _ _ | IZeros _ | IFromFlat _ | IFromArrays _
    | IClone _ | IDrop _
    | IGrad _ | IIndex _ _ | IIndexFlat _ _ | IEq _ _ | IObs _ | ISumAll _ | IParams
    | IForward _ => true
    | _ => false
    end.

  Lemma harmless_appending : forall i, harmless i = true -> appending i = true.
  Proof. intros i H. destruct i; try discriminate H; reflexivity. Qed.

  Theorem step_harmless : forall s0 i s' o,
      armed s0 -> harmless i = true -> step O s0 i = Some (s', o) ->
      armed s' /\ same_params s0 s'.
  Proof.
    intros s0 i s' o Ha Hh H.
    destruct (step_appending O s0 i s' o Ha (harmless_appending i Hh) H) as (Ha' & _ & Hk).
    split; assumption.
  Qed.

  Theorem exec_harmless : forall p s s',
      armed s -> forallb harmless p = true -> exec O s p = Some s' ->
      armed s' /\ same_params s s'.
  Proof.
    intros p s s' Ha Hp H.
    destruct (exec_appending O p s s' Ha) as (Ha' & _ & Hk); [| exact H | split; assumption].
    rewrite forallb_forall in *. intros i Hi. apply harmless_appending. apply (Hp i Hi).
  Qed.

  Definition param_arrays (s : state) : list (option (arr F)) := map (h_arr s) (model_params s).

  Lemma updated_param_arr : forall (s u : state) i h nd2,
      updated_param O s u i h nd2 ->
      exists h3, nth_error (model_params u) i = Some h3 /\
                 h_arr u h3 =
                 Some (match n_grad nd2 with
                       | None => pay_arr (n_pay nd2)
                       | Some g => {| dims := p_dims (n_pay nd2);
                                      vals := map2 (fun x gx => fsub O x (fmul O (st_lr s) gx))
                                                   (p_vals (n_pay nd2)) (vals g) |}
                       end).
  Proof.
    intros s u i h nd2 H. unfold updated_param in H. destruct (n_grad nd2) as [g|].
    - destruct H as (h3 & Hi & _ & _ & _ & Hn & _). exists h3. split; [exact Hi |].
      unfold h_arr. rewrite Hn. reflexivity.
    - destruct H as (Hi & Hn). exists h. split; [exact Hi |]. unfold h_arr. rewrite Hn. reflexivity.
  Qed.

  (** [Model::update] from two states with the same parameters, values, gradients and
      learning rate: both succeed and rebind every parameter to the same array *)
  Theorem model_update_same_values : forall s s',
      armed s -> armed s' -> same_params s s' ->
      exists u u', model_update O s = Some u /\ model_update O s' = Some u' /\
                   ready u /\ ready u' /\ param_arrays u' = param_arrays u.
  Proof.
    intros s s' Ha Ha' (Hl & Hlr & Hk).
    pose proof (model_update_armed O s Ha) as Hu. pose proof (model_update_armed O s' Ha') as Hu'.
    set (u := with_layers _ _) in Hu. set (u' := with_layers _ _) in Hu'.
    exists u, u'. split; [exact Hu |]. split; [exact Hu' |].
    split; [exact (model_update_to_ready O s u Ha Hu) |].
    split; [exact (model_update_to_ready O s' u' Ha' Hu') |].
    destruct (model_update_ready O s u Ha Hu) as (_ & _ & _ & _ & _ & Hlen & _).
    destruct (model_update_ready O s' u' Ha' Hu') as (_ & _ & _ & _ & _ & Hlen' & _).
    pose proof (fun i h nd => model_update_param O s u i h nd Ha Hu) as Hupd.
    pose proof (fun i h nd => model_update_param O s' u' i h nd Ha' Hu') as Hupd'.
    assert (Hpar : model_params s' = model_params s) by (apply model_params_layers; exact Hl).
    unfold param_arrays. apply nth_error_ext. intro i. rewrite !nth_error_map.
    destruct (nth_error (model_params s) i) as [h|] eqn:Hi.
    - pose proof Ha as (_ & Hp & _).
      destruct (Hp h (nth_error_In _ _ Hi)) as (_ & _ & nd & Hn & _).
      assert (Hi' : nth_error (model_params s') i = Some h) by (rewrite Hpar; exact Hi).
      assert (Hn' : h_node s' h = Some nd) by (rewrite (Hk h (nth_error_In _ _ Hi)); exact Hn).
      destruct (updated_param_arr s u i h nd (Hupd i h nd Hi Hn)) as (h3 & E3 & A3).
      destruct (updated_param_arr s' u' i h nd (Hupd' i h nd Hi' Hn')) as (h3' & E3' & A3').
      rewrite E3, E3'. cbn [option_map]. rewrite A3, A3', Hlr. reflexivity.
    - assert (Hi' : nth_error (model_params s') i = None) by (rewrite Hpar; exact Hi).
      apply nth_error_None in Hi. apply nth_error_None in Hi'.
      assert (E1 : nth_error (model_params u) i = None) by (apply nth_error_None; lia).
      assert (E2 : nth_error (model_params u') i = None) by (apply nth_error_None; lia).
      rewrite E1, E2. reflexivity.
  Qed.

  (** instruction level: after [IModelBackward] (or in any [armed] state), any harmless
      program -- leaf constructions, forward passes, clones and drops, observations -- may be
      run before [IModelUpdate]; the update then succeeds and produces the parameter arrays
      that the immediate update produces *)
  Theorem interleaved_update_same_values : forall p s s',
      armed s -> forallb harmless p = true -> exec O s p = Some s' ->
      exists u o u' o',
        step O s IModelUpdate = Some (u, o) /\ step O s' IModelUpdate = Some (u', o') /\
        ready u /\ ready u' /\ param_arrays u' = param_arrays u.
  Proof.
    intros p s s' Ha Hp H. destruct (exec_harmless p s s' Ha Hp H) as [Ha' Hs].
    set (t := with_tag s (length (st_pool s))). set (t' := with_tag s' (length (st_pool s'))).
    assert (Hat : armed t) by (apply armed_with_tag; exact Ha).
    assert (Hat' : armed t') by (apply armed_with_tag; exact Ha').
    destruct (model_update_same_values t t' Hat Hat' Hs) as (u & u' & Hu & Hu' & Hr & Hr' & He).
    exists (push u None), o_unit, (push u' None), o_unit.
    split; [unfold step; cbv zeta; fold t; rewrite Hu; reflexivity |].
    split; [unfold step; cbv zeta; fold t'; rewrite Hu'; reflexivity |].
    split; [apply ready_push; [exact Hr | intros h0 Hh0; discriminate Hh0] |].
    split; [apply ready_push; [exact Hr' | intros h0 Hh0; discriminate Hh0] |].
    exact He.
  Qed.

  (** in particular a second forward pass between backward and update *)
  Corollary forward_between_backward_and_update : forall s h s1 o1,
      armed s -> step O s (IForward h) = Some (s1, o1) ->
      armed s1 /\ model_params s1 = model_params s /\
      (forall p, In p (model_params s) -> h_arr s1 p = h_arr s p /\ grad_of s1 p = grad_of s p) /\
      exists u o u' o',
        step O s IModelUpdate = Some (u, o) /\ step O s1 IModelUpdate = Some (u', o') /\
        ready u /\ ready u' /\ param_arrays u' = param_arrays u.
  Proof.
    intros s h s1 o1 Ha H1.
    destruct (step_harmless s (IForward h) s1 o1 Ha eq_refl H1) as [Ha1 Hs1].
    destruct (same_params_reads s s1 Hs1) as [Hpar Hreads].
    split; [exact Ha1 |]. split; [exact Hpar |]. split; [exact Hreads |].
    apply (interleaved_update_same_values [IForward h] s s1 Ha eq_refl).
    cbn [exec]. rewrite H1. reflexivity.
  Qed.
End TrainInterleave.

(** * Example over exact integers: a 1x1 dense model

    forward on [x = 2] (output 3*2+1 = 7), backward against [t = 10] (loss 9, gradients
    [dw = -12], [db = -6]), then a second forward on ANOTHER input [x' = 5], then the update
    with [lr = 1]: the parameters are [3 - (-12) = 15] and [1 - (-6) = 7], the step along
    the gradient of the FIRST forward's loss -- the same as without the second forward. *)

From Coq Require Import ZArith.

Module InterleaveExample.
  Open Scope Z_scope.

  Definition net : @instr Z := IModel [LDense 1 1 ANone [3] [1]] CMse 1.

  Definition prefix : list (@instr Z) :=
    [net; ILeaf [1%nat; 1%nat] [2] false; ILeaf [1%nat; 1%nat] [10] false;
     IForward 1; IModelBackward 2].

  Definition between : list (@instr Z) := [ILeaf [1%nat; 1%nat] [5] false; IForward 5].

  Definition params_after (p : list (@instr Z)) : option obs :=
    match exec Z_ops (init_state Z_ops) p with
    | Some s => Some (o_params s)
    | None => None
    end.

  Example validation_forward_does_not_disturb_update :
    params_after (prefix ++ between ++ [IModelUpdate])
    = Some [ (1%nat, [1%nat; 1%nat; 1%nat], [15]); (3%nat, [], []);
             (1%nat, [1%nat; 1%nat], [7]); (3%nat, [], []) ] /\
    params_after (prefix ++ [IModelUpdate]) = params_after (prefix ++ between ++ [IModelUpdate]).
  Proof. vm_compute. split; reflexivity. Qed.

  Lemma prefix_armed : forall s, exec Z_ops (init_state Z_ops) prefix = Some s -> armed s.
  Proof.
    intros s H.
    change prefix with (net :: [ILeaf [1%nat; 1%nat] [2] false; ILeaf [1%nat; 1%nat] [10] false;
                                IForward 1] ++ [IModelBackward 2]) in H.
    apply exec_cons in H. destruct H as (s1 & o1 & H1 & H).
    pose proof (model_construction_ready Z_ops _ _ _ _ _ _ (good_init Z_ops) H1) as Hr1.
    rewrite exec_app in H. revert H. apply obind_elim. intros s4 H4 H.
    apply exec_appending in H4; [| exact (proj1 Hr1) | reflexivity]. destruct H4 as (Ha4 & _).
    apply exec_cons in H. destruct H as (s5 & o5 & H5 & H). injection H as <-.
    apply (step_backward_armed Z_ops _ _ _ _ Ha4 H5).
  Qed.

  (** the theorem applies: the state after the prefix is [armed] and [between] is harmless *)
  Example interleave_theorem_instance :
    exists s s',
      exec Z_ops (init_state Z_ops) prefix = Some s /\ armed s /\
      forallb harmless between = true /\ exec Z_ops s between = Some s' /\
      exists u o u' o',
        step Z_ops s IModelUpdate = Some (u, o) /\ step Z_ops s' IModelUpdate = Some (u', o') /\
        ready u /\ ready u' /\ param_arrays u' = param_arrays u.
  Proof.
    assert (H : exists s, exec Z_ops (init_state Z_ops) prefix = Some s)
      by (vm_compute; eexists; reflexivity).
    destruct H as (s & H).
    pose proof (prefix_armed s H) as Ha.
    assert (H2 : exists s', exec Z_ops (init_state Z_ops) (prefix ++ between) = Some s')
      by (vm_compute; eexists; reflexivity).
    destruct H2 as (s' & H2).
    assert (H' : exec Z_ops s between = Some s').
    { rewrite exec_app, H in H2. exact H2. }
    exists s, s'. split; [exact H |]. split; [exact Ha |]. split; [reflexivity |].
    split; [exact H' |].
    apply (interleaved_update_same_values Z_ops between s s' Ha eq_refl H').
  Qed.
End InterleaveExample.

Print Assumptions step_harmless.
Print Assumptions exec_harmless.
Print Assumptions model_update_same_values.
Print Assumptions interleaved_update_same_values.
Print Assumptions forward_between_backward_and_update.
Print Assumptions InterleaveExample.validation_forward_does_not_disturb_update.
Print Assumptions InterleaveExample.interleave_theorem_instance.
