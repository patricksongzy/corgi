(** Value specification of [element_wise_op] (second half of C04) and of the
    arithmetic built on it: the result has the broadcast dimensions and its element at
    every multi-index is [f] applied to the operands' elements at the broadcast-clamped
    indices.  No assumption on the scalar operations. *)

From Coq Require Import List Arith Bool Lia PeanoNat.
From Corgi Require Import Lib.OptionMonad Lib.IdxDefs Lib.Idx Model.Scalar Model.Arr
     Model.SlicedOp Model.Elementwise Proofs.ArrFacts Proofs.BroadcastDims Proofs.SpecDefs
     Proofs.SlicedOpSpec.
Import ListNotations.

Lemma bmax_rev_sub : forall x y,
    bcompat_rev x y -> Forall (fun v => 1 <= v) x ->
    length x <= length (bmax_rev x y) /\
    Forall2 (fun u v => u = 1 \/ u = v) x (firstn (length x) (bmax_rev x y)).
Proof.
  induction x as [|a x IH]; intros [|b y] Hc Hx; simpl.
  - split; [lia|constructor].
  - split; [lia|constructor].
  - split; [lia|]. constructor; [auto|]. rewrite firstn_all.
    clear. induction x; constructor; auto.
  - simpl in Hc. destruct Hc as [Hab Hc]. inversion Hx as [|? ? Ha Hx']; subst.
    destruct (IH y Hc Hx') as [Hl Hf]. split; [lia|]. constructor; [lia|exact Hf].
Qed.

Lemma bmax_sub_lead_l : forall x y,
    bcompat x y -> Forall (fun v => 1 <= v) x -> sub_lead x (bmax x y).
Proof.
  intros x y Hc Hx. unfold bcompat in Hc.
  destruct (bmax_rev_sub (rev x) (rev y) Hc (Forall_rev _ _ Hx)) as [Hl Hf].
  rewrite rev_length in Hl, Hf.
  unfold sub_lead, bmax. rewrite rev_length. split; [exact Hl|].
  rewrite lastn_rev. apply Forall2_rev_iff. rewrite rev_involutive. exact Hf.
Qed.

Lemma bmax_sub_lead_r : forall x y,
    bcompat x y -> Forall (fun v => 1 <= v) y -> sub_lead y (bmax x y).
Proof.
  intros x y Hc Hy. rewrite bmax_sym. apply bmax_sub_lead_l; [|exact Hy].
  apply bcompat_sym. exact Hc.
Qed.

Section Snoc.
  Context {F : Type}.

  Lemma lead_dims_snoc : forall (a : arr F) d l, dims a = d ++ [l] -> lead_dims 1 a = d.
  Proof. intros a d l E. exact (lead_dims_app a d [l] E). Qed.

  Lemma group_length_snoc : forall (a : arr F) d l, dims a = d ++ [l] -> group_length 1 a = l.
  Proof. intros a d l E. exact (eq_trans (group_length_app a d [l] E) (prod_single l)). Qed.

  Lemma wf_snoc : forall (a : arr F) d l,
      wf a -> dims a = d ++ [l] ->
      Forall (fun x => 1 <= x) d /\ 1 <= l /\ length (vals a) = prod d * l.
  Proof.
    intros a d l Hw E. destruct (wf_app a d [l] Hw E) as (Hd & Hl & Hv).
    rewrite prod_single in Hv. split; [exact Hd|]. split; [exact (Forall_inv Hl)|exact Hv].
  Qed.
End Snoc.

Section EwSop.
  Context {F : Type}.

  Lemma mod_cl : forall j l m, 1 <= l -> (l = 1 \/ l = m) -> j < m -> j mod l = cl (j, l).
  Proof.
    intros j l m Hl Hlm Hj. unfold cl. cbn [fst snd]. destruct (l =? 1) eqn:E.
    - apply Nat.eqb_eq in E. subst l. apply Nat.mod_1_r.
    - apply Nat.eqb_neq in E. apply Nat.mod_small. lia.
  Qed.

  Lemma cl_lt : forall j l m, 1 <= l -> (l = 1 \/ l = m) -> j < m -> cl (j, l) < l.
  Proof.
    intros j l m Hl Hlm Hj. unfold cl. cbn [fst snd]. destruct (l =? 1) eqn:E.
    - lia.
    - apply Nat.eqb_neq in E. lia.
  Qed.

  Lemma ew_sop_spec : forall (f : F -> F -> F) la lb m (cur sa sb : list F) d,
      1 <= la -> 1 <= lb -> (la = 1 \/ la = m) -> (lb = 1 \/ lb = m) ->
      length sa = la -> length sb = lb -> length cur = m ->
      ew_sop f la lb cur [sa; sb]
      = Some (map (fun j => f (nth (cl (j, la)) sa d) (nth (cl (j, lb)) sb d)) (seq 0 m)).
  Proof.
    intros f la lb m cur sa sb d Hla Hlb Hma Hmb Hsa Hsb Hcur. unfold ew_sop. rewrite Hcur.
    apply mapM_some_map. intros j Hj. apply in_seq in Hj.
    rewrite (mod_cl j la m), (mod_cl j lb m) by (assumption || lia).
    rewrite (nth_error_nth' sa d) by (rewrite Hsa; apply (cl_lt j la m); assumption || lia).
    rewrite (nth_error_nth' sb d) by (rewrite Hsb; apply (cl_lt j lb m); assumption || lia).
    reflexivity.
  Qed.
End EwSop.

Section EwSpec.
  Context {F : Type} (O : ScalarOps F).

  Lemma element_wise_op_snoc : forall (f : F -> F -> F) (a b : arr F) da la db lb,
      wf a -> wf b -> dims a = da ++ [la] -> dims b = db ++ [lb] ->
      bcompat (dims a) (dims b) ->
      exists c, element_wise_op O f a b = Some c /\ wf c /\ dims c = bmax (dims a) (dims b) /\
        forall I, in_range I (dims c) ->
          exists x y, get a (bclamp (dims a) I) = Some x /\ get b (bclamp (dims b) I) = Some y /\
                      get c I = Some (f x y).
  Proof.
    intros f a b da la db lb Hwa Hwb Ea Eb Hc.
    destruct (wf_snoc a da la Hwa Ea) as (Hpda & Hla & _).
    destruct (wf_snoc b db lb Hwb Eb) as (Hpdb & Hlb & _).
    assert (Hc' := Hc). rewrite Ea, Eb in Hc'. apply bcompat_snoc in Hc'.
    destruct Hc' as [Hl Hcd].
    set (lead := bmax da db). set (m := Nat.max la lb).
    assert (Hbm : bmax (dims a) (dims b) = lead ++ [m]) by (rewrite Ea, Eb; apply bmax_snoc).
    assert (Hsa : sub_lead da lead) by (apply bmax_sub_lead_l; assumption).
    assert (Hsb : sub_lead db lead) by (apply bmax_sub_lead_r; assumption).
    assert (Hlead : Forall (fun x => 1 <= x) lead) by (apply bmax_pos; assumption).
    assert (Hma : la = 1 \/ la = m) by (unfold m; lia).
    assert (Hmb : lb = 1 \/ lb = m) by (unfold m; lia).
    assert (Hpd : Forall (fun x => 1 <= x) (lead ++ [m])).
    { apply Forall_app. split; [exact Hlead|]. constructor; [unfold m; lia|constructor]. }
    assert (Hoa : wf a /\ sub_lead (lead_dims 1 a) lead)
      by (rewrite (lead_dims_snoc a da la Ea); auto).
    assert (Hob : wf b /\ sub_lead (lead_dims 1 b) lead)
      by (rewrite (lead_dims_snoc b db lb Eb); auto).
    assert (Hsla : forall t, length (oblock 1 lead t a) = la).
    { intros t. rewrite oblock_length by (try apply Hoa; exact Hlead).
      exact (group_length_snoc a da la Ea). }
    assert (Hslb : forall t, length (oblock 1 lead t b) = lb).
    { intros t. rewrite oblock_length by (try apply Hob; exact Hlead).
      exact (group_length_snoc b db lb Eb). }
    set (g := fun t => map (fun j => f (nth (cl (j, la)) (oblock 1 lead t a) (f0 O))
                                     (nth (cl (j, lb)) (oblock 1 lead t b) (f0 O))) (seq 0 m)).
    assert (Hg : forall t, t < prod lead -> length (g t) = prod [m]).
    { intros t _. unfold g. rewrite map_length, seq_length, prod_single. reflexivity. }
    exists {| dims := lead ++ [m]; vals := concat (map g (seq 0 (prod lead))) |}.
    split; [|split; [apply tab_wf; assumption|split; [symmetry; exact Hbm|]]].
    - unfold element_wise_op.
      rewrite (proj2 (element_wise_dimensions_spec _ _ _) (conj Hc eq_refl)), Hbm. cbn [obind].
      rewrite Ea, Eb, !rev_app_distr. cbn [rev app nth_error obind].
      apply (sliced_op_tab O [a; b] _ (lead ++ [m]) 1 lead [m] 0); try assumption.
      + rewrite app_length, Nat.add_sub. apply firstn_app_len.
      + constructor; [exact Hoa|]. constructor; [exact Hob|constructor].
      + intros t Ht. split; [|apply Hg; exact Ht]. cbn [map].
        apply ew_sop_spec; try assumption; try apply Hsla; try apply Hslb.
        rewrite repeat_length. apply prod_single.
      + reflexivity.
      + apply prod_app.
    - intros I HI. cbn [dims] in HI.
      destruct (in_range_snoc_inv I lead m HI) as (I' & j & -> & HI' & Hj).
      assert (HlI : length lead = length I') by (symmetry; exact (Forall2_len _ _ _ HI')).
      rewrite Ea, Eb, !bclamp_snoc by (rewrite <- HlI; apply Hsa || apply Hsb).
      change (if la =? 1 then 0 else j) with (cl (j, la)).
      change (if lb =? 1 then 0 else j) with (cl (j, lb)).
      exists (nth (cl (j, la)) (oblock 1 lead (rowmajor lead I') a) (f0 O)),
             (nth (cl (j, lb)) (oblock 1 lead (rowmajor lead I') b) (f0 O)).
      split; [|split].
      + rewrite <- (oblock_get a da [la] lead I' [cl (j, la)] Ea Hsa HI'), rowmajor_single.
        * apply nth_error_nth'. rewrite Hsla. apply (cl_lt j la m); assumption.
        * constructor; [apply (cl_lt j la m); assumption|constructor].
      + rewrite <- (oblock_get b db [lb] lead I' [cl (j, lb)] Eb Hsb HI'), rowmajor_single.
        * apply nth_error_nth'. rewrite Hslb. apply (cl_lt j lb m); assumption.
        * constructor; [apply (cl_lt j lb m); assumption|constructor].
      + rewrite (tab_get lead [m] g I' [j] Hg HI'), rowmajor_single
          by (constructor; [exact Hj|constructor]).
        unfold g. rewrite nth_error_map_seq by exact Hj. reflexivity.
  Qed.

  (** C04, values: broadcasting element-wise operation *)
  Theorem element_wise_op_spec : forall (f : F -> F -> F) (a b : arr F),
      wf a -> wf b -> dims a <> [] -> dims b <> [] -> bcompat (dims a) (dims b) ->
      exists c, element_wise_op O f a b = Some c /\ wf c /\ dims c = bmax (dims a) (dims b) /\
        forall I, in_range I (dims c) ->
          exists x y, get a (bclamp (dims a) I) = Some x /\ get b (bclamp (dims b) I) = Some y /\
                      get c I = Some (f x y).
  Proof.
    intros f a b Hwa Hwb Hna Hnb Hc.
    destruct (exists_last Hna) as (da & la & Ea). destruct (exists_last Hnb) as (db & lb & Eb).
    exact (element_wise_op_snoc f a b da la db lb Hwa Hwb Ea Eb Hc).
  Qed.

  Theorem element_wise_op_refuses : forall (f : F -> F -> F) (a b : arr F),
      ~ bcompat (dims a) (dims b) -> element_wise_op O f a b = None.
  Proof.
    intros f a b H. unfold element_wise_op.
    apply element_wise_dimensions_refuses in H. rewrite H. reflexivity.
  Qed.

  Lemma map_arr_some_iff : forall (g : F -> F) (a c : arr F),
      map_arr g a = Some c <-> (wf a /\ c = {| dims := dims a; vals := map g (vals a) |}).
  Proof.
    intros g a c. unfold map_arr. rewrite mk_some, map_length. unfold wf. tauto.
  Qed.

  Lemma map_arr_dims : forall (g : F -> F) (a c : arr F), map_arr g a = Some c -> dims c = dims a.
  Proof. intros g a c H. apply map_arr_some_iff in H. destruct H as [_ ->]. reflexivity. Qed.

  Lemma map_arr_result_wf : forall (g : F -> F) (a : arr F),
      wf a -> wf {| dims := dims a; vals := map g (vals a) |}.
  Proof. intros g a. exact (map_wf g a). Qed.

  Lemma element_wise_op_mapped : forall (f : F -> F -> F) (ga gb : F -> F) (a b a' b' : arr F),
      wf a -> wf b -> dims a <> [] -> dims b <> [] -> bcompat (dims a) (dims b) ->
      a' = {| dims := dims a; vals := map ga (vals a) |} ->
      b' = {| dims := dims b; vals := map gb (vals b) |} ->
      exists c, element_wise_op O f a' b' = Some c /\ wf c /\ dims c = bmax (dims a) (dims b) /\
        forall I, in_range I (dims c) ->
          exists x y, get a (bclamp (dims a) I) = Some x /\ get b (bclamp (dims b) I) = Some y /\
                      get c I = Some (f (ga x) (gb y)).
  Proof.
    intros f ga gb a b a' b' Hwa Hwb Hna Hnb Hc -> ->.
    destruct (element_wise_op_spec f {| dims := dims a; vals := map ga (vals a) |}
                                   {| dims := dims b; vals := map gb (vals b) |})
      as (c & Hop & Hwc & Hdc & Hval); try assumption; try (apply map_arr_result_wf; assumption).
    exists c. split; [exact Hop|]. split; [exact Hwc|]. split; [exact Hdc|].
    intros I HI. destruct (Hval I HI) as (x' & y' & Hx' & Hy' & Hz). cbn [dims] in Hx', Hy'.
    unfold get in Hx', Hy'. cbn [dims vals] in Hx', Hy'. rewrite nth_error_map in Hx', Hy'.
    fold (get a (bclamp (dims a) I)) in Hx'. fold (get b (bclamp (dims b) I)) in Hy'.
    destruct (get a (bclamp (dims a) I)) as [x|]; [|discriminate].
    destruct (get b (bclamp (dims b) I)) as [y|]; [|discriminate].
    inversion Hx'; subst x'. inversion Hy'; subst y'. exists x, y. auto.
  Qed.

  Corollary a_add_spec : forall a b : arr F,
      wf a -> wf b -> dims a <> [] -> dims b <> [] -> bcompat (dims a) (dims b) ->
      exists c, a_add O a b = Some c /\ wf c /\ dims c = bmax (dims a) (dims b) /\
        forall I, in_range I (dims c) ->
          exists x y, get a (bclamp (dims a) I) = Some x /\ get b (bclamp (dims b) I) = Some y /\
                      get c I = Some (fadd O x y).
  Proof. intros a b. exact (element_wise_op_spec (fadd O) a b). Qed.

  Corollary a_mul_spec : forall a b : arr F,
      wf a -> wf b -> dims a <> [] -> dims b <> [] -> bcompat (dims a) (dims b) ->
      exists c, a_mul O a b = Some c /\ wf c /\ dims c = bmax (dims a) (dims b) /\
        forall I, in_range I (dims c) ->
          exists x y, get a (bclamp (dims a) I) = Some x /\ get b (bclamp (dims b) I) = Some y /\
                      get c I = Some (fmul O x y).
  Proof. intros a b. exact (element_wise_op_spec (fmul O) a b). Qed.

  Corollary a_div_spec : forall a b : arr F,
      wf a -> wf b -> dims a <> [] -> dims b <> [] -> bcompat (dims a) (dims b) ->
      exists c, a_div O a b = Some c /\ wf c /\ dims c = bmax (dims a) (dims b) /\
        forall I, in_range I (dims c) ->
          exists x y, get a (bclamp (dims a) I) = Some x /\ get b (bclamp (dims b) I) = Some y /\
                      get c I = Some (fdiv O x y).
  Proof. intros a b. exact (element_wise_op_spec (fdiv O) a b). Qed.

  Corollary a_add_refuses : forall a b : arr F,
      ~ bcompat (dims a) (dims b) -> a_add O a b = None.
  Proof. intros a b. exact (element_wise_op_refuses (fadd O) a b). Qed.

  Corollary a_mul_refuses : forall a b : arr F,
      ~ bcompat (dims a) (dims b) -> a_mul O a b = None.
  Proof. intros a b. exact (element_wise_op_refuses (fmul O) a b). Qed.

  Corollary a_div_refuses : forall a b : arr F,
      ~ bcompat (dims a) (dims b) -> a_div O a b = None.
  Proof. intros a b. exact (element_wise_op_refuses (fdiv O) a b). Qed.

  (** [a - b] is computed as [a + b * (-1)] *)
  Corollary a_sub_spec : forall a b : arr F,
      wf a -> wf b -> dims a <> [] -> dims b <> [] -> bcompat (dims a) (dims b) ->
      exists c, a_sub O a b = Some c /\ wf c /\ dims c = bmax (dims a) (dims b) /\
        forall I, in_range I (dims c) ->
          exists x y, get a (bclamp (dims a) I) = Some x /\ get b (bclamp (dims b) I) = Some y /\
                      get c I = Some (fadd O x (fmul O y (fneg O (f1 O)))).
  Proof.
    intros a b Hwa Hwb Hna Hnb Hc.
    unfold a_sub, a_neg, a_scale. rewrite (proj2 (map_arr_some_iff _ b _) (conj Hwb eq_refl)).
    cbn [obind]. destruct a as [da va].
    apply (element_wise_op_mapped (fadd O) (fun x => x) (fun y => fmul O y (m1 O))
                                  {| dims := da; vals := va |} b); try assumption; try reflexivity.
    cbn [dims vals]. rewrite map_id. reflexivity.
  Qed.

  Corollary a_sub_refuses : forall a b : arr F,
      ~ bcompat (dims a) (dims b) -> a_sub O a b = None.
  Proof.
    intros a b H. unfold a_sub, a_neg, a_scale.
    destruct (map_arr (fun x => fmul O x (m1 O)) b) as [nb|] eqn:E; [|reflexivity].
    cbn [obind]. apply a_add_refuses. rewrite (map_arr_dims _ _ _ E). exact H.
  Qed.

  (** [axpy alpha x y] is computed as [(x * alpha) + y] *)
  Corollary a_axpy_spec : forall (alpha : F) (x y : arr F),
      wf x -> wf y -> dims x <> [] -> dims y <> [] -> bcompat (dims x) (dims y) ->
      exists c, a_axpy O alpha x y = Some c /\ wf c /\ dims c = bmax (dims x) (dims y) /\
        forall I, in_range I (dims c) ->
          exists u v, get x (bclamp (dims x) I) = Some u /\ get y (bclamp (dims y) I) = Some v /\
                      get c I = Some (fadd O (fmul O u alpha) v).
  Proof.
    intros alpha x y Hwx Hwy Hnx Hny Hc.
    unfold a_axpy, a_scale. rewrite (proj2 (map_arr_some_iff _ x _) (conj Hwx eq_refl)).
    cbn [obind]. destruct y as [dy vy].
    apply (element_wise_op_mapped (fadd O) (fun u => fmul O u alpha) (fun v => v)
                                  x {| dims := dy; vals := vy |}); try assumption; try reflexivity.
    cbn [dims vals]. rewrite map_id. reflexivity.
  Qed.

  Corollary a_axpy_refuses : forall (alpha : F) (x y : arr F),
      ~ bcompat (dims x) (dims y) -> a_axpy O alpha x y = None.
  Proof.
    intros alpha x y H. unfold a_axpy, a_scale.
    destruct (map_arr (fun u => fmul O u alpha) x) as [ax|] eqn:E; [|reflexivity].
    cbn [obind]. apply a_add_refuses. rewrite (map_arr_dims _ _ _ E). exact H.
  Qed.
End EwSpec.

Print Assumptions element_wise_op_spec.
Print Assumptions a_sub_spec.
Print Assumptions a_axpy_spec.
