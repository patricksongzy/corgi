(** C18, training-loop part: once a model has moved on to its next iteration, no graph
    node, pending value or hidden alias of the previous computation remains, so the batch
    array is again the sole owner of its buffer.

    The program is the instruction-level loop of [Proofs/TrainLoop.v]:
    [batch_prog n b = [ILeaf x; ILeaf t; IForward n; IModelBackward (S n); IModelUpdate]].

    - [Closure]: what [model_forward] and [cost_apply] append to the store: every new node
      only points to new nodes or to the operands (the layer parameters and the input), and
      no new node shares the buffer of a watched node [v] (only [reshape] shares buffers,
      and the loop reshapes filters only).
    - (R1) [iteration_reachability]: after an iteration, the nodes built by its forward pass
      are reachable from the roots only through the output handle (the model's [st_output]
      and the pool slot pushed by [IForward]); the cost nodes are reachable from no root;
      the layer handles are childless leaves (old untouched ones or nodes made by the update).
    - (R2) [batch_released]: after the result slot is dropped and the next [IForward] has
      replaced the output, the previous input and target are the sole owners of their
      buffers: [strong_count = 1], [ITakeVec] succeeds.  [target_released_after_backward]:
      the target is released as soon as [IModelBackward] returns.
    - (R3) [batch_still_held]: before the next forward, the input of a model whose first
      layer is dense is still held by the graph: [strong_count >= 2], [ITakeVec] panics.
      For a convolutional first layer the (untracked) input is never recorded
      ([conv_first_layer_not_recorded]). *)

From Coq Require Import List Arith Bool Lia PeanoNat.
From Corgi Require Import Lib.OptionMonad Model.Scalar Model.Arr Model.SlicedOp Model.Elementwise
     Model.Linalg Model.Image Model.Ops Model.Engine Model.Program
     Proofs.ArrFacts Proofs.EngineDefs Proofs.EngineBase Proofs.Propagate Proofs.EngineInv Proofs.OpsWf
     Proofs.StepView Proofs.ProgramFacts Proofs.OptimSpec Proofs.Ownership Proofs.HistoryInv Proofs.TrainLoop.
Import ListNotations.

Section Closure.
  Context {F : Type} (O : ScalarOps F).

  Local Notation state := (@Program.state F).
  Local Notation gnode := (@Program.gnode F).

  (** [v]: a watched node (a batch or a target); [A]: the old nodes an operation may point
      to; [b]: the first id of the current construction *)
  Variable v : nat.
  Variable A : nat -> Prop.
  Variable b : nat.

  Definition hok (h : handle) : Prop := A (e_node h) \/ b <= e_node h.

  Definition Ginv (g : list gnode) : Prop :=
    (forall id nd e, nth_error g id = Some nd -> b <= id -> In e (n_children nd) -> hok e) /\
    (forall m nd, nth_error g m = Some nd ->
                  p_buf (n_pay nd) <= m /\ (p_buf (n_pay nd) = v -> m = v)).

  Definition Gpre (s : state) : Prop := Ginv (st_nodes s) /\ b <= length (st_nodes s).

  Lemma alloc_G : forall (s : state) (a : arr F) ch bop buf,
      Gpre s -> (forall e, In e ch -> hok e) ->
      (forall bb, buf = Some bb -> bb <= length (st_nodes s) /\ bb <> v) ->
      Gpre (fst (alloc s a ch bop buf)).
  Proof.
    intros s a ch bop buf [[Hc Hb] Hlen] Hch Hbuf. unfold Gpre, Ginv, alloc.
    cbn [fst st_nodes with_nodes]. split; [split|].
    - intros id nd e Hn Hid He. destruct (lt_dec id (length (st_nodes s))) as [Hlt|Hge].
      + rewrite nth_error_app1 in Hn by exact Hlt. exact (Hc id nd e Hn Hid He).
      + rewrite nth_error_app2 in Hn by lia.
        destruct (id - length (st_nodes s)) as [|k]; [|destruct k; discriminate Hn].
        injection Hn as <-. exact (Hch e He).
    - intros m nd Hn. destruct (lt_dec m (length (st_nodes s))) as [Hlt|Hge].
      + rewrite nth_error_app1 in Hn by exact Hlt. exact (Hb m nd Hn).
      + rewrite nth_error_app2 in Hn by lia.
        destruct (m - length (st_nodes s)) as [|k] eqn:Ek; [|destruct k; discriminate Hn].
        injection Hn as <-. cbn [n_pay p_buf]. destruct buf as [bb|].
        * destruct (Hbuf bb eq_refl) as [H1 H2]. split; [lia|intros E; contradiction].
        * split; [lia|intros E; lia].
    - rewrite app_length. cbn [length]. lia.
  Qed.

  (** a construction from admissible operands that reshapes nothing with the watched buffer *)
  Lemma built_G : forall cu ops rs (s s' : state) made,
      built cu ops rs s s' made -> Gpre s -> (forall e, In e ops -> hok e) ->
      (forall e, In e rs -> e_node e <> v) ->
      Gpre s' /\ forall e, In e made -> hok e.
  Proof.
    intros cu ops rs s s' made B Hp Hops Hrs.
    induction B as [|s1 made a ch bop buf _ [Hp1 Hm] Hch _ _ Hbuf]; [split; [exact Hp|intros e []]|].
    split.
    - apply alloc_G; [exact Hp1| |].
      + intros e He. destruct (Hch e He) as [Ho|Hmade]; [exact (Hops e Ho)|exact (Hm e Hmade)].
      + intros bb Hbb. destruct (Hbuf bb Hbb) as (e & nd & He & Hnd & ->). unfold h_node in Hnd.
        destruct Hp1 as [[_ Hb] _]. destruct (Hb _ nd Hnd) as [H1 H2].
        assert (e_node e < length (st_nodes s1)) by (eapply nth_lt; exact Hnd).
        split; [lia|]. intros E. exact (Hrs e He (H2 E)).
    - intros e He. apply in_app_or in He. destruct He as [He|[<-|[]]]; [exact (Hm e He)|].
      right. cbn [alloc snd e_node mkh]. exact (proj2 Hp1).
  Qed.

  Lemma makes_G : forall cu ow ops rs (s : state) r,
      makes cu ow ops rs s r -> Gpre s -> (forall e, In e ops -> hok e) ->
      (forall e, In e rs -> e_node e <> v) ->
      Gpre (fst r) /\ hok (snd r).
  Proof.
    intros cu ow ops rs s r (made & B & R & _) Hp Hops Hrs.
    destruct (built_G _ _ _ _ _ _ B Hp Hops Hrs) as [Hp' Hm].
    split; [exact Hp'|]. destruct R as [R|R]; [exact (Hops _ R)|exact (Hm _ R)].
  Qed.

  Theorem model_forward_G : forall (s : state) x s1 out,
      Gpre s -> hok x ->
      (forall l, In l (st_layers s) -> hok (l_w l) /\ hok (l_b l) /\ e_node (l_w l) <> v) ->
      model_forward O s x = Some (s1, out) ->
      Ginv (st_nodes s1) /\ hok out.
  Proof.
    intros s x s1 out Hp Hx Hls H.
    destruct (model_forward_makes O (x :: model_params s) (map l_w (st_layers s)) s x s1 out
                                  (or_introl eq_refl)) as (s2 & M & ->); [|exact H|].
    - intros l Hl. split; [right; apply in_flat_map; exists l; cbn [In]; auto|].
      split; [right; apply in_flat_map; exists l; cbn [In]; auto|apply in_map; exact Hl].
    - destruct (makes_G _ _ _ _ _ _ M Hp) as [[Hg _] Ho].
      + intros e [<-|He]; [exact Hx|]. apply in_flat_map in He. destruct He as (l & Hl & He).
        destruct (Hls l Hl) as (Hw & Hb & _). destruct He as [<-|[<-|[]]]; assumption.
      + intros e He. apply in_map_iff in He. destruct He as (l & <- & Hl). apply (Hls l Hl).
      + split; [exact Hg|exact Ho].
  Qed.

  Theorem cost_apply_G : forall (s : state) c output target r,
      Gpre s -> hok output -> hok target ->
      cost_apply O s c output target = Some r -> Gpre (fst r) /\ hok (snd r).
  Proof.
    intros s c output target r Hp Ho Ht H.
    apply (makes_G _ _ _ _ _ _ (cost_apply_makes O [output; target] [] s c output target r
                                               (or_introl eq_refl) (or_intror (or_introl eq_refl)) H) Hp).
    - intros e [<-|[<-|[]]]; assumption.
    - intros e [].
  Qed.
End Closure.

Section Release.
  Context {F : Type} (O : ScalarOps F).

  Local Notation state := (@Program.state F).
  Local Notation gnode := (@Program.gnode F).
  Local Notation E := (Program.E O).

  (** node [m] is a childless node without closure that owns the buffer [m] *)
  Definition batch_leaf (g : list gnode) (m : nat) : Prop :=
    exists nd, nth_error g m = Some nd /\ n_children nd = [] /\ p_bop (n_pay nd) = None /\
               p_buf (n_pay nd) = m.

  Definition leaf_at (g : list gnode) (m : nat) : Prop :=
    exists nd, nth_error g m = Some nd /\ n_children nd = [] /\ p_bop (n_pay nd) = None.

  (** buffers never exceed node ids, and only node [v] has buffer [v] *)
  Definition bufinv (v : nat) (g : list gnode) : Prop :=
    forall m nd, nth_error g m = Some nd ->
                 p_buf (n_pay nd) <= m /\ (p_buf (n_pay nd) = v -> m = v).

  (** the nodes with a child entry on [v] have ids in [lo, hi) *)
  Definition users_in (g : list gnode) (v lo hi : nat) : Prop :=
    forall m nd e, nth_error g m = Some nd -> In e (n_children nd) -> e_node e = v -> lo <= m < hi.

  (** old nodes keep payload and child entries *)
  Definition skel_ext (g g' : list gnode) : Prop :=
    forall id nd, nth_error g id = Some nd ->
                  exists nd', nth_error g' id = Some nd' /\ n_pay nd' = n_pay nd /\
                              n_children nd' = n_children nd.

  Lemma skel_ext_refl : forall g, skel_ext g g.
  Proof. intros g id nd H. exists nd. auto. Qed.

  Lemma skel_ext_trans : forall g1 g2 g3, skel_ext g1 g2 -> skel_ext g2 g3 -> skel_ext g1 g3.
  Proof.
    intros g1 g2 g3 H1 H2 id nd Hn. destruct (H1 id nd Hn) as (nd2 & Hn2 & Hp2 & Hc2).
    destruct (H2 id nd2 Hn2) as (nd3 & Hn3 & Hp3 & Hc3). exists nd3. split; [exact Hn3 |].
    split; congruence.
  Qed.

  Lemma skel_ext_len : forall g g', skel_ext g g' -> length g <= length g'.
  Proof.
    intros g g' H. destruct (le_lt_dec (length g) (length g')) as [Hle | Hlt]; [exact Hle |].
    exfalso. destruct (nth_error g (length g')) as [nd|] eqn:Hn.
    - destruct (H _ nd Hn) as (nd' & Hn' & _).
      assert (length g' < length g') by (apply nth_error_Some; rewrite Hn'; discriminate). lia.
    - apply nth_error_None in Hn. lia.
  Qed.

  Lemma ext_skel_ext : forall s s' : state, ext s s' -> skel_ext (st_nodes s) (st_nodes s').
  Proof.
    intros s s' Hx id nd Hn. exists nd. split; [| auto].
    rewrite (ext_old s s' id Hx); [exact Hn |]. apply nth_error_Some. rewrite Hn. discriminate.
  Qed.

  Lemma skel_ext_app : forall g extra, skel_ext g (g ++ extra).
  Proof.
    intros g extra id nd Hn. exists nd. split; [| auto].
    rewrite nth_error_app1; [exact Hn |]. apply nth_error_Some. rewrite Hn. discriminate.
  Qed.

  Lemma batch_leaf_skel : forall g g' m, skel_ext g g' -> batch_leaf g m -> batch_leaf g' m.
  Proof.
    intros g g' m Hs (nd & Hn & Hc & Hb & Hp). destruct (Hs m nd Hn) as (nd' & Hn' & Hp' & Hc').
    exists nd'. split; [exact Hn' |]. rewrite Hc', Hp'. auto.
  Qed.

  Lemma leaf_at_skel : forall g g' m, skel_ext g g' -> leaf_at g m -> leaf_at g' m.
  Proof.
    intros g g' m Hs (nd & Hn & Hc & Hb). destruct (Hs m nd Hn) as (nd' & Hn' & Hp' & Hc').
    exists nd'. split; [exact Hn' |]. rewrite Hc', Hp'. auto.
  Qed.

  Lemma leaf_at_kids : forall g m, leaf_at g m -> kids g m = [].
  Proof. intros g m (nd & Hn & Hc & _). unfold kids. rewrite Hn, Hc. reflexivity. Qed.

  (** a node of [g'] is an old node of [g] (same skeleton) or a new one *)
  Lemma skel_ext_inv : forall g g' m nd',
      skel_ext g g' -> nth_error g' m = Some nd' -> m < length g ->
      exists nd, nth_error g m = Some nd /\ n_pay nd' = n_pay nd /\ n_children nd' = n_children nd.
  Proof.
    intros g g' m nd' Hs Hn' Hm.
    destruct (nth_error g m) as [nd|] eqn:Hn; [| apply nth_error_None in Hn; lia].
    destruct (Hs m nd Hn) as (nd2 & Hn2 & Hp & Hc).
    assert (nd2 = nd') by congruence. subst nd2. exists nd. auto.
  Qed.

  (** [bufinv] and [users_in] after a framed extension whose new nodes are known *)
  Lemma bufinv_extend : forall v g g',
      skel_ext g g' -> bufinv v g ->
      (forall m nd, nth_error g' m = Some nd -> length g <= m ->
                    p_buf (n_pay nd) <= m /\ (p_buf (n_pay nd) = v -> m = v)) ->
      bufinv v g'.
  Proof.
    intros v g g' Hs Hb Hnew m nd' Hn'.
    destruct (lt_dec m (length g)) as [Hlt | Hge]; [| apply (Hnew m nd' Hn'); lia].
    destruct (skel_ext_inv g g' m nd' Hs Hn' Hlt) as (nd & Hn & Hp & _).
    rewrite Hp. apply (Hb m nd Hn).
  Qed.

  Lemma users_extend : forall g g' v lo hi,
      skel_ext g g' -> users_in g v lo hi ->
      (forall m nd e, nth_error g' m = Some nd -> length g <= m -> In e (n_children nd) ->
                      e_node e <> v) ->
      users_in g' v lo hi.
  Proof.
    intros g g' v lo hi Hs Hu Hnew m nd' e Hn' He Hv.
    destruct (lt_dec m (length g)) as [Hlt | Hge].
    - destruct (skel_ext_inv g g' m nd' Hs Hn' Hlt) as (nd & Hn & _ & Hc).
      rewrite Hc in He. apply (Hu m nd e Hn He Hv).
    - exfalso. apply (Hnew m nd' e Hn'); [lia | exact He | exact Hv].
  Qed.

  Lemma own_buf_new : forall (v m : nat) (pb : nat), pb = m -> pb <= m /\ (pb = v -> m = v).
  Proof. intros v m pb H. subst pb. split; [apply le_n | auto]. Qed.

  Lemma good_topo : forall s : state, good s -> topo (st_nodes s).
  Proof. intros s [Hg _]. apply (wfg_topo O). apply (store_good_wfg O). exact Hg. Qed.

  (** the root [hv] of the watched leaf [v] is the sole owner of its buffer as soon as no
      other root points to [v] and no root reaches a user of [v] *)
  Lemma watch_sole_owner : forall (S : state) hv rs1 rs2 lo hi,
      good S ->
      bufinv (e_node hv) (st_nodes S) ->
      batch_leaf (st_nodes S) (e_node hv) ->
      roots S = rs1 ++ hv :: rs2 ->
      (forall h', In h' (rs1 ++ rs2) -> e_node h' <> e_node hv) ->
      users_in (st_nodes S) (e_node hv) lo hi ->
      (forall h0 n, In h0 (roots S) -> creach (st_nodes S) (e_node h0) n -> n < lo \/ hi <= n) ->
      strong_count S (buf_of (st_nodes S) (e_node hv)) = 1.
  Proof.
    intros S hv rs1 rs2 lo hi Hgd Hb (ndv & Hnv & Hcv & Hbv & Hpv) Hroots Hothers Hu Hdead.
    pose proof (good_topo S Hgd) as Htopo. pose proof Hgd as [Hsg Hrv].
    assert (Hbuf : buf_of (st_nodes S) (e_node hv) = e_node hv).
    { unfold buf_of. rewrite Hnv. exact Hpv. }
    assert (Hbne : forall m, m < length (st_nodes S) -> m <> e_node hv ->
                             buf_of (st_nodes S) m <> e_node hv).
    { intros m Hm Hne. unfold buf_of.
      destruct (nth_error (st_nodes S) m) as [ndm|] eqn:Hnm; [| exact Hne].
      intro Heq. apply Hne. apply (proj2 (Hb m ndm Hnm) Heq). }
    apply (sole_owner S hv rs1 rs2 _ Hroots eq_refl).
    - intros h' Hin. rewrite Hbuf. apply Hbne; [| apply Hothers; exact Hin].
      apply Hrv. rewrite Hroots. apply in_app_or in Hin. apply in_or_app.
      destruct Hin as [Hin | Hin]; [left; exact Hin | right; right; exact Hin].
    - intros h0 n nd Hh0 Hc Hnd. rewrite Hbuf. split.
      + intros e He.
        assert (Hlt : e_node e < n).
        { apply Htopo. unfold kids. rewrite Hnd. apply in_map. exact He. }
        assert (Hn : n < length (st_nodes S)) by (apply nth_error_Some; rewrite Hnd; discriminate).
        apply Hbne; [lia |]. intro Hev.
        pose proof (Hu n nd e Hnd He Hev) as Hzone.
        destruct (Hdead h0 n Hh0 Hc); lia.
      + intros Hsig Hpb. assert (n = e_node hv) by (apply (proj2 (Hb n nd Hnd) Hpb)). subst n.
        assert (nd = ndv) by congruence. subst nd.
        unfold is_sig in Hsig. rewrite Hbv in Hsig. discriminate Hsig.
  Qed.

  Lemma reach_below : forall (g : list gnode) r n lo, topo g -> r < lo -> creach g r n -> n < lo.
  Proof. intros g r n lo Ht Hr Hc. apply (creach_le g r n Ht) in Hc. lia. Qed.

  Lemma reach_leaf : forall (g : list gnode) r n, leaf_at g r -> creach g r n -> n = r.
  Proof. intros g r n Hl Hc. apply (creach_leaf g r n (leaf_at_kids g r Hl) Hc). Qed.

  (** from an operand-closed construction one only reaches the construction and the operands *)
  Lemma reach_closed : forall (g : list gnode) (A : nat -> Prop) b r n,
      (forall id nd e, nth_error g id = Some nd -> b <= id -> In e (n_children nd) -> hok A b e) ->
      (forall a, A a -> kids g a = []) ->
      A r \/ b <= r -> creach g r n -> A n \/ b <= n.
  Proof.
    intros g A b r n Hcl Hleaf Hr Hc. induction Hc as [|m c Hm IH Hin]; [exact Hr |].
    destruct IH as [HA | Hb].
    - rewrite (Hleaf m HA) in Hin. destruct Hin.
    - unfold kids in Hin. destruct (nth_error g m) as [nd|] eqn:Hn; [| destruct Hin].
      apply in_map_iff in Hin. destruct Hin as (e & He & Hin). subst c.
      apply (Hcl m nd e Hn Hb Hin).
  Qed.

  Lemma gd_new_f_nth : forall (s : state) lr pf base k nd,
      nth_error (gd_new_f O s lr base pf) k = Some nd ->
      n_children nd = [] /\ p_bop (n_pay nd) = None /\ p_buf (n_pay nd) = base + k.
  Proof.
    intros s lr pf. induction pf as [|[h fb] pf IH]; intros base k nd H.
    - destruct k; discriminate H.
    - cbn [gd_new_f] in H. destruct fb; [apply IH; exact H |].
      destruct (h_node s h) as [nd0|]; [destruct (n_grad nd0) as [g0|] |].
      + destruct k as [|k].
        * injection H as H. subst nd. cbn. rewrite Nat.add_0_r. auto.
        * cbn [nth_error] in H. destruct (IH (S base) k nd H) as (H1 & H2 & H3).
          split; [exact H1 |]. split; [exact H2 | lia].
      + apply IH. exact H.
      + apply IH. exact H.
  Qed.

  Lemma gd_new_nth : forall (s : state) lr ps base k nd,
      nth_error (gd_new O s lr base ps) k = Some nd ->
      n_children nd = [] /\ p_bop (n_pay nd) = None /\ p_buf (n_pay nd) = base + k.
  Proof. intros s lr ps base k nd H. apply (gd_new_f_nth s lr (flagged s ps) base k nd H). Qed.

  Lemma model_update_nodes : forall s2 s3,
      armed s2 -> model_update O s2 = Some s3 ->
      forall m nd, nth_error (st_nodes s3) m = Some nd -> length (st_nodes s2) <= m ->
                   n_children nd = [] /\ p_bop (n_pay nd) = None /\ p_buf (n_pay nd) = m.
  Proof.
    intros s2 s3 Ha Hu m nd Hn Hm. destruct (armed_gd_pre s2 Ha) as [_ Hpre].
    unfold model_update in Hu.
    rewrite (gd_update_closed O s2 (st_lr s2) (model_params s2) (gd_pre_ok s2 _ Hpre)) in Hu.
    cbn [obind] in Hu. injection Hu as Hu. subst s3.
    cbn [st_nodes with_layers with_nodes] in Hn.
    rewrite nth_error_app2 in Hn by (rewrite clear_grads_length; exact Hm).
    rewrite clear_grads_length in Hn.
    destruct (gd_new_nth s2 _ _ _ _ nd Hn) as (H1 & H2 & H3).
    split; [exact H1 |]. split; [exact H2 | lia].
  Qed.

  Lemma step_leaf_shape : forall (s : state) d vv t s' o,
      step O s (ILeaf d vv t) = Some (s', o) ->
      exists nd, st_nodes s' = st_nodes s ++ [nd] /\
                 n_children nd = [] /\ p_bop (n_pay nd) = None /\
                 p_buf (n_pay nd) = length (st_nodes s) /\
                 st_pool s' = st_pool s ++ [Some (mkh (length (st_nodes s)) t t)] /\
                 st_layers s' = st_layers s /\ st_output s' = st_output s.
  Proof.
    intros s d vv t s' o H. apply step_cases in H. destruct H as (s1 & slot & C & ->).
    inversion C as [i a t0 o0 Hl| | | | | | | | | | |]; try discriminate; subst.
    cbn [new_leaf] in Hl. revert Hl. apply obind_elim. intros a' _ Hl. injection Hl as <- <- _.
    eexists. cbn. repeat split; reflexivity.
  Qed.

  Lemma step_forward_shape : forall (s : state) i s' o,
      step O s (IForward i) = Some (s', o) ->
      exists x s1 out, var s i = Some x /\
                       model_forward O (with_tag s (length (st_pool s))) x = Some (s1, out) /\
                       s' = push s1 (Some out).
  Proof.
    intros s i s' o H. apply step_cases in H. destruct H as (s1 & slot & C & ->).
    inversion C; try discriminate; subst. eauto 8.
  Qed.

  Lemma step_backward_shape : forall (s : state) i s' o,
      step O s (IModelBackward i) = Some (s', o) ->
      exists x s1 loss, var s i = Some x /\
                        model_backward O (with_tag s (length (st_pool s))) x = Some (s1, loss) /\
                        s' = push s1 None.
  Proof.
    intros s i s' o H. apply step_cases in H. destruct H as (s1 & slot & C & ->).
    inversion C; try discriminate; subst. eauto 8.
  Qed.

  Lemma step_update_shape : forall (s : state) s' o,
      step O s IModelUpdate = Some (s', o) ->
      exists s1, model_update O (with_tag s (length (st_pool s))) = Some s1 /\ s' = push s1 None.
  Proof.
    intros s s' o H. apply step_cases in H. destruct H as (s1 & slot & C & ->).
    inversion C; try discriminate; subst. eauto 8.
  Qed.

  Lemma var_app : forall (s : state) P l k,
      st_pool s = P ++ l -> var s (length P + k) = (o <- nth_error l k ;; o).
  Proof.
    intros s P l k H. unfold var. rewrite H, nth_error_app2 by lia.
    replace (length P + k - length P) with k by lia. reflexivity.
  Qed.
  (** ** the forward pass records its input (for R3) *)

  (** [r] reaches a node that has a child entry on [x] *)
  Definition linked (g : list gnode) (r x : nat) : Prop :=
    exists m nd e, creach g r m /\ nth_error g m = Some nd /\ In e (n_children nd) /\ e_node e = x.

  Lemma creach_skel : forall g g' r n, skel_ext g g' -> creach g r n -> creach g' r n.
  Proof.
    intros g g' r n Hs H. induction H as [|m c Hm IH Hin]; [apply cr_refl |].
    apply (cr_step g' r m c IH). unfold kids in *.
    destruct (nth_error g m) as [nd|] eqn:Hn; [| destruct Hin].
    destruct (Hs m nd Hn) as (nd' & Hn' & _ & Hc). rewrite Hn', Hc. exact Hin.
  Qed.

  Lemma linked_skel : forall g g' r x, skel_ext g g' -> linked g r x -> linked g' r x.
  Proof.
    intros g g' r x Hs (m & nd & e & Hc & Hn & He & Hx).
    destruct (Hs m nd Hn) as (nd' & Hn' & _ & Hch).
    exists m, nd', e. split; [apply (creach_skel g g' r m Hs Hc) |]. split; [exact Hn' |].
    split; [rewrite Hch; exact He | exact Hx].
  Qed.

  Lemma linked_creach : forall g r x, linked g r x -> creach g r x.
  Proof.
    intros g r x (m & nd & e & Hc & Hn & He & Hx). subst x.
    apply (creach_step_entry g r m nd e Hc Hn He).
  Qed.

  Lemma linked_trans : forall g r y x, linked g r y -> linked g y x -> linked g r x.
  Proof.
    intros g r y x Hry (m & nd & e & Hc & Hn & He & Hx).
    exists m, nd, e. split; [| auto]. eapply creach_trans; [apply linked_creach; exact Hry | exact Hc].
  Qed.

  Lemma sframe_skel_ext : forall s s' : state, sframe s s' -> skel_ext (st_nodes s) (st_nodes s').
  Proof.
    intros s s' (_ & _ & _ & _ & _ & _ & Hp) id nd Hn. apply (sk_prefix_nth _ _ id nd Hp Hn).
  Qed.

  (** one tracked operation: its result node records its operands *)
  Lemma step_link : forall (s0 s s' : state) h' (a : arr F) cs e x,
      sframe s0 s -> op_res s s' h' a true cs -> In e cs ->
      (e_node e = x \/ linked (st_nodes s0) (e_node e) x) ->
      linked (st_nodes s') (e_node h') x /\ e_tracked h' = true.
  Proof.
    intros s0 s s' h' a cs e x Hf0 [Hf Hres] He Hx.
    destruct Hres as (Ht & _ & _ & _ & nd & Hnd & _ & _ & _ & _ & Hch).
    destruct (Hch eq_refl) as [Hc _]. split; [| exact Ht].
    assert (Hdirect : linked (st_nodes s') (e_node h') (e_node e)).
    { exists (e_node h'), nd, e. split; [apply cr_refl |]. split; [exact Hnd |].
      split; [rewrite Hc; exact He | reflexivity]. }
    destruct Hx as [Hx | Hx]; [subst x; exact Hdirect |].
    apply (linked_trans _ _ (e_node e) _ Hdirect).
    apply (linked_skel (st_nodes s0)); [| exact Hx].
    apply sframe_skel_ext. eapply sframe_trans; eassumption.
  Qed.

  Lemma apply_act_linked : forall (s0 s : state) a h s' h' x,
      sframe s0 s -> e_tracked h = true ->
      linked (st_nodes s0) (e_node h) x ->
      apply_act O s a h = Some (s', h') ->
      sframe s0 s' /\ e_tracked h' = true /\ linked (st_nodes s') (e_node h') x.
  Proof.
    intros s0 s a h s' h' x Hf0 Ht Hl H.
    assert (Hkeep : forall s2 : state, sframe s0 s2 -> linked (st_nodes s2) (e_node h) x).
    { intros s2 Hf2. apply (linked_skel (st_nodes s0)); [apply sframe_skel_ext; exact Hf2 | exact Hl]. }
    destruct a; cbn [apply_act] in H.
    - injection H as H1 H2. subst s' h'. split; [exact Hf0 |]. split; [exact Ht | apply Hkeep; exact Hf0].
    - apply unary_inv in H. destruct H as (a0 & r & _ & _ & R). rewrite Ht in R.
      destruct (step_link s0 s s' h' r [h] h x Hf0 R (or_introl eq_refl) (or_intror Hl)) as [H1 H2].
      split; [eapply sframe_trans; [exact Hf0 | apply R] |]. split; assumption.
    - apply unary_inv in H. destruct H as (a0 & r & _ & _ & R). rewrite Ht in R.
      destruct (step_link s0 s s' h' r [h] h x Hf0 R (or_introl eq_refl) (or_intror Hl)) as [H1 H2].
      split; [eapply sframe_trans; [exact Hf0 | apply R] |]. split; assumption.
    - unfold op_softmax in H.
      revert H. apply obind_elim. intros [s1 he] H1 H.
      revert H. apply obind_elim. intros [s2 hs] H2 H.
      apply unary_inv in H1. destruct H1 as (a1 & r1 & _ & _ & R1). rewrite Ht in R1.
      destruct (step_link s0 s s1 he r1 [h] h x Hf0 R1 (or_introl eq_refl) (or_intror Hl)) as [L1 T1].
      assert (Hf1 : sframe s0 s1) by (eapply sframe_trans; [exact Hf0 | apply R1]).
      apply sum_inv in H2; [| discriminate]. destruct H2 as (a2 & r2 & _ & _ & R2).
      assert (Hf2 : sframe s1 s2) by apply R2.
      apply binary_inv in H. destruct H as (a3 & b3 & r3 & _ & _ & _ & R3).
      rewrite T1 in R3. cbn [orb] in R3.
      destruct (step_link s1 s2 s' h' r3 [he; hs] he x Hf2 R3 (or_introl eq_refl) (or_intror L1))
        as [L3 T3].
      split; [| split; assumption].
      eapply sframe_trans; [exact Hf1 |]. eapply sframe_trans; [exact Hf2 | apply R3].
  Qed.

  (** a layer whose weight is tracked records its input when it is dense or its input is
      tracked *)
  Lemma layer_linked : forall (s : state) l input s' h',
      e_tracked (l_w l) = true -> (l_conv l = None \/ e_tracked input = true) ->
      layer_forward O s l input = Some (s', h') ->
      sframe s s' /\ e_tracked h' = true /\ linked (st_nodes s') (e_node h') (e_node input).
  Proof.
    intros s l input s' h' Hw Hcase H. unfold layer_forward in H.
    destruct (l_conv l) as [[sr sc]|] eqn:Hconv.
    - destruct Hcase as [Hcase | Hti]; [discriminate Hcase |].
      revert H. apply obind_elim. intros [s4 hc] H1 H.
      revert H. apply obind_elim. intros [s5 ha] H2 H.
      apply conv_eq in H1.
      destruct H1 as (fr & fc & d & rcount & ccount & s1 & hu & s2 & hm & s3 & hcv & Hun & _ & Hre & Hmm & Hex).
      apply unroll_inv in Hun. destruct Hun as (a1 & r1 & _ & _ & R1). rewrite Hti in R1.
      destruct (step_link s s s1 hu r1 [input] input (e_node input) (sframe_refl s) R1
                          (or_introl eq_refl) (or_introl eq_refl)) as [L1 T1].
      apply reshape_inv in Hre. destruct Hre as (a2 & r2 & _ & _ & R2).
      assert (F12 : sframe s1 s2) by apply R2.
      apply matmul_inv in Hmm. destruct Hmm as (a3 & b3 & c3 & r3 & h3 & _ & _ & _ & _ & R3 & _).
      unfold mm_tracked in R3. rewrite T1 in R3. cbn [orb] in R3.
      destruct (step_link s1 s2 s3 hcv r3 [hu; hm; h3] hu (e_node input) F12 R3
                          (or_introl eq_refl) (or_intror L1)) as [L3 T3].
      apply expand_inv in Hex. destruct Hex as (a4 & r4 & _ & _ & R4). rewrite T3 in R4.
      destruct (step_link s3 s3 s4 hc r4 [hcv] hcv (e_node input) (sframe_refl s3) R4
                          (or_introl eq_refl) (or_intror L3)) as [L4 T4].
      apply binary_inv in H2. destruct H2 as (a5 & b5 & r5 & _ & _ & _ & R5).
      rewrite T4 in R5. cbn [orb] in R5.
      destruct (step_link s4 s4 s5 ha r5 [hc; l_b l] hc (e_node input) (sframe_refl s4) R5
                          (or_introl eq_refl) (or_intror L4)) as [L5 T5].
      assert (F05 : sframe s s5).
      { eapply sframe_trans; [apply R1 |]. eapply sframe_trans; [exact F12 |].
        eapply sframe_trans; [apply R3 |]. eapply sframe_trans; [apply R4 | apply R5]. }
      destruct (apply_act_linked s5 s5 (l_act l) ha s' h' (e_node input) (sframe_refl s5) T5 L5 H)
        as (F5 & T & L).
      split; [eapply sframe_trans; eassumption |]. split; assumption.
    - revert H. apply obind_elim. intros [s1 h1] H1 H.
      apply matmul_inv in H1. destruct H1 as (a3 & b3 & c3 & r3 & h3 & _ & _ & _ & _ & R3 & _).
      unfold mm_tracked in R3. rewrite Hw, orb_true_r in R3. cbn [orb] in R3.
      destruct (step_link s s s1 h1 r3 [input; l_w l; h3] input (e_node input) (sframe_refl s) R3
                          (or_introl eq_refl) (or_introl eq_refl)) as [L1 T1].
      destruct (apply_act_linked s1 s1 (l_act l) h1 s' h' (e_node input) (sframe_refl s1) T1 L1 H)
        as (F1 & T & L).
      split; [eapply sframe_trans; [apply R3 | exact F1] |]. split; assumption.
  Qed.

  Lemma fold_layers_linked : forall ls (s : state) h s1 out,
      e_tracked h = true -> (forall l, In l ls -> e_tracked (l_w l) = true) ->
      fold_left (fun (acc : option (state * handle)) (l : layer) =>
                   st <- acc ;; let '(s', h') := st in layer_forward O s' l h')
                ls (Some (s, h)) = Some (s1, out) ->
      sframe s s1 /\ (out = h \/ linked (st_nodes s1) (e_node out) (e_node h)).
  Proof.
    intro ls. induction ls as [|l ls IH]; intros s h s1 out Ht Hw H.
    - injection H as H1 H2. subst s1 out. split; [apply sframe_refl | left; reflexivity].
    - cbn [fold_left obind] in H.
      destruct (layer_forward O s l h) as [[s2 h2]|] eqn:Hl;
        [| rewrite fold_left_none in H by (intro b0; reflexivity); discriminate H].
      destruct (layer_linked s l h s2 h2 (Hw l (or_introl eq_refl)) (or_intror Ht) Hl) as (F2 & T2 & L2).
      destruct (IH s2 h2 s1 out T2 (fun l0 Hl0 => Hw l0 (or_intror Hl0)) H) as (F1 & Hcase).
      split; [eapply sframe_trans; eassumption |]. right.
      assert (L2' : linked (st_nodes s1) (e_node h2) (e_node h)).
      { apply (linked_skel (st_nodes s2)); [apply sframe_skel_ext; exact F1 | exact L2]. }
      destruct Hcase as [-> | Hcase]; [exact L2' |].
      eapply linked_trans; eassumption.
  Qed.

  (** a model whose first layer is dense records its input, whatever follows *)
  Theorem model_forward_linked : forall (s : state) x s1 out l ls,
      st_layers s = l :: ls -> l_conv l = None ->
      (forall l0, In l0 (st_layers s) -> e_tracked (l_w l0) = true) ->
      model_forward O s x = Some (s1, out) ->
      linked (st_nodes s1) (e_node out) (e_node x).
  Proof.
    intros s x s1 out l ls Hls Hd Hw H. unfold model_forward in H.
    revert H. apply obind_elim. intros [s2 out2] Hfold H.
    injection H as H1 H2. subst s1 out2. cbn [st_nodes with_output].
    rewrite Hls in Hfold, Hw. cbn [fold_left obind] in Hfold.
    destruct (layer_forward O s l x) as [[s3 h3]|] eqn:Hl;
      [| rewrite fold_left_none in Hfold by (intro b0; reflexivity); discriminate Hfold].
    destruct (layer_linked s l x s3 h3 (Hw l (or_introl eq_refl)) (or_introl Hd) Hl) as (F3 & T3 & L3).
    destruct (fold_layers_linked ls s3 h3 s2 out T3 (fun l0 Hl0 => Hw l0 (or_intror Hl0)) Hfold)
      as (F2 & Hcase).
    assert (L3' : linked (st_nodes s2) (e_node h3) (e_node x)).
    { apply (linked_skel (st_nodes s3)); [apply sframe_skel_ext; exact F2 | exact L3]. }
    destruct Hcase as [-> | Hcase]; [exact L3' |].
    eapply linked_trans; eassumption.
  Qed.

  (** operands of the forward pass of an iteration started in [s]: the input leaf [p0] and
      the layer parameters *)
  Definition Ak (s : state) (p0 : nat) (id : nat) : Prop :=
    id = p0 \/ In id (map e_node (model_params s)).

  Definition prog4 (n : nat) (b : @batch F) : list (@instr F) :=
    [ILeaf (fst (fst b)) (snd (fst b)) false; ILeaf (fst (snd b)) (snd (snd b)) false;
     IForward n; IModelBackward (S n)].

  Lemma batch_prog_prog4 : forall n b, batch_prog n b = prog4 n b ++ [IModelUpdate].
  Proof. reflexivity. Qed.

  Lemma pass_skel_ext : forall g g' : list gnode,
      length g' = length g ->
      (forall id nd nd', nth_error g id = Some nd -> nth_error g' id = Some nd' ->
                         n_pay nd' = n_pay nd /\ n_children nd' = n_children nd) ->
      skel_ext g g'.
  Proof.
    intros g g' Hl Hs id nd Hn.
    destruct (nth_error g' id) as [nd'|] eqn:Hn'.
    - exists nd'. split; [reflexivity |]. apply (Hs id nd nd' Hn Hn').
    - apply nth_error_None in Hn'.
      assert (id < length g) by (apply nth_error_Some; rewrite Hn; discriminate). nlia.
  Qed.

  Lemma layer_in_params : forall (s : state) l,
      In l (st_layers s) -> In (l_w l) (model_params s) /\ In (l_b l) (model_params s).
  Proof.
    intros s l Hl. unfold model_params. split; apply in_flat_map; exists l; simpl; auto.
  Qed.

  Lemma buf_le_bufinv : forall (g : list gnode) v, buf_le g -> length g <= v -> bufinv v g.
  Proof.
    intros g v Hle Hv m nd Hn. pose proof (Hle m nd Hn) as H.
    assert (m < length g) by (apply nth_error_Some; rewrite Hn; discriminate).
    split; [exact H | intro; lia].
  Qed.

  Lemma bufinv_buf_le : forall (g : list gnode) v, bufinv v g -> buf_le g.
  Proof. intros g v H m nd Hn. apply (H m nd Hn). Qed.

  Lemma own_leaf_bufinv : forall v (g : list gnode) (new : list gnode),
      bufinv v g ->
      (forall k nd, nth_error new k = Some nd -> p_buf (n_pay nd) = length g + k) ->
      bufinv v (g ++ new).
  Proof.
    intros v g new Hb Hnew m nd Hm. destruct (lt_dec m (length g)) as [Hlt|Hge].
    - rewrite nth_error_app1 in Hm by exact Hlt. exact (Hb m nd Hm).
    - rewrite nth_error_app2 in Hm by lia. apply own_buf_new. rewrite (Hnew _ nd Hm). lia.
  Qed.

  (** the batch and the target of an iteration: two childless nodes owning fresh buffers *)
  Lemma two_leaves : forall (s sb : state) dx vx dt vt,
      ready s ->
      exec O s [ILeaf dx vx false; ILeaf dt vt false] = Some sb ->
      ready sb /\ st_layers sb = st_layers s /\ st_output sb = st_output s /\
      st_pool sb = st_pool s ++ [Some (mkh (length (st_nodes s)) false false);
                                 Some (mkh (S (length (st_nodes s))) false false)] /\
      exists ndx ndt,
        st_nodes sb = st_nodes s ++ [ndx; ndt] /\
        forall k nd, nth_error [ndx; ndt] k = Some nd ->
                     n_children nd = [] /\ p_bop (n_pay nd) = None /\
                     p_buf (n_pay nd) = length (st_nodes s) + k.
  Proof.
    intros s sb dx vx dt vt Hr H. cbn [exec] in H.
    revert H. apply obind_elim. intros [sa oa] H1 H. cbn [fst] in H.
    revert H. apply obind_elim. intros [sb' ob] H2 H. cbn [fst] in H. injection H as <-.
    pose proof (step_leaf_ready O _ _ _ _ _ _ Hr H1) as Hra.
    split; [exact (step_leaf_ready O _ _ _ _ _ _ Hra H2)|].
    destruct (step_leaf_shape s _ _ _ _ _ H1) as (ndx & Hna & Hcx & Hbx & Hpx & Hpa & Hla & Hoa).
    destruct (step_leaf_shape sa _ _ _ _ _ H2) as (ndt & Hnb & Hct & Hbt & Hpt & Hpb & Hlb & Hob).
    assert (Hlena : length (st_nodes sa) = S (length (st_nodes s)))
      by (rewrite Hna, app_length; cbn [length]; lia).
    rewrite Hlena in Hpt, Hpb.
    split; [congruence|]. split; [congruence|].
    split; [rewrite Hpb, Hpa, <- app_assoc; reflexivity|].
    exists ndx, ndt. split; [rewrite Hnb, Hna, <- app_assoc; reflexivity|].
    intros k nd Hk. destruct k as [|[|k]]; cbn [nth_error] in Hk.
    - injection Hk as <-. rewrite Nat.add_0_r. auto.
    - injection Hk as <-. rewrite Nat.add_1_r. auto.
    - destruct k; discriminate Hk.
  Qed.

  (** the first three instructions of an iteration *)
  Definition start3 (n : nat) (b : @batch F) : list (@instr F) :=
    [ILeaf (fst (fst b)) (snd (fst b)) false; ILeaf (fst (snd b)) (snd (snd b)) false; IForward n].

  (** after them: the two leaves, then the nodes of the forward pass, which point to the
      batch, to layer parameters or to each other and share no watched buffer *)
  Record started (s s3 : state) (out : handle) : Prop := {
    sh_armed : armed s3;
    sh_len : length (st_nodes s) + 2 <= length (st_nodes s3);
    sh_pool : st_pool s3 = st_pool s ++ [Some (mkh (length (st_nodes s)) false false);
                                         Some (mkh (S (length (st_nodes s))) false false); Some out];
    sh_out : st_output s3 = Some out;
    sh_valid : e_node out < length (st_nodes s3);
    sh_layers : st_layers s3 = st_layers s;
    sh_skel : skel_ext (st_nodes s) (st_nodes s3);
    sh_batch : batch_leaf (st_nodes s3) (length (st_nodes s));
    sh_target : batch_leaf (st_nodes s3) (S (length (st_nodes s)));
    sh_hok : hok (Ak s (length (st_nodes s))) (length (st_nodes s) + 2) out;
    sh_G : forall v, bufinv v (st_nodes s) ->
                     (forall h, In h (model_params s) -> e_node h <> v) ->
                     Ginv v (Ak s (length (st_nodes s))) (length (st_nodes s) + 2) (st_nodes s3);
    sh_linked : forall l ls, st_layers s = l :: ls -> l_conv l = None ->
                             linked (st_nodes s3) (e_node out) (length (st_nodes s))
  }.

  Lemma start_shape : forall (s : state) n b s3,
      ready s -> buf_le (st_nodes s) -> n = length (st_pool s) ->
      exec O s (start3 n b) = Some s3 -> exists out, started s s3 out.
  Proof.
    intros s n b s3 Hr Hble Hn H. set (p0 := length (st_nodes s)).
    change (start3 n b) with ([ILeaf (fst (fst b)) (snd (fst b)) false;
                               ILeaf (fst (snd b)) (snd (snd b)) false] ++ [IForward n]) in H.
    rewrite exec_app in H. revert H. apply obind_elim. intros sb Hb H. cbn [exec] in H.
    revert H. apply obind_elim. intros [s3' o3] H3 H. cbn [fst] in H. injection H as ->.
    destruct (two_leaves s sb _ _ _ _ Hr Hb) as (Hrb & Hlayb & Houtb & Hpb & ndx & ndt & Hnb & Hleaf).
    fold p0 in Hpb, Hleaf.
    assert (Hlenb : length (st_nodes sb) = p0 + 2) by (rewrite Hnb, app_length; cbn [length]; fold p0; lia).
    pose proof Hr as (((_ & Hrv) & Hpl & _) & _).
    assert (Hparlt : forall h, In h (model_params s) -> e_node h < p0)
      by (intros h Hh; exact (model_params_valid s Hrv h Hh)).
    destruct (step_forward_shape sb n s3 o3 H3) as (x & s1 & out & Hx & Hf & ->).
    set (sT := with_tag sb (length (st_pool sb))) in *.
    assert (Hx' : x = mkh p0 false false).
    { rewrite Hn in Hx. replace (length (st_pool s)) with (length (st_pool s) + 0) in Hx by lia.
      rewrite (var_app sb _ _ 0 Hpb) in Hx. cbn in Hx. congruence. }
    subst x.
    assert (Hvx : hvalid (st_nodes sT) (mkh p0 false false))
      by (unfold hvalid; cbn [e_node mkh]; change (st_nodes sT) with (st_nodes sb); lia).
    destruct (model_forward_armed O sT _ s1 out (proj1 (ready_with_tag sb _ Hrb)) Hvx Hf)
      as (Ha1 & _ & Hout1 & Hvout & Hlay1 & _ & _ & Hpool1 & Hlen1 & Hold1).
    change (st_nodes sT) with (st_nodes sb) in Hlen1, Hold1.
    assert (HG : forall v, bufinv v (st_nodes s) -> (forall h, In h (model_params s) -> e_node h <> v) ->
                           Ginv v (Ak s p0) (p0 + 2) (st_nodes s1) /\ hok (Ak s p0) (p0 + 2) out).
    { intros v Hbv Hpv.
      apply (model_forward_G O v (Ak s p0) (p0 + 2) sT (mkh p0 false false) s1 out); [| | | exact Hf].
      - change (Ginv v (Ak s p0) (p0 + 2) (st_nodes sb) /\ p0 + 2 <= length (st_nodes sb)).
        split; [split|lia].
        + intros id nd e Hid Hge _. exfalso. apply nth_lt in Hid. lia.
        + rewrite Hnb. apply own_leaf_bufinv; [exact Hbv|]. intros k nd Hk. apply (Hleaf k nd Hk).
      - left. left. reflexivity.
      - intros l Hl. change (st_layers sT) with (st_layers sb) in Hl. rewrite Hlayb in Hl.
        destruct (layer_in_params s l Hl) as [Hw Hbb].
        split; [left; right; apply in_map; exact Hw |].
        split; [left; right; apply in_map; exact Hbb | exact (Hpv _ Hw)]. }
    assert (Hsk : skel_ext (st_nodes s) (st_nodes s1)).
    { intros id nd Hid. exists nd. split; [| auto]. pose proof (nth_lt _ _ _ Hid) as Hlt. fold p0 in Hlt.
      rewrite Hold1 by lia. rewrite Hnb, nth_error_app1 by exact Hlt. exact Hid. }
    assert (Hbl : forall k, k < 2 -> batch_leaf (st_nodes s1) (p0 + k)).
    { intros k Hk. destruct (nth_error [ndx; ndt] k) as [nd|] eqn:Hnd;
        [| apply nth_error_None in Hnd; cbn [length] in Hnd; lia].
      exists nd. split; [|apply (Hleaf k nd Hnd)].
      rewrite Hold1 by lia. rewrite Hnb, nth_error_app2 by (fold p0; lia). fold p0.
      replace (p0 + k - p0) with k by lia. exact Hnd. }
    exists out. constructor; cbn [push with_pool st_nodes st_pool st_output st_layers]; fold p0.
    - apply armed_push; [exact Ha1|]. intros h0 Hh0. injection Hh0 as <-. exact Hvout.
    - lia.
    - rewrite Hpool1. change (st_pool sT) with (st_pool sb). rewrite Hpb, <- app_assoc. reflexivity.
    - exact Hout1.
    - exact Hvout.
    - rewrite Hlay1. exact Hlayb.
    - exact Hsk.
    - pose proof (Hbl 0 ltac:(lia)) as H0. rewrite Nat.add_0_r in H0. exact H0.
    - pose proof (Hbl 1 ltac:(lia)) as H1. rewrite Nat.add_1_r in H1. exact H1.
    - apply (HG p0); [apply buf_le_bufinv; [exact Hble|apply le_n]|].
      intros h Hh. specialize (Hparlt h Hh). lia.
    - intros v Hbv Hpv. exact (proj1 (HG v Hbv Hpv)).
    - intros l ls Hls Hd.
      apply (model_forward_linked sT (mkh p0 false false) s1 out l ls); [| exact Hd | | exact Hf].
      + change (st_layers sT) with (st_layers sb). rewrite Hlayb. exact Hls.
      + intros l0 Hl0. change (st_layers sT) with (st_layers sb) in Hl0. rewrite Hlayb in Hl0.
        destruct (layer_in_params s l0 Hl0) as [Hw0 _]. apply (Hpl _ Hw0).
  Qed.

  (** [s4] after the forward pass and the backward pass of an iteration begun in [s]: the nodes
      of the forward pass lie below [f] *)
  Record passed (s s4 : state) (f : nat) (outk : handle) : Prop := {
    pa_f : length (st_nodes s) + 2 <= f;
    pa_len : f <= length (st_nodes s4);
    pa_armed : armed s4;
    pa_pool : st_pool s4 = st_pool s ++ [Some (mkh (length (st_nodes s)) false false);
                                         Some (mkh (S (length (st_nodes s))) false false);
                                         Some outk; None];
    pa_out : st_output s4 = Some outk;
    pa_valid : e_node outk < f;
    pa_hok : hok (Ak s (length (st_nodes s))) (length (st_nodes s) + 2) outk;
    pa_layers : st_layers s4 = st_layers s;
    pa_skel : skel_ext (st_nodes s) (st_nodes s4);
    pa_batch : batch_leaf (st_nodes s4) (length (st_nodes s));
    pa_target : batch_leaf (st_nodes s4) (S (length (st_nodes s)));
    pa_buf0 : bufinv (length (st_nodes s)) (st_nodes s4);
    pa_buf1 : bufinv (S (length (st_nodes s))) (st_nodes s4);
    pa_closed : forall m nd e, nth_error (st_nodes s4) m = Some nd ->
                               length (st_nodes s) + 2 <= m -> m < f -> In e (n_children nd) ->
                               hok (Ak s (length (st_nodes s))) (length (st_nodes s) + 2) e;
    pa_linked : forall l ls, st_layers s = l :: ls -> l_conv l = None ->
                             linked (st_nodes s4) (e_node outk) (length (st_nodes s))
  }.

  Theorem before_update_shape : forall (s : state) n b s4,
      ready s -> buf_le (st_nodes s) -> n = length (st_pool s) ->
      exec O s (prog4 n b) = Some s4 -> exists f outk, passed s s4 f outk.
  Proof.
    intros s n b s4 Hr Hble Hn H. set (p0 := length (st_nodes s)) in *.
    change (prog4 n b) with (start3 n b ++ [IModelBackward (S n)]) in H. rewrite exec_app in H.
    revert H. apply obind_elim. intros s3 H3 H. cbn [exec] in H.
    revert H. apply obind_elim. intros [s4' o4] H4 H. cbn [fst] in H. injection H as ->.
    destruct (start_shape s n b s3 Hr Hble Hn H3)
      as (out & [Ha3 Hlen3 Hp3 Ho3 Hvout Hlay3 Hsk3 Hb0 Hb1 Hhok HG Hlink]).
    fold p0 in Hlen3, Hp3, Hb0, Hb1, Hhok, HG, Hlink.
    pose proof Hr as (((_ & Hrv) & _) & _).
    assert (HGv : forall v, p0 <= v -> Ginv v (Ak s p0) (p0 + 2) (st_nodes s3)).
    { intros v Hv. apply HG; [apply buf_le_bufinv; assumption|].
      intros h Hh. pose proof (model_params_valid s Hrv h Hh) as Hlt. unfold hvalid in Hlt. fold p0 in Hlt. lia. }
    destruct (step_backward_shape s3 (S n) s4 o4 H4) as (y & s4' & loss & Hy & Hb & ->).
    assert (Hy' : y = mkh (S p0) false false).
    { rewrite Hn in Hy. replace (S (length (st_pool s))) with (length (st_pool s) + 1) in Hy by lia.
      rewrite (var_app s3 _ _ 1 Hp3) in Hy. cbn in Hy. congruence. }
    subst y.
    set (sT3 := with_tag s3 (length (st_pool s3))) in *.
    assert (HaT : armed sT3) by (apply armed_with_tag; exact Ha3).
    assert (Hvt : hvalid (st_nodes sT3) (mkh (S p0) false false))
      by (unfold hvalid; cbn [e_node mkh]; change (st_nodes sT3) with (st_nodes s3); lia).
    destruct (model_backward_run O sT3 _ s4' loss (proj1 HaT) Hvt Hb)
      as (out' & sc & err & ndr & g' & log & [Hout' Hcost Hxx Hgc Hndr Hloss Hrun Hs4' Hl' Hg' Hgd4 Hskel]).
    destruct (model_backward_armed O sT3 _ s4' loss HaT Hvt Hb)
      as (Ha4 & Hlay4 & Hout4 & _ & _ & Hpool4 & Hlen4).
    change (st_output sT3) with (st_output s3) in Hout', Hout4. rewrite Ho3 in Hout'.
    injection Hout' as <-.
    assert (Hsk34 : skel_ext (st_nodes s3) (st_nodes s4')).
    { apply (skel_ext_trans _ (st_nodes sc)); [exact (ext_skel_ext sT3 sc Hxx)|].
      subst s4'. cbn [st_nodes with_nodes]. apply pass_skel_ext; assumption. }
    assert (Hbuf4 : forall v, p0 <= v -> bufinv v (st_nodes s4')).
    { intros v Hv.
      destruct (cost_apply_G O v (fun _ => True) 0 sT3 (st_cost sT3) out (mkh (S p0) false false) (sc, err))
        as [[[_ Hbc] _] _]; [|left; exact I|left; exact I|exact Hcost|].
      - split; [split|apply Nat.le_0_l]; [intros id nd e _ _ _; left; exact I|exact (proj2 (HGv v Hv))].
      - subst s4'. cbn [st_nodes with_nodes].
        apply (bufinv_extend v (st_nodes sc)); [apply pass_skel_ext; assumption | exact Hbc |].
        intros m nd Hm Hge. exfalso. apply nth_lt in Hm. cbn [fst] in Hge. nlia. }
    exists (length (st_nodes s3)), out.
    constructor; cbn [push with_pool st_nodes st_pool st_output st_layers]; fold p0.
    - exact Hlen3.
    - exact Hlen4.
    - apply armed_push; [exact Ha4 | intros h0 Hh0; discriminate Hh0].
    - rewrite Hpool4. change (st_pool sT3) with (st_pool s3). rewrite Hp3, <- app_assoc. reflexivity.
    - rewrite Hout4. exact Ho3.
    - exact Hvout.
    - exact Hhok.
    - rewrite Hlay4. exact Hlay3.
    - exact (skel_ext_trans _ _ _ Hsk3 Hsk34).
    - exact (batch_leaf_skel _ _ _ Hsk34 Hb0).
    - exact (batch_leaf_skel _ _ _ Hsk34 Hb1).
    - apply Hbuf4. apply le_n.
    - apply Hbuf4. apply le_S, le_n.
    - intros m nd e Hm Hge Hlt He.
      destruct (skel_ext_inv _ _ m nd Hsk34 Hm Hlt) as (nd1 & Hm1 & _ & Hc1). rewrite Hc1 in He.
      exact (proj1 (HGv p0 (le_n _)) m nd1 e Hm1 Hge He).
    - intros l ls Hls Hd. exact (linked_skel _ _ _ _ Hsk34 (Hlink l ls Hls Hd)).
  Qed.

  (** [s5] after an iteration begun in [s]: the forward pass built the nodes below [f], the
      cost those below [c], the update the rest *)
  Record iterated (s s5 : state) (f c : nat) (outk : handle) : Prop := {
    it_f : length (st_nodes s) + 2 <= f;
    it_fc : f <= c;
    it_c : c <= length (st_nodes s5);
    it_ready : ready s5;
    it_ble : buf_le (st_nodes s5);
    it_pool : st_pool s5 = st_pool s ++ [Some (mkh (length (st_nodes s)) false false);
                                         Some (mkh (S (length (st_nodes s))) false false);
                                         Some outk; None; None];
    it_out : st_output s5 = Some outk;
    it_valid : e_node outk < f;
    it_skel : skel_ext (st_nodes s) (st_nodes s5);
    it_batch : batch_leaf (st_nodes s5) (length (st_nodes s));
    it_target : batch_leaf (st_nodes s5) (S (length (st_nodes s)));
    it_buf0 : bufinv (length (st_nodes s)) (st_nodes s5);
    it_buf1 : bufinv (S (length (st_nodes s))) (st_nodes s5);
    it_closed : forall m nd e, nth_error (st_nodes s5) m = Some nd ->
                               length (st_nodes s) + 2 <= m -> m < f -> In e (n_children nd) ->
                               hok (Ak s (length (st_nodes s))) (length (st_nodes s) + 2) e;
    it_leaves : forall m, c <= m -> m < length (st_nodes s5) -> leaf_at (st_nodes s5) m;
    it_params : forall h, In h (model_params s5) ->
                          leaf_at (st_nodes s5) (e_node h) /\
                          (e_node h < length (st_nodes s) \/ c <= e_node h);
    it_linked : forall l ls, st_layers s = l :: ls -> l_conv l = None ->
                             linked (st_nodes s5) (e_node outk) (length (st_nodes s))
  }.

  Theorem iteration_shape : forall (s : state) n b s5,
      ready s -> buf_le (st_nodes s) -> n = length (st_pool s) ->
      exec O s (batch_prog n b) = Some s5 -> exists f c outk, iterated s s5 f c outk.
  Proof.
    intros s n b s5 Hr Hble Hn H. set (p0 := length (st_nodes s)) in *.
    rewrite batch_prog_prog4, exec_app in H.
    revert H. apply obind_elim. intros s4 H4 H. cbn [exec] in H.
    revert H. apply obind_elim. intros [s5' o5] H5 H. cbn [fst] in H.
    injection H as H. subst s5'.
    destruct (before_update_shape s n b s4 Hr Hble Hn H4)
      as (f & outk & [Hf1 Hf2 Ha4 Hp4 Ho4 Hok _ Hlay4 Hsk4 Hb0 Hb1 Hi0 Hi1 Hcl Hlink]).
    fold p0 in Hf1, Hp4, Hsk4, Hb0, Hb1, Hi0, Hi1, Hcl, Hlink.
    destruct (step_update_shape s4 s5 o5 H5) as (s5' & Hu & Hs5).
    set (sT := with_tag s4 (length (st_pool s4))) in *.
    assert (HaT : armed sT) by (apply armed_with_tag; exact Ha4).
    destruct (model_update_ready O sT s5' HaT Hu)
      as (Hr5 & Hpool5 & _ & _ & Hout5 & _ & _ & _ & Hold).
    destruct (update_no_leak O sT s5' HaT Hu) as (_ & Hcls & _).
    pose proof (model_update_nodes sT s5' HaT Hu) as Hnew.
    change (st_nodes sT) with (st_nodes s4) in Hnew, Hold, Hcls.
    assert (Hsk45 : skel_ext (st_nodes s4) (st_nodes s5')).
    { intros id nd Hid. destruct (Hold id nd Hid) as (nd' & H1 & H2 & H3 & _). exists nd'. auto. }
    assert (Hlen45 : length (st_nodes s4) <= length (st_nodes s5')) by (apply skel_ext_len; exact Hsk45).
    pose proof Hr as (((_ & Hrv) & _) & _).
    assert (Hi0' : bufinv p0 (st_nodes s5')).
    { apply (bufinv_extend p0 (st_nodes s4)); [exact Hsk45 | exact Hi0 |].
      intros m nd Hm Hge. apply own_buf_new. apply (Hnew m nd Hm Hge). }
    assert (Hi1' : bufinv (S p0) (st_nodes s5')).
    { apply (bufinv_extend (S p0) (st_nodes s4)); [exact Hsk45 | exact Hi1 |].
      intros m nd Hm Hge. apply own_buf_new. apply (Hnew m nd Hm Hge). }
    subst s5. exists f, (length (st_nodes s4)), outk.
    constructor; cbn [push with_pool st_nodes st_pool st_output st_layers]; fold p0.
    - exact Hf1.
    - exact Hf2.
    - exact Hlen45.
    - apply ready_push; [exact Hr5 | intros h0 Hh0; discriminate Hh0].
    - exact (bufinv_buf_le _ p0 Hi0').
    - rewrite Hpool5. change (st_pool sT) with (st_pool s4). rewrite Hp4, <- app_assoc. reflexivity.
    - rewrite Hout5. exact Ho4.
    - exact Hok.
    - eapply skel_ext_trans; eassumption.
    - exact (batch_leaf_skel _ _ _ Hsk45 Hb0).
    - exact (batch_leaf_skel _ _ _ Hsk45 Hb1).
    - exact Hi0'.
    - exact Hi1'.
    - intros m nd e Hm Hge Hlt He.
      assert (Hm4 : m < length (st_nodes s4)) by lia.
      destruct (skel_ext_inv _ _ m nd Hsk45 Hm Hm4) as (nd4 & Hn4 & _ & Hc4).
      rewrite Hc4 in He. apply (Hcl m nd4 e Hn4 Hge Hlt He).
    - intros m Hge Hlt.
      destruct (nth_error (st_nodes s5') m) as [nd|] eqn:Hm; [| apply nth_error_None in Hm; lia].
      destruct (Hnew m nd Hm Hge) as (H1 & H2 & _). exists nd. auto.
    - intros h Hh. apply ready_spelled in Hr5. destruct Hr5 as (_ & Hp5 & _).
      destruct (Hp5 h Hh) as (_ & _ & nd & Hnd & Hc & Hbo & _).
      split; [exists nd; unfold h_node in Hnd; auto |].
      destruct (Hcls h Hh) as [[Hin _] | Hge]; [| right; exact Hge].
      left. assert (Hpar : model_params sT = model_params s) by (apply model_params_layers; exact Hlay4).
      rewrite Hpar in Hin. apply (model_params_valid s Hrv h Hin).
    - intros l ls Hls Hd. apply (linked_skel _ _ _ _ Hsk45). apply (Hlink l ls Hls Hd).
  Qed.

  Lemma in_pool_handles : forall (p : list (option handle)) h,
      In h (pool_handles p) <-> In (Some h) p.
  Proof.
    intros p h. unfold pool_handles. rewrite in_flat_map. split.
    - intros ([x|] & Hx & Hin); [| destruct Hin]. destruct Hin as [Hin | []]. subst x. exact Hx.
    - intro H. exists (Some h). split; [exact H | left; reflexivity].
  Qed.

  Lemma pool_valid : forall (s : state) h,
      rvalid s -> In h (pool_handles (st_pool s)) -> e_node h < length (st_nodes s).
  Proof.
    intros s h Hr Hin. apply Hr. rewrite roots_eq. apply in_or_app. left. exact Hin.
  Qed.

  (** (R1) reachability after an iteration *)
  Theorem iteration_reachability : forall (s : state) n b s5,
      ready s -> buf_le (st_nodes s) -> n = length (st_pool s) ->
      exec O s (batch_prog n b) = Some s5 ->
      exists f c outk,
        length (st_nodes s) + 2 <= f /\ f <= c /\ c <= length (st_nodes s5) /\
        (* the output handle is the model's output and the slot pushed by [IForward] *)
        st_output s5 = Some outk /\ nth_error (st_pool s5) (n + 2) = Some (Some outk) /\
        e_node outk < f /\
        (* layer handles: untouched old parameter leaves, or leaves made by the update *)
        (forall h, In h (model_params s5) ->
                   leaf_at (st_nodes s5) (e_node h) /\
                   (e_node h < length (st_nodes s) \/ c <= e_node h)) /\
        (* the nodes built by the forward pass, ids in [p0+2, f), are reachable through the
           output handle only; the cost nodes, ids in [f, c), from no root at all *)
        (forall h0 m, In h0 (roots s5) -> creach (st_nodes s5) (e_node h0) m ->
                      length (st_nodes s) + 2 <= m -> m < c -> h0 = outk /\ m < f).
  Proof.
    intros s n b s5 Hr Hble Hn H.
    destruct (iteration_shape s n b s5 Hr Hble Hn H)
      as (f & c & outk & [Hf1 Hf2 Hc Hr5 _ Hp5 Ho5 Hok _ Hb0 Hb1 _ _ _ _ Hpar _]).
    set (p0 := length (st_nodes s)) in *.
    exists f, c, outk. repeat (split; [assumption |]).
    split.
    { rewrite Hp5, Hn. rewrite nth_error_app2 by lia.
      replace (length (st_pool s) + 2 - length (st_pool s)) with 2 by lia. reflexivity. }
    split; [exact Hok |]. split; [exact Hpar |].
    intros h0 m Hh0 Hcr Hm1 Hm2.
    pose proof Hr5 as ((Hgd5 & _) & _). pose proof (good_topo s5 Hgd5) as Htopo.
    pose proof Hr as (((_ & Hrv) & _) & _).
    pose proof (creach_le _ _ _ Htopo Hcr) as Hle.
    rewrite roots_eq, Hp5, pool_handles_app, Ho5 in Hh0. simpl in Hh0.
    apply in_app_or in Hh0. destruct Hh0 as [Hh0 | Hh0].
    - apply in_app_or in Hh0. destruct Hh0 as [Hh0 | Hh0].
      + exfalso. pose proof (pool_valid s h0 Hrv Hh0). fold p0 in H0. lia.
      + destruct Hh0 as [Hh0 | [Hh0 | [Hh0 | []]]].
        * subst h0. cbn [e_node mkh] in Hle. lia.
        * subst h0. cbn [e_node mkh] in Hle. lia.
        * subst h0. split; [reflexivity | lia].
    - apply in_app_or in Hh0. destruct Hh0 as [Hh0 | [Hh0 | []]].
      + exfalso. destruct (Hpar h0 Hh0) as [Hl Hcase].
        pose proof (reach_leaf _ _ _ Hl Hcr) as Heq. subst m. fold p0 in Hcase. lia.
      + subst h0. split; [reflexivity | lia].
  Qed.
  (** ** (R2, second part) the target is released as soon as [IModelBackward] returns *)

  Lemma batch_leaf_arr : forall (s : state) h,
      batch_leaf (st_nodes s) (e_node h) -> exists a, h_arr s h = Some a.
  Proof.
    intros s h (nd & Hn & _). exists (pay_arr (n_pay nd)). unfold h_arr, h_node. rewrite Hn. reflexivity.
  Qed.

  Lemma params_eq : forall s : state,
      flat_map (fun l => [l_w l; l_b l]) (st_layers s) = model_params s.
  Proof. reflexivity. Qed.

  Theorem target_released_after_backward : forall (s : state) n b s4,
      ready s -> buf_le (st_nodes s) -> n = length (st_pool s) ->
      exec O s (prog4 n b) = Some s4 ->
      exists ht a,
        var s4 (S n) = Some ht /\ e_node ht = S (length (st_nodes s)) /\ h_arr s4 ht = Some a /\
        strong_count s4 (buf_of (st_nodes s4) (e_node ht)) = 1 /\
        exists s', step O s4 (ITakeVec (S n)) = Some (s', [(7, [], vals a)]).
  Proof.
    intros s n b s4 Hr Hble Hn H4. set (p0 := length (st_nodes s)) in *.
    destruct (before_update_shape s n b s4 Hr Hble Hn H4)
      as (f & outk & [Hf1 Hf2 Ha4 Hp4 Ho4 Hok Hhok Hlay4 Hsk4 Hb0 Hb1 Hi0 Hi1 Hcl _]).
    fold p0 in Hf1, Hp4, Hsk4, Hb0, Hb1, Hi0, Hi1, Hcl, Hhok.
    set (ht := mkh (S p0) false false). set (hx := mkh p0 false false).
    pose proof Ha4 as (Hgd4 & _). pose proof (good_topo s4 Hgd4) as Htopo.
    pose proof Hr as (((_ & Hrv) & _) & _).
    assert (Hpar : model_params s4 = model_params s) by (apply model_params_layers; exact Hlay4).
    assert (Hparlt : forall h, In h (model_params s4) -> e_node h < p0).
    { intros h Hh. rewrite Hpar in Hh. apply (model_params_valid s Hrv h Hh). }
    assert (Hvar : var s4 (S n) = Some ht).
    { rewrite Hn. replace (S (length (st_pool s))) with (length (st_pool s) + 1) by lia.
      rewrite (var_app s4 _ _ 1 Hp4). reflexivity. }
    assert (Hroots : roots s4 = (pool_handles (st_pool s) ++ [hx]) ++ ht ::
                               (outk :: model_params s4 ++ [outk])).
    { rewrite roots_eq, Hp4, pool_handles_app, Ho4, params_eq. simpl. rewrite <- !app_assoc. reflexivity. }
    assert (Hout_ne : e_node outk <> S p0).
    { destruct Hhok as [[Hk | Hk] | Hk]; [lia | | lia].
      apply in_map_iff in Hk. destruct Hk as (h & He & Hh). rewrite <- Hpar in Hh.
      specialize (Hparlt h Hh). lia. }
    assert (Hsc : strong_count s4 (buf_of (st_nodes s4) (e_node ht)) = 1).
    { apply (watch_sole_owner s4 ht _ _ f (length (st_nodes s4)) Hgd4 Hi1 Hb1 Hroots).
      - intros h' Hin. cbn [e_node ht mkh]. apply in_app_or in Hin. destruct Hin as [Hin | Hin].
        + apply in_app_or in Hin. destruct Hin as [Hin | [Hin | []]].
          * pose proof (pool_valid s h' Hrv Hin). fold p0 in H. lia.
          * subst h'. cbn. lia.
        + destruct Hin as [Hin | Hin]; [subst h'; exact Hout_ne |].
          apply in_app_or in Hin. destruct Hin as [Hin | [Hin | []]].
          * specialize (Hparlt h' Hin). lia.
          * subst h'. exact Hout_ne.
      - intros m nd e Hm He Hev. cbn [e_node ht mkh] in Hev.
        assert (Hmlt : m < length (st_nodes s4)) by (eapply nth_lt; exact Hm).
        split; [| exact Hmlt].
        destruct (le_lt_dec f m) as [Hge | Hlt]; [exact Hge | exfalso].
        assert (Hem : e_node e < m).
        { apply Htopo. unfold kids. rewrite Hm. apply in_map. exact He. }
        destruct (le_lt_dec (p0 + 2) m) as [Hge2 | Hlt2]; [| lia].
        destruct (Hcl m nd e Hm Hge2 Hlt He) as [[Hk | Hk] | Hk]; [lia | | lia].
        apply in_map_iff in Hk. destruct Hk as (h & Heq & Hh). rewrite <- Hpar in Hh.
        specialize (Hparlt h Hh). lia.
      - intros h0 m Hh0 Hcr. left.
        assert (Hlt : e_node h0 < f).
        { rewrite Hroots in Hh0. apply in_app_or in Hh0. destruct Hh0 as [Hh0 | Hh0].
          - apply in_app_or in Hh0. destruct Hh0 as [Hh0 | [Hh0 | []]].
            + pose proof (pool_valid s h0 Hrv Hh0). fold p0 in H. lia.
            + subst h0. cbn. lia.
          - destruct Hh0 as [Hh0 | [Hh0 | Hh0]]; [subst h0; cbn; lia | subst h0; exact Hok |].
            apply in_app_or in Hh0. destruct Hh0 as [Hh0 | [Hh0 | []]].
            + specialize (Hparlt h0 Hh0). lia.
            + subst h0. exact Hok. }
        apply (reach_below _ _ _ f Htopo Hlt Hcr). }
    destruct (batch_leaf_arr s4 ht Hb1) as (a & Harr).
    exists ht, a. split; [exact Hvar |]. split; [reflexivity |]. split; [exact Harr |].
    split; [exact Hsc |].
    apply (proj1 (takevec_step O s4 (S n) ht a Hvar Harr) Hsc).
  Qed.

  (** ** (R2) the batch is released once the model has moved on *)

  (** the user drops the result of iteration [k] (slot [n + 2]); the next iteration creates
      its batch and target and runs its forward pass *)
  Definition next_prog (n : nat) (b' : @batch F) : list (@instr F) :=
    [IDrop (n + 2);
     ILeaf (fst (fst b')) (snd (fst b')) false; ILeaf (fst (snd b')) (snd (snd b')) false;
     IForward (n + 6)].

  Lemma app_inj_len : forall {A} (l1 l1' l2 l2' : list A),
      l1 ++ l2 = l1' ++ l2' -> length l1 = length l1' -> l1 = l1' /\ l2 = l2'.
  Proof.
    intros A l1. induction l1 as [|x l1 IH]; intros [|y l1'] l2 l2' H Hl; simpl in *;
      try discriminate.
    - auto.
    - injection H as Hx H. destruct (IH l1' l2 l2' H) as [H1 H2]; [lia |]. subst. auto.
  Qed.

  (** where a root can lead: below [lo] it stays below; a leaf leads nowhere; from an operand
      or a node of a construction closed under [hok] one only meets such nodes *)
  Lemma dead_zone : forall (g : list gnode) (A : nat -> Prop) b lo hi r m,
      topo g ->
      (forall id nd e, nth_error g id = Some nd -> b <= id -> In e (n_children nd) -> hok A b e) ->
      (forall a, A a -> leaf_at g a /\ (a < lo \/ hi <= a)) -> hi <= b ->
      r < lo \/ (leaf_at g r /\ hi <= r) \/ A r \/ b <= r ->
      creach g r m -> m < lo \/ hi <= m.
  Proof.
    intros g A b lo hi r m Ht Hcl HA Hhb [Hr|[[Hl Hr]|Hr]] Hc.
    - left. exact (reach_below g r m lo Ht Hr Hc).
    - right. rewrite (reach_leaf g r m Hl Hc). exact Hr.
    - destruct (reach_closed g A b r m Hcl (fun a Ha => leaf_at_kids g a (proj1 (HA a Ha))) Hr Hc)
        as [Ha|Hb]; [exact (proj2 (HA m Ha))|right; lia].
  Qed.

  (** the watched leaf [hv] (the batch or the target of an iteration begun at node [p0]) is
      released in [S], a state that extends [S5] by the two leaves and the forward pass of the
      next iteration: the nodes [p0 + 2 .. c) of [S5] are reachable from no root of [S], the
      nodes [c ..) of [S5] are leaves, and the new nodes only point to [A] or to each other *)
  Lemma released : forall (s5 sf : state) (A : nat -> Prop) p0 c hv rs1 rs2,
      good s5 -> good sf -> skel_ext (st_nodes s5) (st_nodes sf) ->
      p0 + 2 <= c -> c <= length (st_nodes s5) ->
      p0 <= e_node hv -> e_node hv < p0 + 2 ->
      batch_leaf (st_nodes s5) (e_node hv) -> leaf_at (st_nodes s5) (S p0) ->
      bufinv (e_node hv) (st_nodes sf) ->
      (forall m, c <= m -> m < length (st_nodes s5) -> leaf_at (st_nodes s5) m) ->
      leaf_at (st_nodes sf) (length (st_nodes s5)) ->
      leaf_at (st_nodes sf) (S (length (st_nodes s5))) ->
      (forall m nd e, nth_error (st_nodes sf) m = Some nd -> length (st_nodes s5) + 2 <= m ->
                      In e (n_children nd) -> hok A (length (st_nodes s5) + 2) e) ->
      (forall a, A a -> leaf_at (st_nodes sf) a /\ (a < p0 \/ c <= a)) ->
      roots sf = rs1 ++ hv :: rs2 ->
      (forall h, In h (rs1 ++ rs2) ->
                 (e_node h < p0 + 2 /\ e_node h <> e_node hv) \/
                 e_node h = S (length (st_nodes s5)) \/
                 A (e_node h) \/ length (st_nodes s5) + 2 <= e_node h) ->
      strong_count sf (buf_of (st_nodes sf) (e_node hv)) = 1.
  Proof.
    intros s5 sf A p0 c hv rs1 rs2 Hg5 HgS Hsk Hc1 Hc2 Hv1 Hv2 Hbl Hl1 Hbi Hupd HlL HlSL Hcl HA Hroots Hoth.
    set (L := length (st_nodes s5)) in *. set (v := e_node hv) in *.
    assert (HAv : forall a, A a -> a <> v) by (intros a Ha; destruct (HA a Ha) as [_ [H|H]]; lia).
    apply (watch_sole_owner sf hv rs1 rs2 (p0 + 2) c HgS Hbi (batch_leaf_skel _ _ _ Hsk Hbl) Hroots).
    - intros h' Hin. destruct (Hoth h' Hin) as [[_ H]|[H|[H|H]]]; [exact H|fold v; lia|exact (HAv _ H)|fold v; lia].
    - apply (users_extend (st_nodes s5) (st_nodes sf) v _ _ Hsk).
      + intros m nd e Hm He Hev.
        assert (Hem : e_node e < m)
          by (apply (good_topo s5 Hg5); unfold kids; rewrite Hm; apply in_map; exact He).
        assert (Hch : forall m', leaf_at (st_nodes s5) m' -> m <> m').
        { intros m' (nd' & Hn' & Hc' & _) ->. rewrite Hm in Hn'. injection Hn' as <-.
          rewrite Hc' in He. destruct He. }
        pose proof (nth_lt _ _ _ Hm) as Hml. fold L in Hml. pose proof (Hch _ Hl1) as H1. split.
        * lia.
        * destruct (le_lt_dec c m) as [Hge|Hlt]; [|exact Hlt]. exfalso. exact (Hch m (Hupd m Hge Hml) eq_refl).
      + intros m nd e Hm Hge He Hev. fold L in Hge.
        assert (Hch : forall m', leaf_at (st_nodes sf) m' -> m <> m').
        { intros m' (nd' & Hn' & Hc' & _) ->. rewrite Hm in Hn'. injection Hn' as <-.
          rewrite Hc' in He. destruct He. }
        pose proof (Hch _ HlL) as H1. pose proof (Hch _ HlSL) as H2.
        destruct (Hcl m nd e Hm ltac:(lia) He) as [Ha|Hb]; [exact (HAv _ Ha Hev)|lia].
    - intros h0 m Hh0 Hcr.
      apply (dead_zone (st_nodes sf) A (L + 2) (p0 + 2) c (e_node h0) m (good_topo sf HgS) Hcl); [|lia| |exact Hcr].
      + intros a Ha. destruct (HA a Ha) as [Hl [H|H]]; (split; [exact Hl|lia]).
      + rewrite Hroots in Hh0. apply in_app_or in Hh0.
        assert (Hin : h0 = hv \/ In h0 (rs1 ++ rs2))
          by (destruct Hh0 as [H|[H|H]]; [right; apply in_or_app; left; exact H|left; symmetry; exact H
                                         |right; apply in_or_app; right; exact H]).
        destruct Hin as [->|Hin]; [left; exact Hv2|].
        destruct (Hoth h0 Hin) as [[H _]|[H|[H|H]]]; [left; exact H| |right; right; left; exact H
                                                     |right; right; right; exact H].
        right. left. rewrite H. split; [exact HlSL|lia].
  Qed.

  Theorem batch_released : forall (s : state) n b b' s9,
      ready s -> buf_le (st_nodes s) -> n = length (st_pool s) ->
      exec O s (batch_prog n b ++ next_prog n b') = Some s9 ->
      exists hx ht ax at',
        var s9 n = Some hx /\ var s9 (S n) = Some ht /\
        e_node hx = length (st_nodes s) /\ e_node ht = S (length (st_nodes s)) /\
        h_arr s9 hx = Some ax /\ h_arr s9 ht = Some at' /\
        strong_count s9 (buf_of (st_nodes s9) (e_node hx)) = 1 /\
        strong_count s9 (buf_of (st_nodes s9) (e_node ht)) = 1 /\
        (exists s', step O s9 (ITakeVec n) = Some (s', [(7, [], vals ax)])) /\
        (exists s', step O s9 (ITakeVec (S n)) = Some (s', [(7, [], vals at')])).
  Proof.
    intros s n b b' s9 Hr Hble Hn H. set (p0 := length (st_nodes s)) in *.
    rewrite exec_app in H. revert H. apply obind_elim. intros s5 H5 H.
    destruct (iteration_shape s n b s5 Hr Hble Hn H5)
      as (f & c & outk & [Hf1 Hf2 Hc Hr5 Hble5 Hp5 Ho5 Hok Hsk5 Hb0 Hb1 Hi0 Hi1 Hcl Hupd Hpar5 _]).
    fold p0 in Hf1, Hp5, Hsk5, Hb0, Hb1, Hi0, Hi1, Hcl, Hpar5.
    set (hx := mkh p0 false false) in *. set (ht := mkh (S p0) false false) in *.
    set (P := st_pool s) in *.
    pose proof Hr as (((_ & Hrv) & _) & _).
    change (next_prog n b') with (IDrop (n + 2) :: start3 (n + 6) b') in H. cbn [exec] in H.
    revert H. apply obind_elim. intros [s6 o6] H6 H9. cbn [fst] in H9.
    (* the drop *)
    destruct (drop_step O s5 s6 (n + 2) o6 H6)
      as (Hn6 & Hl6 & Ho6 & x & p1 & p2 & Hpool5 & Hlp1 & Hpool6 & _ & _).
    assert (Hsplit : p1 = P ++ [Some hx; Some ht] /\ Some x :: p2 = [Some outk; None; None]).
    { apply app_inj_len.
      - rewrite <- Hpool5, Hp5, <- app_assoc. reflexivity.
      - rewrite Hlp1, app_length, Hn. reflexivity. }
    destruct Hsplit as [-> Hp2]. injection Hp2 as -> ->.
    assert (Hp6 : st_pool s6 = P ++ [Some hx; Some ht; None; None; None; None])
      by (rewrite Hpool6, <- app_assoc; reflexivity).
    assert (Hr6 : ready s6).
    { apply (ready_transfer s5 s6 Hr5).
      - apply (step_good O s5 (IDrop (n + 2)) s6 o6 (proj1 (proj1 Hr5)) I H6).
      - exact Hl6.
      - intros h _. unfold h_node. rewrite Hn6. reflexivity. }
    assert (Hpar6 : model_params s6 = model_params s5) by (apply model_params_layers; exact Hl6).
    (* the next batch, target and forward pass *)
    destruct (start_shape s6 (n + 6) b' s9 Hr6) as (out & St);
      [rewrite Hn6; exact Hble5|rewrite Hp6, app_length, Hn; reflexivity|exact H9|].
    pose proof (sh_armed _ _ _ St) as Ha9. pose proof (sh_pool _ _ _ St) as Hp9.
    pose proof (sh_out _ _ _ St) as Ho9. pose proof (sh_layers _ _ _ St) as Hlay9.
    pose proof (sh_skel _ _ _ St) as Hsk9. pose proof (sh_batch _ _ _ St) as HbL.
    pose proof (sh_target _ _ _ St) as HbSL. pose proof (sh_hok _ _ _ St) as Hhok.
    pose proof (sh_G _ _ _ St) as HG9. clear St.
    rewrite Hn6 in Hp9, Hsk9, HbL, HbSL, Hhok, HG9. set (L := length (st_nodes s5)) in *.
    assert (Hparne : forall h v, In h (model_params s5) -> p0 <= v -> v < p0 + 2 -> e_node h <> v)
      by (intros h v Hh Hv1 Hv2; destruct (Hpar5 h Hh) as [_ [Hlt | Hge]]; lia).
    assert (HAeq : forall a, Ak s6 L a <-> Ak s5 L a) by (intros a; unfold Ak; rewrite Hpar6; reflexivity).
    assert (HAk : forall a, Ak s6 L a -> leaf_at (st_nodes s9) a /\ (a < p0 \/ c <= a)).
    { intros a [->|Hin].
      - split; [|right; exact Hc]. destruct HbL as (nd & H1 & H2 & H3 & _). exists nd. auto.
      - rewrite Hpar6 in Hin. apply in_map_iff in Hin. destruct Hin as (h & <- & Hh).
        destruct (Hpar5 h Hh) as [Hl Hcase]. split; [exact (leaf_at_skel _ _ _ Hsk9 Hl)|exact Hcase]. }
    assert (Hpar9 : model_params s9 = model_params s5)
      by (rewrite <- Hpar6; apply model_params_layers; exact Hlay9).
    set (hx' := mkh L false false) in *. set (ht' := mkh (S L) false false) in *.
    assert (Hp9' : st_pool s9 = P ++ [Some hx; Some ht; None; None; None; None; Some hx'; Some ht'; Some out])
      by (rewrite Hp9, Hp6, <- app_assoc; reflexivity).
    assert (Hroots : roots s9 = pool_handles P ++ hx :: ht ::
                               ([hx'; ht'; out] ++ model_params s5 ++ [out])).
    { rewrite roots_eq, Hp9', pool_handles_app, Ho9, params_eq, Hpar9. simpl.
      rewrite <- !app_assoc. reflexivity. }
    (* every other root: an old one, the next target, an operand of the next pass or one of its nodes *)
    assert (Hrest : forall h, In h (pool_handles P) \/ In h ([hx'; ht'; out] ++ model_params s5 ++ [out]) ->
                              e_node h < p0 \/ e_node h = S L \/ Ak s6 L (e_node h) \/ L + 2 <= e_node h).
    { intros h [Hin|Hin]; [left; exact (pool_valid s h Hrv Hin)|]. right.
      assert (Hout : Ak s6 L (e_node out) \/ L + 2 <= e_node out) by exact Hhok.
      apply in_app_or in Hin. destruct Hin as [[<-|[<-|[<-|[]]]]|Hin].
      - right. left. left. reflexivity.
      - left. reflexivity.
      - right. exact Hout.
      - apply in_app_or in Hin. destruct Hin as [Hin|[<-|[]]]; [|right; exact Hout].
        right. left. right. rewrite Hpar6. apply in_map. exact Hin. }
    assert (Hsole : forall hv rs1 rs2,
               roots s9 = rs1 ++ hv :: rs2 -> p0 <= e_node hv -> e_node hv < p0 + 2 ->
               batch_leaf (st_nodes s5) (e_node hv) ->
               (forall h, In h (rs1 ++ rs2) ->
                          (e_node h < p0 + 2 /\ e_node h <> e_node hv) \/ e_node h = S L \/
                          Ak s6 L (e_node h) \/ L + 2 <= e_node h) ->
               strong_count s9 (buf_of (st_nodes s9) (e_node hv)) = 1).
    { intros hv rs1 rs2 Hsp Hv1 Hv2 Hbl Hoth.
      apply (released s5 s9 (Ak s6 L) p0 c hv rs1 rs2 (proj1 (proj1 Hr5)) (proj1 Ha9) Hsk9); try assumption.
      - lia.
      - destruct Hb1 as (nd & H1 & H2 & H3 & _). exists nd. auto.
      - refine (proj2 (HG9 (e_node hv) _ _)).
        + assert (e_node hv = p0 \/ e_node hv = S p0) as [->| ->] by lia; assumption.
        + intros h Hh. rewrite Hpar6 in Hh. exact (Hparne h _ Hh Hv1 Hv2).
      - destruct HbL as (nd & H1 & H2 & H3 & _). exists nd. auto.
      - destruct HbSL as (nd & H1 & H2 & H3 & _). exists nd. auto.
      - exact (proj1 (HG9 p0 Hi0 (fun h Hh => Hparne h p0 ltac:(rewrite <- Hpar6; exact Hh) (le_n _) ltac:(lia)))). }
    destruct (batch_leaf_arr s9 hx (batch_leaf_skel _ _ _ Hsk9 Hb0)) as (ax & Hax).
    destruct (batch_leaf_arr s9 ht (batch_leaf_skel _ _ _ Hsk9 Hb1)) as (at' & Hat).
    assert (Hvarx : var s9 n = Some hx).
    { rewrite Hn. fold P. replace (length P) with (length P + 0) by lia.
      rewrite (var_app s9 P _ 0 Hp9'). reflexivity. }
    assert (Hvart : var s9 (S n) = Some ht).
    { rewrite Hn. fold P. replace (S (length P)) with (length P + 1) by lia.
      rewrite (var_app s9 P _ 1 Hp9'). reflexivity. }
    assert (Hscx : strong_count s9 (buf_of (st_nodes s9) (e_node hx)) = 1).
    { apply (Hsole hx (pool_handles P) (ht :: [hx'; ht'; out] ++ model_params s5 ++ [out]) Hroots);
        [apply le_n|cbn; lia|exact Hb0|].
      intros h Hin. apply in_app_or in Hin. destruct Hin as [Hin|[<-|Hin]].
      - destruct (Hrest h (or_introl Hin)) as [H|H]; [left; cbn; lia|right; exact H].
      - left. cbn. lia.
      - destruct (Hrest h (or_intror Hin)) as [H|H]; [left; cbn; lia|right; exact H]. }
    assert (Hsct : strong_count s9 (buf_of (st_nodes s9) (e_node ht)) = 1).
    { apply (Hsole ht (pool_handles P ++ [hx]) ([hx'; ht'; out] ++ model_params s5 ++ [out]));
        [rewrite Hroots, <- app_assoc; reflexivity|cbn; lia|cbn; lia|exact Hb1|].
      intros h Hin. apply in_app_or in Hin. destruct Hin as [Hin|Hin].
      - apply in_app_or in Hin. destruct Hin as [Hin|[<-|[]]]; [|left; cbn; lia].
        destruct (Hrest h (or_introl Hin)) as [H|H]; [left; cbn; lia|right; exact H].
      - destruct (Hrest h (or_intror Hin)) as [H|H]; [left; cbn; lia|right; exact H]. }
    exists hx, ht, ax, at'.
    split; [exact Hvarx |]. split; [exact Hvart |]. split; [reflexivity |]. split; [reflexivity |].
    split; [exact Hax |]. split; [exact Hat |]. split; [exact Hscx |]. split; [exact Hsct |].
    split.
    - apply (proj1 (takevec_step O s9 n hx ax Hvarx Hax) Hscx).
    - apply (proj1 (takevec_step O s9 (S n) ht at' Hvart Hat) Hsct).
  Qed.
  (** ** (R3) before the next forward the batch is still held *)

  (** right after the iteration, the model output still reaches the node of the first layer,
      whose child entry is the batch: a second owner.  This needs the first layer to RECORD
      its input: a dense layer always does (the weight is tracked, so the product node keeps
      all its operands); a convolutional first layer does not record an untracked input (the
      unrolled copy is a childless node), see [TrainExamples2.conv_first_layer_not_recorded]. *)
  Theorem batch_still_held : forall (s : state) n b s5 l ls,
      ready s -> buf_le (st_nodes s) -> n = length (st_pool s) ->
      st_layers s = l :: ls -> l_conv l = None ->
      exec O s (batch_prog n b) = Some s5 ->
      exists hx, var s5 n = Some hx /\ e_node hx = length (st_nodes s) /\
                 2 <= strong_count s5 (buf_of (st_nodes s5) (e_node hx)) /\
                 step O s5 (ITakeVec n) = None.
  Proof.
    intros s n b s5 l ls Hr Hble Hn Hls Hd H. set (p0 := length (st_nodes s)) in *.
    destruct (iteration_shape s n b s5 Hr Hble Hn H) as (f & c & outk & It).
    pose proof (it_ready _ _ _ _ _ It) as Hr5. pose proof (it_pool _ _ _ _ _ It) as Hp5.
    pose proof (it_out _ _ _ _ _ It) as Ho5. pose proof (it_batch _ _ _ _ _ It) as Hb0.
    pose proof (it_linked _ _ _ _ _ It) as Hlink.
    fold p0 in Hp5, Hb0, Hlink.
    set (hx := mkh p0 false false) in *.
    assert (Hvar : var s5 n = Some hx).
    { rewrite Hn. replace (length (st_pool s)) with (length (st_pool s) + 0) by lia.
      rewrite (var_app s5 _ _ 0 Hp5). reflexivity. }
    destruct (Hlink l ls Hls Hd) as (m & nd & e & Hc & Hm & He & Hx).
    assert (Hge : 2 <= strong_count s5 (buf_of (st_nodes s5) (e_node hx))).
    { apply (root_and_entry_ge2 s5 hx outk m nd e).
      - rewrite roots_eq, Hp5, pool_handles_app. apply in_or_app. left. apply in_or_app. right.
        left. reflexivity.
      - reflexivity.
      - rewrite roots_eq, Ho5. apply in_or_app. right. apply in_or_app. right. left. reflexivity.
      - exact Hc.
      - exact Hm.
      - exact He.
      - rewrite Hx. reflexivity. }
    destruct (batch_leaf_arr s5 hx Hb0) as (a & Harr).
    exists hx. split; [exact Hvar |]. split; [reflexivity |]. split; [exact Hge |].
    apply (proj2 (takevec_step O s5 n hx a Hvar Harr)). lia.
  Qed.
End Release.

Section Loop.
  Context {F : Type} (O : ScalarOps F).

  Local Notation state := (@Program.state F).

  (** an iteration followed by the drop of its forward result *)
  Definition iter_prog (n : nat) (b : @batch F) : list (@instr F) :=
    batch_prog n b ++ [IDrop (n + 2)].

  Fixpoint loop_prog (n : nat) (bs : list (@batch F)) : list (@instr F) :=
    match bs with
    | [] => []
    | b :: bs' => iter_prog n b ++ loop_prog (n + 6) bs'
    end.

  (** the hypotheses of the release theorems are an invariant of the loop *)
  Theorem iter_prog_inv : forall (s : state) n b s6,
      ready s -> buf_le (st_nodes s) -> n = length (st_pool s) ->
      exec O s (iter_prog n b) = Some s6 ->
      ready s6 /\ buf_le (st_nodes s6) /\ length (st_pool s6) = n + 6.
  Proof.
    intros s n b s6 Hr Hble Hn H. unfold iter_prog in H. rewrite exec_app in H.
    revert H. apply obind_elim. intros s5 H5 H. cbn [exec] in H.
    revert H. apply obind_elim. intros [s6' o6] H6 H. cbn [fst] in H.
    injection H as H. subst s6'.
    destruct (iteration_shape O s n b s5 Hr Hble Hn H5) as (f & c & outk & It).
    pose proof (it_ready _ _ _ _ _ It) as Hr5. pose proof (it_ble _ _ _ _ _ It) as Hble5.
    pose proof (it_pool _ _ _ _ _ It) as Hp5.
    destruct (drop_step O s5 s6 (n + 2) o6 H6)
      as (Hn6 & Hl6 & Ho6 & x & p1 & p2 & Hpool5 & Hlp1 & Hpool6 & _ & _).
    split; [| split].
    - apply (ready_transfer s5 s6 Hr5).
      + apply (step_good O s5 (IDrop (n + 2)) s6 o6 (proj1 (proj1 Hr5)) I H6).
      + exact Hl6.
      + intros h _. unfold h_node. rewrite Hn6. reflexivity.
    - rewrite Hn6. exact Hble5.
    - assert (Hlen5 : length (st_pool s5) = n + 5).
      { rewrite Hp5, app_length, Hn. simpl. reflexivity. }
      rewrite Hpool5 in Hlen5. rewrite Hpool6.
      rewrite !app_length in *. cbn [length] in *. rewrite app_length. cbn [length]. lia.
  Qed.

  Theorem loop_prog_inv : forall bs (s : state) n s',
      ready s -> buf_le (st_nodes s) -> n = length (st_pool s) ->
      exec O s (loop_prog n bs) = Some s' ->
      ready s' /\ buf_le (st_nodes s') /\ length (st_pool s') = n + 6 * length bs.
  Proof.
    intro bs. induction bs as [|b bs IH]; intros s n s' Hr Hble Hn H.
    - injection H as H. subst s'. split; [exact Hr |]. split; [exact Hble |]. simpl. lia.
    - cbn [loop_prog] in H. rewrite exec_app in H.
      revert H. apply obind_elim. intros s6 H6 H.
      destruct (iter_prog_inv s n b s6 Hr Hble Hn H6) as (Hr6 & Hble6 & Hlen6).
      destruct (IH s6 (n + 6) s' Hr6 Hble6 (eq_sym Hlen6) H) as (Hr' & Hble' & Hlen').
      split; [exact Hr' |]. split; [exact Hble' |]. rewrite Hlen'. cbn [length]. lia.
  Qed.

  (** (R2) at every iteration of the loop, whatever happened in the earlier ones *)
  Theorem every_batch_released : forall bs (s : state) n sk b b' s9,
      ready s -> buf_le (st_nodes s) -> n = length (st_pool s) ->
      exec O s (loop_prog n bs) = Some sk ->
      let nk := n + 6 * length bs in
      exec O sk (batch_prog nk b ++ next_prog nk b') = Some s9 ->
      exists hx ht ax at',
        var s9 nk = Some hx /\ var s9 (S nk) = Some ht /\
        e_node hx = length (st_nodes sk) /\ e_node ht = S (length (st_nodes sk)) /\
        h_arr s9 hx = Some ax /\ h_arr s9 ht = Some at' /\
        strong_count s9 (buf_of (st_nodes s9) (e_node hx)) = 1 /\
        strong_count s9 (buf_of (st_nodes s9) (e_node ht)) = 1 /\
        (exists s', step O s9 (ITakeVec nk) = Some (s', [(7, [], vals ax)])) /\
        (exists s', step O s9 (ITakeVec (S nk)) = Some (s', [(7, [], vals at')])).
  Proof.
    intros bs s n sk b b' s9 Hr Hble Hn Hk nk H9.
    destruct (loop_prog_inv bs s n sk Hr Hble Hn Hk) as (Hrk & Hblek & Hlenk).
    apply (batch_released O sk nk b b' s9 Hrk Hblek (eq_sym Hlenk) H9).
  Qed.
End Loop.

(** * Examples over exact integers: the model of [TrainExamples] *)

From Coq Require Import ZArith.

Module TrainExamples2.
  Import TrainExamples.
  Open Scope Z_scope.

  Definition b1 : @batch Z := (([1%nat; 2%nat], [1; 2]), ([1%nat; 1%nat], [10])).
  Definition b2 : @batch Z := (([1%nat; 2%nat], [1; 1]), ([1%nat; 1%nat], [0])).

  Definition panics (p : list (@instr Z)) : bool := snd (run Z_ops p).

  (** right after the first iteration, taking the buffer of its batch (slot 1) panics, while
      its target (slot 2) can already be taken -- even before the update *)
  Example batch_held_before_next_forward :
    panics (net :: batch_prog 1 b1 ++ [ITakeVec 1]) = true /\
    panics (net :: batch_prog 1 b1 ++ [ITakeVec 2]) = false /\
    panics (net :: prog4 1 b1 ++ [ITakeVec 2]) = false.
  Proof. vm_compute. auto. Qed.

  (** once the result is dropped and the second forward has run, both can be taken *)
  Example batch_free_after_next_forward :
    panics (net :: batch_prog 1 b1 ++ next_prog 1 b2 ++ [ITakeVec 1]) = false /\
    panics (net :: batch_prog 1 b1 ++ next_prog 1 b2 ++ [ITakeVec 2]) = false.
  Proof. vm_compute. auto. Qed.

  (** the theorems apply to this run: the state after construction satisfies their
      hypotheses *)
  Example release_theorems_instance :
    exists s1 o1 s9 hx ax s',
      step Z_ops (init_state Z_ops) net = Some (s1, o1) /\
      ready s1 /\ buf_le (st_nodes s1) /\ length (st_pool s1) = 1%nat /\
      exec Z_ops s1 (batch_prog 1 b1 ++ next_prog 1 b2) = Some s9 /\
      var s9 1 = Some hx /\ h_arr s9 hx = Some ax /\ vals ax = [1; 2] /\
      strong_count s9 (buf_of (st_nodes s9) (e_node hx)) = 1%nat /\
      step Z_ops s9 (ITakeVec 1) = Some (s', [(7%nat, [], [1; 2])]).
  Proof.
    assert (H1 : exists s1 o1, step Z_ops (init_state Z_ops) net = Some (s1, o1))
      by (vm_compute; eexists; eexists; reflexivity).
    destruct H1 as (s1 & o1 & H1).
    assert (Hr1 : ready s1)
      by (apply (model_construction_ready Z_ops _ _ _ _ _ _ (good_init Z_ops) H1)).
    assert (Hfacts : buf_le (st_nodes s1) /\ length (st_pool s1) = 1%nat /\
                     exists s9, exec Z_ops s1 (batch_prog 1 b1 ++ next_prog 1 b2) = Some s9).
    { vm_compute in H1. injection H1 as H1 _. subst s1. split; [| split].
      - intros id nd Hn. destruct id as [|[|id]]; cbn in Hn.
        + injection Hn as Hn. subst nd. cbn. lia.
        + injection Hn as Hn. subst nd. cbn. lia.
        + destruct id; discriminate Hn.
      - reflexivity.
      - vm_compute. eexists. reflexivity. }
    destruct Hfacts as (Hble & Hlen & s9 & H9).
    destruct (batch_released Z_ops s1 1 b1 b2 s9 Hr1 Hble (eq_sym Hlen) H9)
      as (hx & ht & ax & at' & Hvx & _ & Hex & _ & Hax & _ & Hscx & _ & (s' & Hstep) & _).
    assert (Hvals : vals ax = [1; 2]).
    { clear Hstep Hscx. vm_compute in H1. injection H1 as H1 _. subst s1.
      vm_compute in H9. injection H9 as H9. subst s9.
      vm_compute in Hvx. injection Hvx as Hvx. subst hx.
      vm_compute in Hax. injection Hax as Hax. subst ax. reflexivity. }
    rewrite Hvals in Hstep.
    exists s1, o1, s9, hx, ax, s'. repeat (split; [assumption |]). exact Hstep.
  Qed.

  (** a convolutional first layer does not record an untracked input: right after the
      iteration the batch can be taken (so (R3) needs a dense first layer) *)
  Definition cnet : @instr Z := IModel [LConv 1 1 1 1 1 1 ANone [3] [1]] CMse 1.
  Definition cb : @batch Z := (([1%nat; 1%nat; 1%nat], [2]), ([1%nat; 1%nat; 1%nat], [5])).

  Example conv_first_layer_not_recorded :
    panics (cnet :: batch_prog 1 cb ++ [ITakeVec 1]) = false.
  Proof. vm_compute. reflexivity. Qed.
End TrainExamples2.

Print Assumptions model_forward_G.
Print Assumptions cost_apply_G.
Print Assumptions watch_sole_owner.
Print Assumptions before_update_shape.
Print Assumptions iteration_shape.
Print Assumptions iteration_reachability.
Print Assumptions target_released_after_backward.
Print Assumptions batch_released.
Print Assumptions model_forward_linked.
Print Assumptions batch_still_held.
Print Assumptions loop_prog_inv.
Print Assumptions every_batch_released.
Print Assumptions TrainExamples2.batch_held_before_next_forward.
Print Assumptions TrainExamples2.batch_free_after_next_forward.
Print Assumptions TrainExamples2.release_theorems_instance.
Print Assumptions TrainExamples2.conv_first_layer_not_recorded.
