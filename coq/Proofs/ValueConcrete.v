(** The value theorem [pass_value] ([Proofs/EngineValue.v]) for the concrete engine.

    The hypotheses of [EngineValue.Section Value] quantify over all adjoint values and are
    false for [Program.E O] ([HistoryInv.add_ok_false]).  We therefore instantiate them on a
    repaired instance [E'] that differs from [E O] only outside the values a pass ever sees:

    - [eo_add E' x y] is the pointwise sum [padd x y] of two well-formed arrays of equal
      dimensions, and [Some x] otherwise (so it is total);
    - [eo_flat E' d p] is [flatten_to] on well-formed [d], and fails otherwise;
    - [eo_ones], [eo_hasop], [eo_bop] are those of [E O].

    [E'] satisfies the hypotheses unconditionally (with the shape function [sh] that
    separates ill-formed arrays), and every successful pass of [E O] on a sound store
    ([HistoryInv.store_good]) is the pass of [E'] with the same result
    ([Proofs/EngineAgree.v]).  Hence [pass_value] holds for the passes of the concrete
    engine, the declarative table being the one of [E']. *)

From Coq Require Import List Arith Bool Lia PeanoNat.
From Corgi Require Import Lib.OptionMonad Lib.Sums Model.Scalar Model.Arr Model.SlicedOp
     Model.Elementwise Model.Ops Model.Engine Model.Program
     Proofs.ArrFacts Proofs.EngineDefs Proofs.EngineBase Proofs.EngineInv Proofs.AdjointSpec
     Proofs.EnginePred Proofs.EngineAgree Proofs.EngineValue Proofs.FlattenSpec Proofs.OpsWf
     Proofs.HistoryInv.
Import ListNotations.

Section Zip.
  Context {A : Type}.
  Variable f : A -> A -> A.

  Definition zipw (a b : list A) : list A := map (fun p => f (fst p) (snd p)) (combine a b).

  Lemma zipw_length : forall a b, length (zipw a b) = Nat.min (length a) (length b).
  Proof. intros a b. unfold zipw. rewrite map_length, combine_length. reflexivity. Qed.

  Lemma zipw_comm : (forall x y, f x y = f y x) -> forall a b, zipw a b = zipw b a.
  Proof. exact (zip_comm f). Qed.

  Lemma zipw_assoc : (forall x y z, f x (f y z) = f (f x y) z) ->
                     forall a b c, zipw (zipw a b) c = zipw a (zipw b c).
  Proof. exact (zip_assoc f). Qed.
End Zip.

Section ValueConcrete.
  Context {F : Type} (O : ScalarOps F) (R : is_cring O).

  Local Notation pay := (@pay F).
  Local Notation gnode := (@gnode F).
  Local Notation E := (Program.E O).

  Definition wfb (x : arr F) : bool := dims_valid (dims x) && (prod (dims x) =? length (vals x)).

  Lemma wfb_spec : forall x, wfb x = true <-> wf x.
  Proof.
    intro x. unfold wfb, wf. rewrite andb_true_iff, dims_valid_spec, Nat.eqb_eq. tauto.
  Qed.

  Lemma wfb_false : forall x, wfb x = false -> ~ wf x.
  Proof. intros x H Hw. apply wfb_spec in Hw. congruence. Qed.

  Definition padd (x y : arr F) : arr F :=
    {| dims := dims x; vals := zipw (fadd O) (vals x) (vals y) |}.

  Definition add' (x y : arr F) : option (arr F) :=
    if wfb x && wfb y && dims_eqb (dims x) (dims y) then Some (padd x y) else Some x.

  Definition flat' (d : arr F) (p : pay) : option (arr F) :=
    if wfb d then flatten_to O d (p_dims p) else None.

  Definition E' : eops pay (arr F) := {|
    eo_ones := eo_ones E;
    eo_flat := flat';
    eo_add := add';
    eo_hasop := eo_hasop E;
    eo_bop := eo_bop E |}.

  (** shapes: the dimensions of a well-formed array; an ill-formed array is alone in its class *)
  Definition shape : Type := (list nat + arr F)%type.
  Definition sh (x : arr F) : shape := if wfb x then inl (dims x) else inr x.
  Definition psh (p : pay) : shape := inl (p_dims p).

  Lemma sh_wf : forall x, wf x -> sh x = inl (dims x).
  Proof. intros x H. unfold sh. apply wfb_spec in H. rewrite H. reflexivity. Qed.

  Lemma sh_inl : forall x d, sh x = inl d -> wf x /\ dims x = d.
  Proof.
    intros x d H. unfold sh in H. destruct (wfb x) eqn:Hw; [| discriminate H].
    injection H as H. split; [apply wfb_spec; exact Hw | exact H].
  Qed.

  Lemma sh_eq_cases : forall x y,
      sh x = sh y -> (wf x /\ wf y /\ dims x = dims y) \/ (wfb x = false /\ y = x).
  Proof.
    intros x y H. unfold sh in H.
    destruct (wfb x) eqn:Hx; destruct (wfb y) eqn:Hy; try discriminate H.
    - left. injection H as H. split; [apply wfb_spec; exact Hx |]. split; [apply wfb_spec; exact Hy | exact H].
    - right. injection H as H. split; [reflexivity | symmetry; exact H].
  Qed.

  Lemma padd_wf : forall x y, wf x -> wf y -> dims x = dims y -> wf (padd x y) /\ dims (padd x y) = dims x.
  Proof. intros x y Hx Hy Hd. split; [exact (psum_wf O x y Hx Hy Hd) | reflexivity]. Qed.

  Lemma add'_wf : forall x y, wf x -> wf y -> dims x = dims y -> add' x y = Some (padd x y).
  Proof.
    intros x y Hx Hy Hd. unfold add'.
    apply wfb_spec in Hx. apply wfb_spec in Hy. apply dims_eqb_spec in Hd.
    rewrite Hx, Hy, Hd. reflexivity.
  Qed.

  Lemma add'_bad : forall x y, wfb x = false -> add' x y = Some x.
  Proof. intros x y H. unfold add'. rewrite H. reflexivity. Qed.

  Lemma padd_comm : forall x y, dims x = dims y -> padd x y = padd y x.
  Proof.
    intros x y Hd. unfold padd. rewrite Hd. f_equal. apply zipw_comm. apply (cr_add_comm O R).
  Qed.

  Lemma padd_assoc : forall x y z, padd (padd x y) z = padd x (padd y z).
  Proof.
    intros x y z. unfold padd. cbn [dims vals]. f_equal. apply zipw_assoc. apply (cr_add_assoc O R).
  Qed.

  Lemma add_ok' : forall x y, sh x = sh y -> exists z, eo_add E' x y = Some z /\ sh z = sh x.
  Proof.
    intros x y H. destruct (sh_eq_cases x y H) as [(Hx & Hy & Hd) | (Hx & Hy)].
    - exists (padd x y). split; [apply add'_wf; assumption |].
      destruct (padd_wf x y Hx Hy Hd) as [Hw Hdp]. rewrite (sh_wf _ Hw), (sh_wf _ Hx), Hdp. reflexivity.
    - subst y. exists x. split; [apply add'_bad; exact Hx | reflexivity].
  Qed.

  Lemma add_comm' : forall x y, sh x = sh y -> eo_add E' x y = eo_add E' y x.
  Proof.
    intros x y H. destruct (sh_eq_cases x y H) as [(Hx & Hy & Hd) | (Hx & Hy)].
    - cbn [eo_add E']. rewrite (add'_wf x y Hx Hy Hd), (add'_wf y x Hy Hx (eq_sym Hd)).
      f_equal. apply padd_comm. exact Hd.
    - subst y. reflexivity.
  Qed.

  Lemma add_assoc' : forall x y z xy yz,
      sh x = sh y -> sh y = sh z ->
      eo_add E' x y = Some xy -> eo_add E' y z = Some yz -> eo_add E' xy z = eo_add E' x yz.
  Proof.
    intros x y z xy yz Hxy Hyz H1 H2. cbn [eo_add E'] in *.
    destruct (sh_eq_cases x y Hxy) as [(Hx & Hy & Hd) | (Hx & Hy)].
    - destruct (sh_eq_cases y z Hyz) as [(_ & Hz & Hd2) | (Hyb & _)];
        [| apply wfb_spec in Hy; congruence].
      rewrite (add'_wf x y Hx Hy Hd) in H1. injection H1 as H1. subst xy.
      rewrite (add'_wf y z Hy Hz Hd2) in H2. injection H2 as H2. subst yz.
      destruct (padd_wf x y Hx Hy Hd) as [Hw1 Hd1'].
      destruct (padd_wf y z Hy Hz Hd2) as [Hw2 Hd2'].
      rewrite (add'_wf (padd x y) z Hw1 Hz) by congruence.
      rewrite (add'_wf x (padd y z) Hx Hw2) by congruence.
      f_equal. apply padd_assoc.
    - subst y. destruct (sh_eq_cases x z Hyz) as [(Hxw & _) | (_ & Hz)];
        [apply wfb_spec in Hxw; congruence |].
      subst z. rewrite (add'_bad x x Hx) in H1, H2.
      injection H1 as H1. injection H2 as H2. subst xy yz. reflexivity.
  Qed.

  Lemma flat_sh' : forall d p d', eo_flat E' d p = Some d' -> sh d' = psh p.
  Proof.
    intros d p d' H. cbn [eo_flat E'] in H. unfold flat' in H.
    destruct (wfb d) eqn:Hd; [| discriminate H]. apply wfb_spec in Hd.
    destruct (flatten_to_shape O d d' _ Hd H) as [Hw Hdd].
    rewrite (sh_wf _ Hw), Hdd. reflexivity.
  Qed.

  Lemma ones_sh' : forall p, wf (pay_arr p) -> sh (eo_ones E' p) = psh p.
  Proof.
    intros p Hp. destruct (wf_ones O p Hp) as [Hw Hd].
    cbn [eo_ones E']. rewrite (sh_wf _ Hw). unfold psh. rewrite Hd. reflexivity.
  Qed.

  Lemma agree_flat : forall d (p : pay) d',
      wf d -> eo_flat E d p = Some d' -> eo_flat E' d p = Some d'.
  Proof.
    intros d p d' Hd H. cbn [eo_flat E']. unfold flat'. apply wfb_spec in Hd. rewrite Hd. exact H.
  Qed.

  Lemma a_add_padd : forall x y z,
      wf x -> wf y -> dims x = dims y -> a_add O x y = Some z -> z = padd x y.
  Proof.
    intros x y z Hx Hy Hd Hz. rewrite (a_add_psum O x y Hx Hy Hd) in Hz.
    destruct (dims x); [discriminate Hz | injection Hz as <-; reflexivity].
  Qed.

  Lemma agree_add : forall (p : pay) x y z,
      grad_ok p x -> grad_ok p y -> eo_add E x y = Some z -> eo_add E' x y = Some z.
  Proof.
    intros p x y z [Hx Hdx] [Hy Hdy] Hz. cbn [eo_add E' Program.E] in *.
    assert (Hd : dims x = dims y) by congruence.
    rewrite (add'_wf x y Hx Hy Hd). f_equal. symmetry. apply a_add_padd; assumption.
  Qed.

  Theorem run_backward_E' : forall (g : list gnode) r keep seed res,
      store_good g ->
      (forall sd nd, seed = Some sd -> nth_error g r = Some nd -> grad_ok (n_pay nd) sd) ->
      run_backward E g r keep seed = Some res -> run_backward E' g r keep seed = Some res.
  Proof.
    intros g r keep seed res Hg Hseed Hrun.
    exact (run_backward_agree E E' (fun p : pay => wf (pay_arr p)) (@wf F) grad_ok
                              (fun p x H => proj1 H) (wf_ones O) (bop_out_wf O) (flat_grad_ok O)
                              (add_grad_ok O) eq_refl eq_refl eq_refl agree_flat agree_add
                              g r keep seed res (store_good_vinv g Hg) Hseed Hrun).
  Qed.

  Lemma wfg_E' : forall g : list gnode, wfg E g -> wfg E' g.
  Proof. intros g H. exact H. Qed.

  Lemma contract_E' : forall g : list gnode, bop_contract E g -> bop_contract E' g.
  Proof. intros g H. exact H. Qed.

  (** what a successful pass of [E O] on a sound store has to do with the adjoint table [tab]
      of [E'] *)
  Record pass_table (g : list gnode) (r : nat) (keep : bool) (s0 : arr F) (ndr : gnode)
         (g' : list gnode) (log : @trace (arr F)) (tab : table) : Prop := {
    pt_adjoints : adjoints E' g r s0 = Some tab;
    pt_length : length tab = length g;
    pt_root : nth_error tab r = Some (Some s0);
    pt_log : forall id delta, In (id, delta) log -> nth_error tab id = Some (Some delta);
    pt_reach : forall id, id < length g -> (nth id tab None <> None <-> EngineDefs.reach g r id);
    pt_ok : forall id nd delta, nth_error g id = Some nd ->
        nth_error tab id = Some (Some delta) -> grad_ok (n_pay nd) delta;
    pt_slot : forall id nd nd', nth_error g id = Some nd -> nth_error g' id = Some nd' ->
        n_grad nd' = n_grad nd \/
        exists delta, nth_error tab id = Some (Some delta) /\
                      stored E' (n_grad nd) delta (n_grad nd');
    pt_leaf : forall id nd nd' delta, nth_error g id = Some nd -> nth_error g' id = Some nd' ->
        nth_error tab id = Some (Some delta) -> n_children nd = [] ->
        stored E' (n_grad nd) delta (n_grad nd');
    pt_rootslot : forall ndr', nth_error g' r = Some ndr' ->
        (keep = true \/ n_children ndr = [] -> stored E' (n_grad ndr) s0 (n_grad ndr')) /\
        (keep = false -> n_children ndr <> [] -> n_grad ndr' = n_grad ndr);
    pt_kept : forall id nd nd' delta, nth_error g id = Some nd -> nth_error g' id = Some nd' ->
        id <> r -> nth_error tab id = Some (Some delta) ->
        (forall p ndp e, EngineDefs.reach g r p -> nth_error g p = Some ndp ->
                         In e (n_children ndp) ->
                         e_tracked e = true -> e_node e = id -> e_keep e = true) ->
        stored E' (n_grad nd) delta (n_grad nd');
    pt_notkept : forall id nd nd', nth_error g id = Some nd -> nth_error g' id = Some nd' ->
        id <> r -> n_children nd <> [] ->
        (forall p ndp e, EngineDefs.reach g r p -> nth_error g p = Some ndp ->
                         In e (n_children ndp) ->
                         e_tracked e = true -> e_node e = id -> e_keep e = false) ->
        n_grad nd' = n_grad nd;
    pt_good : store_good g'
  }.

  Theorem pass_value_table : forall (g : list gnode) r keep seed s0 ndr g' log,
      store_good g -> r < length g -> nth_error g r = Some ndr ->
      seed_of E g r seed = Some s0 ->
      (forall sd, seed = Some sd -> grad_ok (n_pay ndr) sd) ->
      run_backward E g r keep seed = Some (g', log) ->
      run_backward E' g r keep seed = Some (g', log) /\
      grad_ok (n_pay ndr) s0 /\ exists tab, pass_table g r keep s0 ndr g' log tab.
  Proof.
    intros g r keep seed s0 ndr g' log Hg Hr Hndr Hseed Hsd Hrun.
    assert (Hs0 : grad_ok (n_pay ndr) s0).
    { unfold seed_of in Hseed. destruct seed as [sd|].
      - injection Hseed as Hseed. subst sd. apply Hsd. reflexivity.
      - revert Hseed. apply obind_elim. intros nd Hnd Hseed.
        assert (Heq : nd = ndr) by (unfold Program.gnode in *; congruence). subst nd.
        injection Hseed as Hseed. subst s0.
        apply (wf_ones O). exact (store_good_val g r ndr Hg Hndr). }
    assert (Hseed' : forall sd nd, seed = Some sd -> nth_error g r = Some nd -> grad_ok (n_pay nd) sd).
    { intros sd nd Hs Hnd. rewrite Hndr in Hnd. injection Hnd as Hnd. subst nd. apply Hsd. exact Hs. }
    pose proof (run_backward_E' g r keep seed (g', log) Hg Hseed' Hrun) as Hrun'.
    split; [exact Hrun' |]. split; [exact Hs0 |].
    destruct (pass_good O g r keep seed g' log Hg Hr Hseed' Hrun) as [Hg' _].
    destruct (pass_value E' shape sh psh add_ok' add_comm' add_assoc' flat_sh'
                         g r keep seed s0 ndr g' log
                         (wfg_E' g (store_good_wfg O g Hg)) (store_good_clean g Hg)
                         (contract_E' g (store_good_contract O g Hg)) Hr Hndr)
      as (tab & H0 & H1 & H2 & H3 & H4 & H5 & H6 & H7 & H8 & H9 & H10 & _).
    - exact Hseed.
    - destruct Hs0 as [Hw Hd]. rewrite (sh_wf _ Hw). unfold psh. rewrite Hd. reflexivity.
    - intros id nd x Hnd Hx. destruct (store_good_grad g id nd Hg Hnd x Hx) as [Hw Hd]. rewrite (sh_wf _ Hw). unfold psh. rewrite Hd. reflexivity.
    - exact Hrun'.
    - exists tab. constructor; try assumption.
      intros id nd delta Hnd Ht. specialize (H5 id nd delta Hnd Ht).
      unfold psh in H5. apply sh_inl in H5. exact H5.
  Qed.

  Theorem pass_value_concrete : forall (g : list gnode) r keep seed s0 ndr g' log,
      store_good g -> r < length g -> nth_error g r = Some ndr ->
      seed_of E g r seed = Some s0 ->
      (forall sd, seed = Some sd -> grad_ok (n_pay ndr) sd) ->
      run_backward E g r keep seed = Some (g', log) ->
      run_backward E' g r keep seed = Some (g', log) /\
      grad_ok (n_pay ndr) s0 /\
      exists tab, adjoints E' g r s0 = Some tab /\ length tab = length g /\
        nth_error tab r = Some (Some s0) /\
        (forall id delta, In (id, delta) log -> nth_error tab id = Some (Some delta)) /\
        (forall id, id < length g -> (nth id tab None <> None <-> EngineDefs.reach g r id)) /\
        (forall id nd delta, nth_error g id = Some nd ->
             nth_error tab id = Some (Some delta) -> grad_ok (n_pay nd) delta) /\
        (forall id nd nd', nth_error g id = Some nd -> nth_error g' id = Some nd' ->
             n_grad nd' = n_grad nd \/
             exists delta, nth_error tab id = Some (Some delta) /\
                           stored E' (n_grad nd) delta (n_grad nd')) /\
        (forall id nd nd' delta, nth_error g id = Some nd -> nth_error g' id = Some nd' ->
             nth_error tab id = Some (Some delta) -> n_children nd = [] ->
             stored E' (n_grad nd) delta (n_grad nd')) /\
        (forall ndr', nth_error g' r = Some ndr' ->
             (keep = true \/ n_children ndr = [] -> stored E' (n_grad ndr) s0 (n_grad ndr')) /\
             (keep = false -> n_children ndr <> [] -> n_grad ndr' = n_grad ndr)) /\
        (forall id nd nd' delta, nth_error g id = Some nd -> nth_error g' id = Some nd' ->
             id <> r -> nth_error tab id = Some (Some delta) ->
             (forall p ndp e, EngineDefs.reach g r p -> nth_error g p = Some ndp ->
                              In e (n_children ndp) ->
                              e_tracked e = true -> e_node e = id -> e_keep e = true) ->
             stored E' (n_grad nd) delta (n_grad nd')) /\
        (forall id nd nd', nth_error g id = Some nd -> nth_error g' id = Some nd' ->
             id <> r -> n_children nd <> [] ->
             (forall p ndp e, EngineDefs.reach g r p -> nth_error g p = Some ndp ->
                              In e (n_children ndp) ->
                              e_tracked e = true -> e_node e = id -> e_keep e = false) ->
             n_grad nd' = n_grad nd) /\
        store_good g'.
  Proof.
    intros g r keep seed s0 ndr g' log Hg Hr Hndr Hseed Hsd Hrun.
    destruct (pass_value_table g r keep seed s0 ndr g' log Hg Hr Hndr Hseed Hsd Hrun)
      as (Hrun' & Hs0 & tab & []).
    split; [exact Hrun' |]. split; [exact Hs0 |]. exists tab. repeat (split; [assumption |]). assumption.
  Qed.
End ValueConcrete.

Print Assumptions run_backward_E'.
Print Assumptions pass_value_concrete.
