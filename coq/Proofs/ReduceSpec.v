(** C07: reductions and point-wise maps.  [vsum] is the literal left fold (Rust's
    [iter().sum()]); no assumption on the scalar operations anywhere in this file. *)

From Coq Require Import List Arith Bool Lia PeanoNat.
From Corgi Require Import Lib.OptionMonad Lib.IdxDefs Lib.Idx Model.Scalar Model.Arr
     Model.SlicedOp Model.Elementwise Proofs.ArrFacts Proofs.BroadcastDims Proofs.SpecDefs
     Proofs.SlicedOpSpec Proofs.EwSpec.
Import ListNotations.

Definition all_indices (d : list nat) : list (list nat) := map (unrank d) (seq 0 (prod d)).

Lemma all_indices_length : forall d, length (all_indices d) = prod d.
Proof. intros. unfold all_indices. rewrite map_length, seq_length. reflexivity. Qed.

Lemma nth_error_all_indices : forall d x,
    x < prod d -> nth_error (all_indices d) x = Some (unrank d x).
Proof.
  intros d x Hx. unfold all_indices.
  rewrite nth_error_map, nth_error_seq by exact Hx. reflexivity.
Qed.

Lemma all_indices_in_range : forall d I,
    Forall (fun x => 1 <= x) d -> (In I (all_indices d) <-> in_range I d).
Proof.
  intros d I Hd. unfold all_indices. rewrite in_map_iff. split.
  - intros (x & <- & _). apply unrank_lt. exact Hd.
  - intros H. exists (rowmajor d I). split; [apply unrank_rowmajor; exact H|].
    apply in_seq. pose proof (rowmajor_lt_prod d I H). lia.
Qed.

Section Blocks.
  Context {F : Type}.

  Lemma block_map : forall {B} (f : F -> B) g j (l : list F),
      block g j (map f l) = map f (block g j l).
  Proof. intros. unfold block. rewrite skipn_map, firstn_map. reflexivity. Qed.

  Lemma block_get : forall (a : arr F) lead trail J x,
      dims a = lead ++ trail -> Forall (fun v => 1 <= v) trail ->
      length J = length lead -> x < prod trail ->
      nth_error (block (prod trail) (rowmajor lead J) (vals a)) x = get a (J ++ unrank trail x).
  Proof.
    intros a lead trail J x Ed Ht HJ Hx.
    rewrite <- (block_get_at a lead trail J (unrank trail x) Ed HJ) by (apply unrank_lt; exact Ht).
    rewrite rowmajor_unrank by assumption. reflexivity.
  Qed.

  Lemma block_all_indices : forall (a : arr F) lead trail J,
      wf a -> dims a = lead ++ trail -> in_range J lead ->
      map Some (block (prod trail) (rowmajor lead J) (vals a))
      = map (fun K => get a (J ++ K)) (all_indices trail).
  Proof.
    intros a lead trail J [Hp Hl] Ed HJ.
    assert (Ht : Forall (fun v => 1 <= v) trail).
    { rewrite Ed in Hp. apply Forall_app in Hp. apply Hp. }
    assert (HlenJ : length J = length lead) by (eapply Forall2_len; exact HJ).
    assert (Hbl : length (block (prod trail) (rowmajor lead J) (vals a)) = prod trail).
    { apply (block_length _ _ (prod lead)).
      - rewrite <- Hl, Ed, prod_app. reflexivity.
      - apply rowmajor_lt_prod. exact HJ. }
    apply nth_error_ext. intros x. rewrite !nth_error_map.
    destruct (Nat.lt_ge_cases x (prod trail)) as [Hx|Hx].
    - rewrite nth_error_all_indices by exact Hx. cbn [option_map].
      rewrite <- (block_get a lead trail J x Ed Ht HlenJ Hx).
      destruct (nth_error (block (prod trail) (rowmajor lead J) (vals a)) x) eqn:E;
        [reflexivity|]. apply nth_error_None in E. lia.
    - replace (nth_error (block (prod trail) (rowmajor lead J) (vals a)) x) with (@None F)
        by (symmetry; apply nth_error_None; lia).
      replace (nth_error (all_indices trail) x) with (@None (list nat))
        by (symmetry; apply nth_error_None; rewrite all_indices_length; exact Hx).
      reflexivity.
  Qed.

  Lemma row_get : forall (a : arr F) lead n J i,
      dims a = lead ++ [n] -> length J = length lead -> i < n ->
      nth_error (block n (rowmajor lead J) (vals a)) i = get a (J ++ [i]).
  Proof.
    intros a lead n J i Ed HJ Hi.
    rewrite <- (block_get_at a lead [n] J [i] Ed HJ) by (constructor; [exact Hi|constructor]).
    rewrite prod_single, rowmajor_single. reflexivity.
  Qed.
End Blocks.

Lemma prod_repeat_1 : forall k, prod (repeat 1 k) = 1.
Proof.
  induction k as [|k IH]; [reflexivity|].
  change (1 * prod (repeat 1 k) = 1). rewrite IH. reflexivity.
Qed.

Section Sum.
  Context {F : Type} (O : ScalarOps F).

  Theorem a_sum_zero : forall a : arr F, a_sum O 0 a = Some a.
  Proof. reflexivity. Qed.

  (** [sum(k)], [1 <= k <= rank]: the last [k] dimensions are summed away (left fold, in
      row-major order) and replaced by a single unit dimension *)
  Theorem a_sum_spec : forall k (a : arr F),
      wf a -> 1 <= k <= length (dims a) ->
      let lead := firstn (length (dims a) - k) (dims a) in
      let g := prod (lastn k (dims a)) in
      exists c, a_sum O k a = Some c /\ wf c /\ dims c = lead ++ [1] /\
        forall J, in_range J lead ->
          get c (J ++ [0]) = Some (vsum O (block g (rowmajor lead J) (vals a))).
  Proof.
    intros k a Hwa Hk lead g. pose proof Hwa as [Hpa Hla].
    assert (Hlead : Forall (fun x => 1 <= x) lead) by (apply Forall_firstn; exact Hpa).
    assert (Hpc : Forall (fun x => 1 <= x) (lead ++ [1])).
    { apply Forall_app. split; [exact Hlead|]. constructor; [lia|constructor]. }
    set (h := fun t => [vsum O (oblock k lead t a)]).
    assert (Hh : forall t, t < prod lead -> length (h t) = prod [1]) by reflexivity.
    exists {| dims := lead ++ [1]; vals := concat (map h (seq 0 (prod lead))) |}.
    split; [|split; [apply tab_wf; assumption|split; [reflexivity|]]].
    - unfold a_sum. rewrite (proj2 (Nat.eqb_neq k 0)) by lia.
      apply (sliced_op_tab O [a] _ (dims a) k lead (repeat 1 k) k); try assumption.
      + reflexivity.
      + constructor; [|constructor]. split; [exact Hwa|apply sub_lead_refl].
      + intros t Ht. rewrite prod_repeat_1. split; reflexivity.
      + rewrite (flatten_dims_app lead (repeat 1 k) k), prod_repeat_1 by (try apply repeat_length; lia).
        reflexivity.
      + rewrite !prod_app, prod_repeat_1. reflexivity.
    - intros J HJ. rewrite (tab_get lead [1] h J [0] Hh HJ) by (repeat constructor).
      unfold h.
      rewrite (oblock_own k a lead (lastn k (dims a)) _ (eq_sym (firstn_lastn k (dims a))))
        by (try apply lastn_length; try apply rowmajor_lt_prod; assumption || lia).
      reflexivity.
  Qed.

  Corollary a_sum_block_indices : forall k (a : arr F) J,
      wf a -> k <= length (dims a) ->
      in_range J (firstn (length (dims a) - k) (dims a)) ->
      map Some (block (prod (lastn k (dims a)))
                      (rowmajor (firstn (length (dims a) - k) (dims a)) J) (vals a))
      = map (fun K => get a (J ++ K)) (all_indices (lastn k (dims a))).
  Proof.
    intros k a J Hwa Hk HJ. apply block_all_indices; [exact Hwa| |exact HJ].
    symmetry. apply firstn_lastn.
  Qed.
End Sum.

Section Pointwise.
  Context {F : Type} (O : ScalarOps F).

  Theorem a_reshape_spec : forall d (a c : arr F),
      a_reshape d a = Some c <->
      (Forall (fun x => 1 <= x) d /\ prod d = length (vals a) /\
       c = {| dims := d; vals := vals a |}).
  Proof. intros d a c. unfold a_reshape. apply mk_some. Qed.

  Lemma map_arr_wf : forall (g : F -> F) (a : arr F),
      wf a -> map_arr g a = Some {| dims := dims a; vals := map g (vals a) |}.
  Proof. intros g a H. apply map_arr_some_iff. auto. Qed.

  Theorem a_scale_spec : forall s (a : arr F), wf a ->
      a_scale O s a = Some {| dims := dims a; vals := map (fun x => fmul O x s) (vals a) |}.
  Proof. intros s a. apply map_arr_wf. Qed.

  Theorem a_neg_spec : forall a : arr F, wf a ->
      a_neg O a = Some {| dims := dims a;
                          vals := map (fun x => fmul O x (fneg O (f1 O))) (vals a) |}.
  Proof. intros a. apply map_arr_wf. Qed.

  Theorem a_reciprocal_spec : forall a : arr F, wf a ->
      a_reciprocal O a = Some {| dims := dims a; vals := map (fun x => fdiv O (f1 O) x) (vals a) |}.
  Proof. intros a. apply map_arr_wf. Qed.

  Theorem a_powf_spec : forall e (a : arr F), wf a ->
      a_powf O e a = Some {| dims := dims a; vals := map (fun x => fpow O x e) (vals a) |}.
  Proof. intros e a. apply map_arr_wf. Qed.

  Theorem a_ln_spec : forall a : arr F, wf a ->
      a_ln O a = Some {| dims := dims a; vals := map (fln O) (vals a) |}.
  Proof. intros a. apply map_arr_wf. Qed.

  Theorem a_exp_spec : forall a : arr F, wf a ->
      a_exp O a = Some {| dims := dims a; vals := map (fexp O) (vals a) |}.
  Proof. intros a. apply map_arr_wf. Qed.

  Theorem a_relu_spec : forall a : arr F, wf a ->
      a_relu O a = Some {| dims := dims a;
                           vals := map (fun x => if fgt0 O x then x else f0 O) (vals a) |}.
  Proof. intros a. apply map_arr_wf. Qed.

  Theorem a_sigmoid_spec : forall a : arr F, wf a ->
      a_sigmoid O a
      = Some {| dims := dims a;
                vals := map (fun x => fdiv O (f1 O) (fadd O (f1 O) (fexp O (fneg O x)))) (vals a) |}.
  Proof. intros a. apply map_arr_wf. Qed.

  Lemma get_map : forall (g : F -> F) d (v : list F) I,
      get {| dims := d; vals := map g v |} I = option_map g (get {| dims := d; vals := v |} I).
  Proof. intros. unfold get. cbn [dims vals]. apply nth_error_map. Qed.
End Pointwise.

Section Softmax.
  Context {F : Type} (O : ScalarOps F).

  (** [softmax(a)[J, i] = exp(a[J, i]) / sum_j exp(a[J, j])], the sum being the left fold
      over the row [J] of [a] *)
  Theorem a_softmax_spec : forall (a : arr F) lead n,
      wf a -> dims a = lead ++ [n] ->
      exists c, a_softmax O a = Some c /\ wf c /\ dims c = dims a /\
        forall J i, in_range J lead -> i < n ->
          exists x, get a (J ++ [i]) = Some x /\
                    get c (J ++ [i])
                    = Some (fdiv O (fexp O x)
                                 (vsum O (map (fexp O) (block n (rowmajor lead J) (vals a))))).
  Proof.
    intros a lead n Hwa Ed.
    set (e := {| dims := dims a; vals := map (fexp O) (vals a) |}).
    assert (Hwe : wf e) by (apply map_arr_result_wf; exact Hwa).
    assert (Hn : 1 <= n) by apply (wf_snoc a lead n Hwa Ed).
    assert (Hr : 1 <= 1 <= length (dims e)).
    { cbn [dims e]. rewrite Ed, app_length. cbn [length]. lia. }
    destruct (a_sum_spec O 1 e Hwe Hr) as (s & Hs & Hws & Hds & Hgs). cbv zeta in Hgs.
    change (firstn (length (dims e) - 1) (dims e)) with (lead_dims 1 e) in Hds, Hgs.
    change (prod (lastn 1 (dims e))) with (group_length 1 e) in Hgs.
    rewrite (lead_dims_snoc e lead n Ed) in Hds, Hgs. rewrite (group_length_snoc e lead n Ed) in Hgs.
    destruct s as [ds vs]. cbn [dims] in Hds. subst ds.
    (* exp / sum(1): the row sums are broadcast along the last dimension *)
    destruct (element_wise_op_mapped O (fdiv O) (fexp O) (fun y => y)
                                     a {| dims := lead ++ [1]; vals := vs |}
                                     e {| dims := lead ++ [1]; vals := vs |})
      as (c & Hdiv & Hwc & Hdc & Hval); try assumption; try reflexivity.
    { rewrite Ed. destruct lead; discriminate. }
    { destruct lead; discriminate. }
    { rewrite Ed. apply bcompat_snoc. split; [auto|apply bcompat_refl]. }
    { cbn [dims vals]. rewrite map_id. reflexivity. }
    assert (Hbm : bmax (dims a) (lead ++ [1]) = dims a).
    { rewrite Ed, bmax_snoc, bmax_idem. do 2 f_equal. lia. }
    cbn [dims] in Hdc, Hval. rewrite Hbm in Hdc.
    exists c. split; [|split; [exact Hwc|split; [exact Hdc|]]].
    - unfold a_softmax. rewrite (a_exp_spec O a Hwa). cbn [obind]. fold e. rewrite Hs. exact Hdiv.
    - intros J i HJ Hi.
      assert (HI : in_range (J ++ [i]) (dims a)).
      { rewrite Ed. apply Forall2_app; [exact HJ|]. constructor; [exact Hi|constructor]. }
      destruct (Hval (J ++ [i])) as (x & y & Hx & Hy & Hz); [rewrite Hdc; exact HI|].
      rewrite (bclamp_id _ _ HI) in Hx.
      rewrite bclamp_snoc in Hy by (rewrite (Forall2_len _ _ _ HJ); lia).
      rewrite (bclamp_id _ _ HJ) in Hy. cbn [Nat.eqb] in Hy.
      rewrite (Hgs J HJ) in Hy. inversion Hy; subst y.
      exists x. split; [exact Hx|]. rewrite Hz. unfold e. cbn [vals].
      rewrite block_map. reflexivity.
  Qed.

  Lemma softmax_row : forall (a : arr F) lead n J i,
      dims a = lead ++ [n] -> length J = length lead -> i < n ->
      nth_error (block n (rowmajor lead J) (vals a)) i = get a (J ++ [i]).
  Proof. exact row_get. Qed.
End Softmax.

Print Assumptions a_sum_spec.
Print Assumptions a_softmax_spec.
Print Assumptions a_sigmoid_spec.
Print Assumptions a_reshape_spec.
