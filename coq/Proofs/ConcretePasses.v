(** The pass theorems ([Proofs/PassTheorems.v]) for the concrete array engine [E O] of
    Model/Program.v, on sound stores ([HistoryInv.store_good]).

    The algebraic hypotheses of PassTheorems hold for the repaired instance [E']
    ([Proofs/ValueConcrete.v]); on a sound store every successful pass of [E O] is the
    same pass of [E'] ([run_backward_E']).  The statements below therefore speak about
    runs of the REAL engine; only the declarative tables and the accumulation [stored]
    are those of [E'].  On well-formed arrays of equal, non-empty dimensions -- all a pass
    ever adds -- [eo_add E'] is [a_add] ([add'_is_a_add]). *)

From Coq Require Import List Arith Bool Lia PeanoNat Permutation.
From Corgi Require Import Lib.OptionMonad Lib.Sums Model.Scalar Model.Arr Model.SlicedOp
     Model.Elementwise Model.Ops Model.Engine Model.Program
     Proofs.ArrFacts Proofs.EngineDefs Proofs.EngineBase Proofs.Propagate Proofs.EngineInv
     Proofs.AdjointSpec Proofs.SweepFacts Proofs.ValueAlg Proofs.EngineValue
     Proofs.PassTheorems Proofs.OptimSpec Proofs.FlattenSpec Proofs.OpsWf Proofs.HistoryInv
     Proofs.ValueConcrete Proofs.StepView.
Import ListNotations.

Section ConcretePasses.
  Context {F : Type} (O : ScalarOps F) (R : is_cring O).

  Local Notation pay := (@pay F).
  Local Notation gnode := (@gnode F).
  Local Notation state := (@state F).
  Local Notation E := (Program.E O).
  Local Notation E' := (ValueConcrete.E' O).
  Local Notation pgood := (PassTheorems.good E' (@shape F) (@sh F) (@psh F)).
  Local Notation pseed_ok := (PassTheorems.seed_ok E' (@shape F) (@sh F) (@psh F)).
  Local Notation pstep := (@PassTheorems.step (arr F)).
  (** a theorem of [PassTheorems.Section Value] at [E'], whose additions satisfy its hypotheses *)
  Local Notation at_E' thm :=
    (thm E' shape (@sh F) (@psh F) (add_ok' O) (add_comm' O R) (add_assoc' O R) (flat_sh' O)).

  Lemma grad_ok_sh : forall (p : pay) x, grad_ok p x -> sh x = psh p.
  Proof. intros p x [Hw Hd]. rewrite (sh_wf _ Hw). unfold psh. rewrite Hd. reflexivity. Qed.

  Lemma store_good_pgood : forall g : list gnode, store_good g -> pgood g.
  Proof.
    intros g Hg. split; [exact (store_good_wfg O g Hg) |].
    split; [exact (store_good_clean g Hg) |].
    split; [exact (store_good_contract O g Hg) |].
    intros id nd x Hnd Hx. apply grad_ok_sh.
    destruct (Hg id nd Hnd) as (_ & _ & _ & _ & _ & Hgr). apply Hgr. exact Hx.
  Qed.

  (** an admissible pass: the root exists and an explicit seed has the root's shape *)
  Definition cseed_ok (g : list gnode) (r : nat) (seed : option (arr F)) : Prop :=
    r < length g /\
    forall sd nd, seed = Some sd -> nth_error g r = Some nd -> grad_ok (n_pay nd) sd.

  Lemma cseed_ok_skel : forall (g g' : list gnode) r seed,
      skel_eq g g' -> cseed_ok g r seed -> cseed_ok g' r seed.
  Proof.
    intros g g' r seed Hs (Hr & Hsd). split; [destruct Hs as (Hl & _); nlia |].
    intros sd nd' Hseed Hnd'. unfold Program.gnode in *.
    destruct (skel_eq_nth g g' r Hs) as [[_ Hb] | (nd & nd2 & Ha & Hb & Hp & _)]; [congruence |].
    rewrite Hnd' in Hb. injection Hb as Hb. subst nd2. rewrite <- Hp. apply (Hsd sd nd Hseed Ha).
  Qed.

  Lemma seed_of_E' : forall (g : list gnode) r seed, seed_of E' g r seed = seed_of E g r seed.
  Proof. reflexivity. Qed.

  Lemma cseed_pseed : forall (g : list gnode) r seed,
      store_good g -> cseed_ok g r seed -> exists s0, pseed_ok g r seed s0.
  Proof.
    intros g r seed Hg (Hr & Hsd).
    destruct (nth_error g r) as [ndr|] eqn:Hndr; [| apply nth_error_None in Hndr; nlia].
    unfold Program.gnode in *.
    destruct seed as [sd|].
    - exists sd. split; [exact Hr |]. split; [reflexivity |]. exists ndr.
      split; [exact Hndr | apply grad_ok_sh; apply (Hsd sd ndr eq_refl eq_refl)].
    - exists (eo_ones E (n_pay ndr)). split; [exact Hr |].
      split; [unfold seed_of; rewrite Hndr; reflexivity |]. exists ndr.
      split; [exact Hndr |]. apply grad_ok_sh. apply (wf_ones O).
      destruct (Hg r ndr Hndr) as (_ & _ & _ & _ & Hw & _). exact Hw.
  Qed.

  Lemma run_E_E' : forall (g : list gnode) r keep seed res,
      store_good g -> cseed_ok g r seed ->
      run_backward E g r keep seed = Some res -> run_backward E' g r keep seed = Some res.
  Proof.
    intros g r keep seed res Hg (_ & Hsd) Hrun. apply (run_backward_E' O g r keep seed res Hg Hsd Hrun).
  Qed.

  (** an admissible pass of the real engine on a sound store, as PassTheorems wants it *)
  Lemma pass_bridge : forall (g : list gnode) r keep seed res,
      store_good g -> cseed_ok g r seed -> run_backward E g r keep seed = Some res ->
      pgood g /\ run_backward E' g r keep seed = Some res /\ exists s0, pseed_ok g r seed s0.
  Proof.
    intros g r keep seed res Hg Hc Hrun. split; [apply store_good_pgood; exact Hg |].
    split; [apply run_E_E'; assumption | apply cseed_pseed; assumption].
  Qed.

  (** on the arrays a pass adds, the repaired addition is the real one *)
  Lemma add'_is_a_add : forall x y : arr F,
      wf x -> wf y -> dims x = dims y -> dims x <> [] -> eo_add E' x y = a_add O x y.
  Proof.
    intros x y Hx Hy Hd Hne.
    destruct (a_add_same_dims O x y Hx Hy Hd Hne) as (c & Hc & _).
    rewrite Hc. cbn [eo_add ValueConcrete.E']. rewrite (add'_wf O x y Hx Hy Hd). f_equal.
    symmetry. apply (a_add_padd O x y c Hx Hy Hd Hc).
  Qed.

  (** * (K1, C10) the pass theorems for the real engine *)

  Theorem pass_preserves_concrete : forall (g : list gnode) r keep seed g' log,
      store_good g -> cseed_ok g r seed ->
      run_backward E g r keep seed = Some (g', log) ->
      store_good g' /\ skel_eq g g'.
  Proof.
    intros g r keep seed g' log Hg (Hr & Hsd) Hrun.
    destruct (pass_good O g r keep seed g' log Hg Hr Hsd Hrun) as (Hg' & _).
    split; [exact Hg' |].
    destruct (pass_structure E g r keep seed g' log (store_good_wfg O g Hg)
                             (store_good_clean g Hg) (store_good_contract O g Hg) Hr Hrun)
      as (Hs & _). exact Hs.
  Qed.

  (** earlier passes cannot influence a later one *)
  Theorem pass_independent_concrete : forall (g1 g2 : list gnode) r keep seed g1' log1 g2' log2,
      skel_eq g1 g2 -> store_good g1 -> store_good g2 -> cseed_ok g1 r seed ->
      run_backward E g1 r keep seed = Some (g1', log1) ->
      run_backward E g2 r keep seed = Some (g2', log2) ->
      exists s0, seed_of E g1 r seed = Some s0 /\ seed_of E g2 r seed = Some s0 /\
        adjoints E' g1 r s0 = adjoints E' g2 r s0 /\
        (forall id delta, In (id, delta) log1 <-> In (id, delta) log2) /\
        Permutation log1 log2.
  Proof.
    intros g1 g2 r keep seed g1' log1 g2' log2 Hs Hg1 Hg2 Hc1 Hrun1 Hrun2.
    destruct (pass_bridge g1 r keep seed _ Hg1 Hc1 Hrun1) as (Hp1 & Hrun1' & s0 & Hso).
    destruct (pass_bridge g2 r keep seed _ Hg2 (cseed_ok_skel g1 g2 r seed Hs Hc1) Hrun2)
      as (Hp2 & Hrun2' & _).
    destruct (at_E' pass_independent g1 g2 r keep seed s0 g1' log1 g2' log2 Hs Hp1 Hp2 Hso
                    Hrun1' Hrun2') as (H1 & H2 & H3 & H4).
    exists s0. destruct Hso as (_ & Hseed & _).
    split; [exact Hseed |]. split; [exact H1 |]. split; [exact H2 |]. split; assumption.
  Qed.

  (** two passes in a row accumulate the two stand-alone tables *)
  Theorem two_passes_add_concrete :
    forall (g : list gnode) r1 keep1 seed1 r2 keep2 seed2 g1 log1 g2 log2,
      store_good g -> cseed_ok g r1 seed1 -> cseed_ok g r2 seed2 ->
      run_backward E g r1 keep1 seed1 = Some (g1, log1) ->
      run_backward E g1 r2 keep2 seed2 = Some (g2, log2) ->
      exists s1 s2 tab1 tab2,
        seed_of E g r1 seed1 = Some s1 /\ seed_of E g r2 seed2 = Some s2 /\
        adjoints E' g r1 s1 = Some tab1 /\ adjoints E' g r2 s2 = Some tab2 /\
        store_good g2 /\ skel_eq g g2 /\
        forall id nd nd2, nth_error g id = Some nd -> nth_error g2 id = Some nd2 ->
          n_children nd = [] ->
          exists o1, stored_opt E' (n_grad nd) (nth id tab1 None) o1 /\
                     stored_opt E' o1 (nth id tab2 None) (n_grad nd2).
  Proof.
    intros g r1 keep1 seed1 r2 keep2 seed2 g1 log1 g2 log2 Hg Hc1 Hc2 Hrun1 Hrun2.
    destruct (pass_bridge g r1 keep1 seed1 _ Hg Hc1 Hrun1) as (Hp & Hrun1' & s1 & Hso1).
    destruct (cseed_pseed g r2 seed2 Hg Hc2) as (s2 & Hso2).
    destruct (pass_preserves_concrete g r1 keep1 seed1 g1 log1 Hg Hc1 Hrun1) as (Hg1 & Hs1).
    pose proof (cseed_ok_skel g g1 r2 seed2 Hs1 Hc2) as Hc2'.
    destruct (pass_preserves_concrete g1 r2 keep2 seed2 g2 log2 Hg1 Hc2' Hrun2) as (Hg2 & _).
    destruct (at_E' two_passes_add g r1 keep1 seed1 s1 r2 keep2 seed2 s2 g1 log1 g2 log2
                    Hp Hso1 Hso2 Hrun1' (run_E_E' g1 r2 keep2 seed2 _ Hg1 Hc2' Hrun2))
      as (tab1 & tab2 & Ht1 & Ht2 & _ & Hs & Hleaf).
    exists s1, s2, tab1, tab2.
    destruct Hso1 as (_ & Hseed1 & _). destruct Hso2 as (_ & Hseed2 & _).
    split; [exact Hseed1 |]. split; [exact Hseed2 |]. split; [exact Ht1 |]. split; [exact Ht2 |].
    split; [exact Hg2 |]. split; [exact Hs | exact Hleaf].
  Qed.

  Definition cstep_ok (g0 : list gnode) (s : pstep) : Prop :=
    match s with
    | Pass r _ seed => cseed_ok g0 r seed
    | Clear _ => True
    end.

  Lemma cstep_ok_pstep : forall (g0 : list gnode) st,
      store_good g0 -> Forall (cstep_ok g0) st ->
      Forall (step_ok E' shape (@sh F) (@psh F) g0) st.
  Proof.
    intros g0 st Hg H. induction H as [|s st Hs Hst IH]; constructor; [| exact IH].
    destruct s as [r keep seed | i]; simpl in *; [| exact I].
    apply (cseed_pseed g0 r seed Hg Hs).
  Qed.

  Lemma clear_grad_store_good : forall (g : list gnode) i g',
      store_good g -> PassTheorems.clear_grad g i = Some g' -> store_good g' /\ skel_eq g g'.
  Proof.
    intros g i g' Hg H. unfold PassTheorems.clear_grad in H.
    revert H. apply obind_elim. intros nd Hnd Hput. split.
    - eapply store_good_put; [exact Hg | exact Hput |].
      destruct (Hg i nd Hnd) as (H1 & H2 & H3 & H4 & H5 & _).
      unfold node_good, node_ok. cbn [set_grad n_children n_pay n_count n_delta n_grad].
      repeat (split; [assumption |]). intros x Hx. discriminate Hx.
    - eapply skel_eq_put_grad; eassumption.
  Qed.

  Lemma run_steps_E' : forall (g0 : list gnode) st (g gN : list gnode),
      skel_eq g0 g -> store_good g -> Forall (cstep_ok g0) st ->
      run_steps E g st = Some gN -> run_steps E' g st = Some gN /\ store_good gN.
  Proof.
    intros g0 st. induction st as [|s st IH]; intros g gN Hs Hg Hok Hrun.
    - simpl in *. injection Hrun as Hrun. subst gN. split; [reflexivity | exact Hg].
    - inversion Hok as [|s' st' Hs1 Hok']. subst s' st'.
      destruct s as [r keep seed | i]; simpl in Hrun |- *.
      + revert Hrun. apply obind_elim. intros [g' log] Hpass Hrun. simpl in Hrun.
        pose proof (cseed_ok_skel g0 g r seed Hs Hs1) as Hc.
        rewrite (run_E_E' g r keep seed _ Hg Hc Hpass). simpl.
        destruct (pass_preserves_concrete g r keep seed g' log Hg Hc Hpass) as (Hg' & Hs').
        apply (IH g' gN (skel_eq_trans g0 g g' Hs Hs') Hg' Hok' Hrun).
      + revert Hrun. apply obind_elim. intros g' Hclr Hrun.
        rewrite Hclr. simpl.
        destruct (clear_grad_store_good g i g' Hg Hclr) as (Hg' & Hs').
        apply (IH g' gN (skel_eq_trans g0 g g' Hs Hs') Hg' Hok' Hrun).
  Qed.

  (** (C10) gradients accumulate additively over any sequence of passes of the real engine,
      counted from the last clear; every table is the stand-alone table of [E'] on the
      ORIGINAL store *)
  Theorem steps_accumulate_concrete : forall (g0 : list gnode) st gN,
      store_good g0 -> Forall (cstep_ok g0) st -> run_steps E g0 st = Some gN ->
      store_good gN /\ skel_eq g0 gN /\
      forall id nd ndN, nth_error g0 id = Some nd -> nth_error gN id = Some ndN ->
                        n_children nd = [] -> acc_steps E' g0 st id (n_grad nd) (n_grad ndN).
  Proof.
    intros g0 st gN Hg Hok Hrun.
    destruct (run_steps_E' g0 st g0 gN (skel_eq_refl g0) Hg Hok Hrun) as (Hrun' & HgN).
    destruct (at_E' steps_accumulate g0 st gN (store_good_pgood g0 Hg) (cstep_ok_pstep g0 st Hg Hok)
                    Hrun') as (_ & Hs & Hacc).
    split; [exact HgN |]. split; [exact Hs | exact Hacc].
  Qed.

  (** (C11) every closure runs once, consumers first, with its adjoint, which is the
      accumulation in any order of the contributions of the differentiated nodes *)
  Theorem closure_once_complete_concrete : forall (g : list gnode) r keep seed g' log,
      store_good g -> cseed_ok g r seed ->
      run_backward E g r keep seed = Some (g', log) ->
      exists s0 tab, seed_of E g r seed = Some s0 /\ adjoints E' g r s0 = Some tab /\
        NoDup (map fst log) /\
        (forall id, In id (map fst log) <->
                    (EngineDefs.reach g r id /\
                     exists nd, nth_error g id = Some nd /\ hasop E nd = true)) /\
        (forall n m, EngineDefs.reach g r n -> tedge g n m ->
             (exists nd, nth_error g m = Some nd /\ hasop E nd = true) ->
             before (map fst log) n m) /\
        (forall id delta, In (id, delta) log -> nth id tab None = Some delta) /\
        (forall id l, id < length g -> Permutation l (vals id (inc_all E' g tab r)) ->
             accum E' (if id =? r then Some s0 else None) l = Some (nth id tab None)).
  Proof.
    intros g r keep seed g' log Hg Hc Hrun.
    destruct (pass_bridge g r keep seed _ Hg Hc Hrun) as (Hp & Hrun' & s0 & Hso).
    destruct (at_E' closure_once_complete g r keep seed s0 g' log Hp Hso Hrun')
      as (tab & H1 & H2 & H3 & H4 & H5 & H6).
    exists s0, tab. destruct Hso as (_ & Hseed & _).
    split; [exact Hseed |]. split; [exact H1 |]. split; [exact H2 |]. split; [exact H3 |].
    split; [exact H4 |]. split; [exact H5 | exact H6].
  Qed.

  Local Notation instr := (@instr F).

  Theorem step_backward_is_run_backward : forall (s0 s' : state) h seed o,
      Program.step O s0 (IBackward h seed) = Some (s', o) ->
      exists x sd g' log,
        var s0 h = Some x /\
        match seed with
        | Some (d, v) => exists a, mk d v = Some a /\ sd = Some a
        | None => sd = None
        end /\
        run_backward E (st_nodes s0) (e_node x) (e_keep x) sd = Some (g', log) /\
        st_nodes s' = g' /\ st_pool s' = st_pool s0 ++ [None] /\
        st_layers s' = st_layers s0 /\ st_output s' = st_output s0.
  Proof.
    intros s0 s' h seed o H. unfold Program.step in H. cbv zeta in H.
    revert H. apply obind_elim. intros x Hx H.
    revert H. apply obind_elim. intros sd Hsd H.
    revert H. apply obind_elim. intros [g' log] Hrun H.
    injection H as H _. subst s'. exists x, sd, g', log.
    split; [exact Hx |]. split.
    { destruct seed as [[d v]|].
      - revert Hsd. apply obind_elim. intros a Ha Hsd. injection Hsd as Hsd.
        exists a. split; [exact Ha | symmetry; exact Hsd].
      - injection Hsd as Hsd. symmetry. exact Hsd. }
    split; [exact Hrun |]. repeat split.
  Qed.

  (** with a well-shaped explicit seed ([HistoryInv.seed_ok]) the pass is admissible *)
  Lemma backward_cseed_ok : forall (s0 : state) h seed x sd,
      HistoryInv.good s0 -> HistoryInv.seed_ok s0 (IBackward h seed) ->
      var s0 h = Some x ->
      match seed with
      | Some (d, v) => exists a, mk d v = Some a /\ sd = Some a
      | None => sd = None
      end ->
      cseed_ok (st_nodes s0) (e_node x) sd.
  Proof.
    intros s0 h seed x sd (Hg & Hr) Hseed Hx Hsd. split; [apply (var_valid s0 h x Hr Hx) |].
    intros a nd Ha Hnd. destruct seed as [[d v]|].
    - destruct Hsd as (a' & Hmk & Hsd). rewrite Hsd in Ha. injection Ha as Ha. subst a'.
      apply mk_wf in Hmk. destruct Hmk as (Hw & Hd). split; [exact Hw |].
      rewrite Hd. apply (Hseed x nd Hx). exact Hnd.
    - rewrite Hsd in Ha. discriminate Ha.
  Qed.

  Theorem step_cleargrad_is_clear_grad : forall (s0 s' : state) h o,
      Program.step O s0 (IClearGrad h) = Some (s', o) ->
      exists x, var s0 h = Some x /\
        PassTheorems.clear_grad (st_nodes s0) (e_node x) = Some (st_nodes s') /\
        st_pool s' = st_pool s0 ++ [None] /\
        st_layers s' = st_layers s0 /\ st_output s' = st_output s0.
  Proof.
    intros s0 s' h o H. unfold Program.step in H. cbv zeta in H.
    revert H. apply obind_elim. intros x Hx H.
    revert H. apply obind_elim. intros s1 Hclr H. injection H as H _. subst s'.
    exists x. split; [exact Hx |].
    unfold Program.clear_grad in Hclr.
    revert Hclr. apply obind_elim. intros nd Hnd Hclr.
    revert Hclr. apply obind_elim. intros g' Hput Hclr. injection Hclr as Hclr. subst s1.
    split; [| repeat split].
    unfold PassTheorems.clear_grad. unfold h_node in Hnd. cbn [st_nodes with_tag] in Hnd, Hput.
    unfold Program.gnode in *. rewrite Hnd. cbn [obind]. exact Hput.
  Qed.

  (** the instructions that touch the cells of existing nodes *)
  Definition cell_instr (i : instr) : bool :=
    match i with
    | IBackward _ _ | IClearGrad _ | IUpdate _ _ | IModelBackward _ | IModelUpdate => true
    | _ => false
    end.

  Lemma ext_nodes : forall s s1 : state,
      ext s s1 -> exists extra, st_nodes s1 = st_nodes s ++ extra.
  Proof. intros s s1 (extra & H). subst s1. exists extra. reflexivity. Qed.

  (** every other instruction only appends nodes: payloads, children, counts, pending
      deltas and gradient slots of the existing nodes are untouched *)
  Theorem step_other_appends : forall (s0 s' : state) i o,
      HistoryInv.good s0 -> cell_instr i = false -> Program.step O s0 i = Some (s', o) ->
      exists extra, st_nodes s' = st_nodes s0 ++ extra.
  Proof.
    intros s0 s' i o Hgd0 Hci H.
    destruct (step_cases O s0 i s' o H) as (s1 & slot & Hc & ->). cbn [push with_pool st_nodes].
    change (st_nodes s0) with (st_nodes (with_tag s0 (length (st_pool s0)))).
    pose proof (good_with_tag s0 (length (st_pool s0)) Hgd0) as [Hg Hr].
    destruct Hc as [i a t o Hl | i o Hq | h x Hx | i h v o s1 Hb Hs1 | k args hs s1 h a Hhs Hop Ha
                    | h seed x sd r Hx Hsd Hrun | h x s1 Hx Hs1 | lr hs params s1 out s2 Hp Hgu Hs2
                    | ls c lr s1 layers Hm | h x s1 out a Hx Hm Ha | h x s1 loss Hx Hm | s1 Hm];
      try discriminate Hci.
    - eexists. reflexivity.
    - exists []. symmetry. apply app_nil_r.
    - exists []. symmetry. apply app_nil_r.
    - exists []. rewrite (set_var_nodes _ _ _ _ Hs1). symmetry. apply app_nil_r.
    - destruct (apply_op_post O _ k hs _ Hg (mapM_var_valid _ args hs Hr Hhs) Hop) as (Hx & _).
      apply (ext_nodes _ s1 Hx).
    - destruct (fold_make_layers ls _ [] s1 layers Hg) with (2 := Hm) as (Hx & _).
      { intros l0 []. }
      apply (ext_nodes _ s1 Hx).
    - unfold model_forward in Hm.
      revert Hm. apply obind_elim. intros [s2 out2] Hfold Hm. injection Hm as <- _.
      destruct (fold_layers_post O _ _ x s2 out2 Hg (var_valid _ h x Hr Hx)
                                 (fun l Hl => rvalid_layers _ l Hr Hl) Hfold) as (Hxx & _).
      apply (ext_nodes _ s2 Hxx).
  Qed.

  Corollary step_other_keeps_node : forall (s0 s' : state) i o id nd,
      HistoryInv.good s0 -> cell_instr i = false -> Program.step O s0 i = Some (s', o) ->
      nth_error (st_nodes s0) id = Some nd -> nth_error (st_nodes s') id = Some nd.
  Proof.
    intros s0 s' i o id nd Hgd Hci H Hnd.
    destruct (step_other_appends s0 s' i o Hgd Hci H) as (extra & He).
    rewrite He, nth_error_app1; [exact Hnd |]. eapply nth_lt. exact Hnd.
  Qed.
End ConcretePasses.

Print Assumptions pass_preserves_concrete.
Print Assumptions pass_independent_concrete.
Print Assumptions two_passes_add_concrete.
Print Assumptions steps_accumulate_concrete.
Print Assumptions closure_once_complete_concrete.
Print Assumptions step_backward_is_run_backward.
Print Assumptions step_cleargrad_is_clear_grad.
Print Assumptions step_other_appends.
