(** Two instances of the engine that agree on acceptable values compute the same pass.

    [E1] is the instance of interest (its operations may be partial, and are only
    well-behaved on acceptable values); [E2] is a repaired instance (for example with a
    total, everywhere commutative addition) that returns the same result whenever [E1]
    succeeds on acceptable values.  Then every successful pass of [E1] on a store whose
    pending deltas and gradients are acceptable is also the pass of [E2], with the same
    result.  Together with [Proofs/EnginePred.v] this transports theorems proved for [E2]
    under unconditional algebraic hypotheses ([Proofs/EngineValue.v]) to [E1]. *)

From Coq Require Import List Arith Bool Lia PeanoNat.
From Corgi Require Import Lib.OptionMonad Model.Engine Proofs.EngineDefs Proofs.EngineBase
     Proofs.Propagate Proofs.EngineInv Proofs.EnginePred.
Import ListNotations.

Section Agree.
  Context {P D : Type}.
  Variable E1 E2 : eops P D.

  Variable pok : P -> Prop.
  Variable wfd : D -> Prop.
  Variable okd : P -> D -> Prop.

  Hypothesis okd_wfd : forall p x, okd p x -> wfd x.
  Hypothesis H_ones : forall p, pok p -> okd p (eo_ones E1 p).
  Hypothesis H_bop : forall p pays saved x ds i d,
      wfd x -> eo_bop E1 p pays saved x = Some ds -> nth_error ds i = Some (Some d) -> wfd d.
  Hypothesis H_flat : forall d p d', wfd d -> eo_flat E1 d p = Some d' -> okd p d'.
  Hypothesis H_add : forall p x y z, okd p x -> okd p y -> eo_add E1 x y = Some z -> okd p z.

  Hypothesis S_ones : eo_ones E2 = eo_ones E1.
  Hypothesis S_hasop : eo_hasop E2 = eo_hasop E1.
  Hypothesis S_bop : eo_bop E2 = eo_bop E1.
  Hypothesis A_flat : forall d p d', wfd d -> eo_flat E1 d p = Some d' -> eo_flat E2 d p = Some d'.
  Hypothesis A_add : forall p x y z,
      okd p x -> okd p y -> eo_add E1 x y = Some z -> eo_add E2 x y = Some z.

  Local Notation VInv := (VInv pok okd).

  Theorem run_backward_agree : forall (g : store P D) r keep seed res,
      VInv g ->
      (forall s nd, seed = Some s -> nth_error g r = Some nd -> okd (n_pay nd) s) ->
      run_backward E1 g r keep seed = Some res -> run_backward E2 g r keep seed = Some res.
  Proof.
    intros g r keep seed [g' log] HV Hseed H.
    apply (backward_agree E1 pok wfd okd okd_wfd H_ones H_bop H_flat H_add E2
                          S_ones S_hasop S_bop A_flat A_add (S r) g r keep seed [] g' log HV Hseed H).
  Qed.
End Agree.

Print Assumptions run_backward_agree.
