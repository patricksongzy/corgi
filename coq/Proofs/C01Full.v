(** C01 for the concrete engine with [supported] discharged for every built-in closure.

    [backward_exact_full]: on a sound, value-consistent store whose operation nodes satisfy
    the side conditions of their closures ([pre_ok]: sum over at most the rank, matmul
    operands of rank >= 2 with an admissible additive term, unroll/expand geometry, custom
    operations on equal dimensions), every successful backward pass stores on the leaves
    the transpose of the forward (dual-number) derivative applied to the seed. *)

From Coq Require Import List Arith Bool Lia PeanoNat.
From Corgi Require Import Lib.OptionMonad Lib.Sums Model.Scalar Model.Arr Model.SlicedOp
     Model.Elementwise Model.Linalg Model.Ops Model.Engine Model.Program
     Proofs.ArrFacts Proofs.EngineDefs Proofs.EngineBase Proofs.Propagate Proofs.AdjointSpec
     Proofs.SweepBase Proofs.SweepAdjoint Proofs.SweepAdjointG Proofs.EngineValue
     Proofs.FlattenSpec Proofs.DualLift Proofs.LocalAdjoint Proofs.LocalAdjoint2 Proofs.OpsWf
     Proofs.HistoryInv Proofs.ValueConcrete Proofs.FwdCode Proofs.CodeSupport
     Proofs.CodeSupport2 Proofs.HistoryVC Proofs.C01Concrete Proofs.C01Gen.
Import ListNotations.

Section C01Full.
  Context {F : Type} (O : ScalarOps F) (R : is_cring O).

  Local Notation pay := (@pay F).
  Local Notation gnode := (@gnode F).
  Local Notation E := (Program.E O).
  Local Notation E' := (ValueConcrete.E' O).
  Local Notation D2 := (dual_ops O).

  (** the side conditions of the closures hold at every operation node *)
  Definition pre_ok (g : list gnode) : Prop :=
    forall id nd code,
      nth_error g id = Some nd -> p_bop (n_pay nd) = Some code ->
      code_pre2 code (p_dims (n_pay nd)) (cvals g (n_children nd)).

  (** with [mm_pre], a matmul without additive term is the matmul with [zeros1] *)
  Lemma nobias_strict : forall code d (cs : list (arr F)) v,
      Forall wf cs -> code_pre2 code d cs -> matmul_nobias O code cs v ->
      fwd_of_code O (fun s => s) code d cs = Some v.
  Proof.
    intros code d cs v Hwf Hpre Hnb.
    destruct code; try contradiction.
    destruct cs as [|a [|b [|c [|? ?]]]]; try contradiction.
    cbn [matmul_nobias] in Hnb. destruct Hnb as [Hc Hv]. subst c.
    cbn [code_pre2] in Hpre. destruct Hpre as (la & ar & ac & lb & br & bc & Ea & Eb & _).
    cbn [nth] in Ea, Eb.
    inversion Hwf as [|? ? Hwa Hwf1]; subst. inversion Hwf1 as [|? ? Hwb _]; subst.
    cbn [fwd_of_code]. rewrite <- Hv. symmetry.
    apply (matmul_none_zeros1 O a ta b tb la ar ac lb br bc); assumption.
  Qed.

  Section Scalars.
    Hypothesis Hdiv : forall a b, fdiv O a b = fmul O a (fdiv O (f1 O) b).
    Hypothesis Hinv_mul : forall a b,
        fdiv O (f1 O) (fmul O a b) = fmul O (fdiv O (f1 O) a) (fdiv O (f1 O) b).
    Hypothesis Hpow2 : forall x, fpow O x (two O) = fmul O x x.
    Hypothesis Hsig_fst : forall x x', fst (sigmoid_fn D2 (x, x')) = sigmoid_fn O x.
    Hypothesis Hsig : forall x x',
        snd (sigmoid_fn D2 (x, x'))
        = fmul O (fmul O (sigmoid_fn O x) (fsub O (f1 O) (sigmoid_fn O x))) x'.

    Theorem backward_exact_full : forall (g : list gnode) lt r keep seed s0 ndr g' log,
        store_good g -> value_consistent O g -> pre_ok g -> leaf_tangents_ok g lt ->
        grads_empty g -> r < length g -> nth_error g r = Some ndr ->
        seed_of E g r seed = Some s0 ->
        (forall sd, seed = Some sd -> wf sd /\ dims sd = p_dims (n_pay ndr)) ->
        run_backward E g r keep seed = Some (g', log) ->
        dot O (vals s0) (vals (tan O g lt r)) = leaf_pairing O g g' lt r.
    Proof.
      intros g lt r keep seed s0 ndr g' log Hg Hvc Hpre Hlt.
      pose proof (all_code_ok2 O R Hsig_fst Hsig Hdiv Hinv_mul Hpow2) as Hok.
      exact (backward_exact_gen O R code_pre2 g lt Hg Hvc Hpre (fun code d => proj1 (Hok code d))
                                nobias_strict Hlt
                                r keep seed s0 ndr g' log).
    Qed.
  End Scalars.
End C01Full.

Print Assumptions backward_exact_full.
