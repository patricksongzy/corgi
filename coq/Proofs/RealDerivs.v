(** Scalar facts over the reals (Coq Reals + Coquelicot; the only file of the development,
    with Model/RealScalar.v, that imports them).

    0. [R_ops] (Model/RealScalar.v) is a commutative ring and satisfies the three scalar laws
       used by the algebraic proofs: [a / b = a * (1 / b)], [1 / (a * b) = (1/a) * (1/b)]
       (unconditional: Coq's [/ 0 = 0]) and [fpow x (1+1) = x * x] (unconditional for the
       integer-aware [fpow] chosen there; it would hold only for [0 < x] with plain [Rpower],
       see [Rpower_two_counterexample]).
    1. C02, scalar part: every rule of [dual_ops] (Model/Scalar.v) is the mathematical
       derivative, in the form "for every curve [x] with [is_derive x t0 x'], the curve
       [t |-> prim (x t)] has derivative [snd (prim_dual (x t0, x'))] at [t0]" ([d_fadd],
       [d_fsub], [d_fneg], [d_fmul], [d_fdiv] (denominator <> 0), [d_fexp], [d_fln] (x > 0),
       [d_fpow] (constant exponent; x > 0 any real exponent, or integer exponent and x <> 0,
       or natural exponent at every x), [d_pow_nat], [d_pow_neg_nat], [d_sigmoid],
       [d_relu] (x <> 0); [relu_not_derivable_at_0] with the code's convention [relu'_at_0]).
    2. C07, softmax rows: [softmax_rows_R].
    No axiom is declared here; [Print Assumptions] at the end of the file lists the
    standard-library axioms used. *)

From Coq Require Import List Arith Bool Lia PeanoNat ZArith Reals Lra Ring_theory.
From Coquelicot Require Import Coquelicot.
From Corgi Require Import Lib.OptionMonad Lib.IdxDefs Lib.Idx Model.Scalar Model.RealScalar
     Model.Arr Model.SlicedOp Model.Elementwise Model.Ops Lib.Sums Proofs.ArrFacts Proofs.SpecDefs
     Proofs.SlicedOpSpec Proofs.EwSpec Proofs.ReduceSpec Proofs.FlattenSpec.
Import ListNotations.

Local Open Scope R_scope.

Theorem R_is_cring : is_cring R_ops.
Proof.
  unfold is_cring. cbn. constructor; intros; cbn; ring.
Qed.

Theorem R_div_mul_inv : forall a b : R,
    fdiv R_ops a b = fmul R_ops a (fdiv R_ops (f1 R_ops) b).
Proof. intros a b. cbn. unfold Rdiv. ring. Qed.

Theorem R_inv_mul : forall a b : R,
    fdiv R_ops (f1 R_ops) (fmul R_ops a b)
    = fmul R_ops (fdiv R_ops (f1 R_ops) a) (fdiv R_ops (f1 R_ops) b).
Proof. intros a b. cbn. unfold Rdiv. rewrite Rinv_mult. ring. Qed.

Lemma Int_part_IZR : forall z, Int_part (IZR z) = z.
Proof.
  intros z. unfold Int_part.
  assert (E : (z + 1)%Z = up (IZR z)).
  { apply tech_up; rewrite plus_IZR; lra. }
  rewrite <- E. lia.
Qed.

Lemma R_int_of_IZR : forall z, R_int_of (IZR z) = Some z.
Proof.
  intros z. unfold R_int_of. rewrite Int_part_IZR.
  destruct (Req_EM_T (IZR z) (IZR z)) as [_|N]; [reflexivity|]. exfalso. apply N. reflexivity.
Qed.

Lemma R_int_of_Some : forall e z, R_int_of e = Some z <-> e = IZR z.
Proof.
  intros e z. split.
  - unfold R_int_of. destruct (Req_EM_T e (IZR (Int_part e))) as [E|N]; [|discriminate].
    intros H. inversion H; subst. exact E.
  - intros ->. apply R_int_of_IZR.
Qed.

Lemma R_int_of_None : forall e, R_int_of e = None <-> forall z, e <> IZR z.
Proof.
  intros e. split.
  - intros H z E. apply R_int_of_Some in E. congruence.
  - intros H. destruct (R_int_of e) as [z|] eqn:E; [|reflexivity].
    apply R_int_of_Some in E. exfalso. exact (H z E).
Qed.


Lemma R_pow_int : forall x z, R_pow x (IZR z) = powerRZ x z.
Proof. intros x z. unfold R_pow. rewrite R_int_of_IZR. reflexivity. Qed.

(** natural exponents, at every base: [powf(x, n) = x^n] *)
Theorem R_pow_nat : forall x n, fpow R_ops x (INR n) = x ^ n.
Proof. intros x n. cbn. rewrite INR_IZR_INZ, R_pow_int. symmetry. apply pow_powerRZ. Qed.

(** negative integer exponents: [powf(x, -n) = 1 / x^n] *)
Theorem R_pow_neg_nat : forall x n, fpow R_ops x (- INR n) = / x ^ n.
Proof.
  intros x n. cbn. rewrite INR_IZR_INZ, <- opp_IZR, R_pow_int.
  destruct n as [|n]; [cbn; symmetry; apply Rinv_1|].
  cbn [powerRZ Z.of_nat Z.opp]. rewrite SuccNat2Pos.id_succ. reflexivity.
Qed.

(** the law used by the [BDiv] / [BRecip] closures ([two O = fadd O (f1 O) (f1 O)],
    Model/Ops.v): unconditional for this [fpow] *)
Theorem R_pow_two : forall x : R, fpow R_ops x (two R_ops) = fmul R_ops x x.
Proof.
  intros x. unfold two. cbn. replace (1 + 1) with (IZR 2) by lra. rewrite R_pow_int. cbn [powerRZ]. change (Pos.to_nat 2) with 2%nat. ring.
Qed.

(** positive base: the real power *)
Theorem R_pow_pos : forall x e, 0 < x -> fpow R_ops x e = Rpower x e.
Proof.
  intros x e Hx. cbn. unfold R_pow. destruct (R_int_of e) as [z|] eqn:E.
  - apply R_int_of_Some in E. subst e. apply powerRZ_Rpower. exact Hx.
  - destruct (Rlt_dec 0 x) as [_|N]; [reflexivity|]. exfalso. exact (N Hx).
Qed.

(** non-integer exponent at a non-positive base (real domain: only [x = 0 < e], value [0]) *)
Theorem R_pow_frac_nonpos : forall x e, (forall z, e <> IZR z) -> x <= 0 -> fpow R_ops x e = 0.
Proof.
  intros x e He Hx. cbn. unfold R_pow. apply R_int_of_None in He. rewrite He.
  destruct (Rlt_dec 0 x) as [H|_]; [lra|reflexivity].
Qed.

(** Why [fpow := Rpower] was rejected: stdlib's [ln] is [0] off the positive axis, hence
    [Rpower x e = 1] for every [x <= 0], and the squaring law fails there. *)
Remark Rpower_nonpos : forall x e, x <= 0 -> Rpower x e = 1.
Proof.
  intros x e Hx. unfold Rpower, ln. destruct (Rlt_dec 0 x) as [H|_]; [exfalso; lra|].
  rewrite Rmult_0_r. apply exp_0.
Qed.

Remark Rpower_two_pos : forall x, 0 < x -> Rpower x (1 + 1) = x * x.
Proof.
  intros x Hx. rewrite Rpower_plus, Rpower_1 by exact Hx. reflexivity.
Qed.

Remark Rpower_two_counterexample : Rpower (-2) (1 + 1) <> (-2) * (-2).
Proof. rewrite Rpower_nonpos by lra. lra. Qed.

(** The dual-number rules are the derivatives.

    Form: for every curve [x] differentiable at [t0] with derivative [x'], the curve
    [t |-> prim (x t)] has at [t0] the derivative [snd (prim_dual (x t0, x'))]; the first
    component of [prim_dual (x t0, x')] is [prim (x t0)] by definition ([dual_fst_*]). *)

Notation dR := (dual_ops R_ops).

(** the chain rule over [R], with the product written as in the dual rules *)
Lemma is_derive_comp_R : forall (f x : R -> R) (t0 l x' : R),
    is_derive f (x t0) l -> is_derive x t0 x' -> is_derive (fun t => f (x t)) t0 (l * x').
Proof.
  intros f x t0 l x' Hf Hx. replace (l * x') with (scal x' l) by apply Rmult_comm.
  exact (is_derive_comp f x t0 l x' Hf Hx).
Qed.

Lemma powerRZ_pos_pow : forall u n, powerRZ u (Z.of_nat n) = u ^ n.
Proof. intros. symmetry. apply pow_powerRZ. Qed.

Lemma is_derive_powerRZ : forall z u,
    (u <> 0 \/ (0 <= z)%Z) -> is_derive (fun v => powerRZ v z) u (IZR z * powerRZ u (z - 1)).
Proof.
  intros z u H. destruct z as [|p|p].
  - cbn [powerRZ]. replace (0 * _) with 0 by ring. apply @is_derive_const.
  - destruct (Pos2Nat.is_succ p) as (m & Em).
    assert (Ez : Z.pos p = Z.of_nat (S m)) by (rewrite <- Em; symmetry; apply positive_nat_Z).
    rewrite Ez. replace (Z.of_nat (S m) - 1)%Z with (Z.of_nat m) by lia.
    rewrite <- INR_IZR_INZ, powerRZ_pos_pow.
    apply (is_derive_ext (fun v => v ^ S m)); [intros t; symmetry; apply powerRZ_pos_pow|].
    remember (S m) as k eqn:Ek. auto_derive; [exact I|]. subst k. cbn [pred]. ring.
  - assert (Hu : u <> 0) by (destruct H as [H|H]; [exact H|lia]).
    destruct (Pos2Nat.is_succ p) as (m & Em).
    replace (Z.neg p - 1)%Z with (Z.neg (p + 1)) by lia.
    cbn [powerRZ]. rewrite Pos2Nat.inj_add, Em. change (Pos.to_nat 1) with 1%nat.
    replace (IZR (Z.neg p)) with (- INR (S m)).
    2:{ rewrite <- Em, INR_IZR_INZ, positive_nat_Z. rewrite <- opp_IZR. reflexivity. }
    remember (S m) as k eqn:Ek. auto_derive.
    + apply pow_nonzero. exact Hu.
    + subst k. cbn [pred]. replace (S m + 1)%nat with (S (S m)) by lia.
      assert (Hm : u ^ m <> 0) by (apply pow_nonzero; exact Hu).
      rewrite <- !tech_pow_Rmult. field. split; assumption.
Qed.

Section Curves.
  Variables (x y : R -> R) (t0 x' y' : R).
  Hypothesis Hx : is_derive x t0 x'.
  Hypothesis Hy : is_derive y t0 y'.

  Let Ex : ex_derive (fun t => x t) t0.
  Proof. exists x'. exact Hx. Qed.
  Let Ey : ex_derive (fun t => y t) t0.
  Proof. exists y'. exact Hy. Qed.
  Let Dx : Derive (fun t => x t) t0 = x'.
  Proof. apply is_derive_unique. exact Hx. Qed.
  Let Dy : Derive (fun t => y t) t0 = y'.
  Proof. apply is_derive_unique. exact Hy. Qed.

  Theorem d_fadd :
    is_derive (fun t => fadd R_ops (x t) (y t)) t0 (snd (fadd dR (x t0, x') (y t0, y'))).
  Proof. cbn. auto_derive; [tauto|]. rewrite Dx, Dy. ring. Qed.

  Theorem d_fsub :
    is_derive (fun t => fsub R_ops (x t) (y t)) t0 (snd (fsub dR (x t0, x') (y t0, y'))).
  Proof. cbn. auto_derive; [tauto|]. rewrite Dx, Dy. ring. Qed.

  Theorem d_fneg :
    is_derive (fun t => fneg R_ops (x t)) t0 (snd (fneg dR (x t0, x'))).
  Proof. cbn. auto_derive; [tauto|]. rewrite Dx. ring. Qed.

  Theorem d_fmul :
    is_derive (fun t => fmul R_ops (x t) (y t)) t0 (snd (fmul dR (x t0, x') (y t0, y'))).
  Proof. cbn. auto_derive; [tauto|]. rewrite Dx, Dy. ring. Qed.

  Theorem d_fdiv : y t0 <> 0 ->
    is_derive (fun t => fdiv R_ops (x t) (y t)) t0 (snd (fdiv dR (x t0, x') (y t0, y'))).
  Proof. intros H0. cbn. auto_derive; [tauto|]. rewrite Dx, Dy. field. exact H0. Qed.

  Theorem d_fexp :
    is_derive (fun t => fexp R_ops (x t)) t0 (snd (fexp dR (x t0, x'))).
  Proof. cbn. auto_derive; [tauto|]. rewrite Dx. ring. Qed.

  Theorem d_fln : 0 < x t0 ->
    is_derive (fun t => fln R_ops (x t)) t0 (snd (fln dR (x t0, x'))).
  Proof. intros H0. cbn. auto_derive; [tauto|]. rewrite Dx. field. lra. Qed.

  (** near [t0] the curve stays positive *)
  Lemma curve_pos_locally : 0 < x t0 -> locally t0 (fun t => 0 < x t).
  Proof.
    intros H0.
    pose proof (@ex_derive_continuous R_AbsRing R_NormedModule x t0 (ex_intro _ x' Hx)) as C.
    exact (C (fun v => 0 < v) (open_gt 0 (x t0) H0)).
  Qed.

  (** [powf] with a constant exponent [e] (the tangent [e'] of the exponent is ignored by the
      dual rule: exponents are constants of the program).  Domain: positive base and any real
      exponent; or integer exponent [z] and non-zero base; or natural exponent and any base. *)
  Theorem d_fpow : forall e e',
      (0 < x t0 \/ exists z, e = IZR z /\ (x t0 <> 0 \/ (0 <= z)%Z)) ->
      is_derive (fun t => fpow R_ops (x t) e) t0 (snd (fpow dR (x t0, x') (e, e'))).
  Proof.
    intros e e' Hdom. cbn.
    destruct (R_int_of e) as [z|] eqn:E.
    - apply R_int_of_Some in E. subst e.
      assert (Hz : x t0 <> 0 \/ (0 <= z)%Z).
      { destruct Hdom as [H|(z' & Ez & H)]; [left; lra|]. apply eq_IZR in Ez. subst z'. exact H. }
      rewrite <- minus_IZR, R_pow_int.
      apply (is_derive_ext (fun t => powerRZ (x t) z)); [intros t; symmetry; apply R_pow_int|].
      exact (is_derive_comp_R (fun v => powerRZ v z) x t0 _ x' (is_derive_powerRZ z (x t0) Hz) Hx).
    - assert (H0 : 0 < x t0).
      { destruct Hdom as [H|(z & Ez & _)]; [exact H|]. apply R_int_of_Some in Ez. congruence. }
      assert (E1 : R_int_of (e - 1) = None).
      { apply R_int_of_None. intros z Ez. pose proof (proj1 (R_int_of_None e) E (z + 1)%Z) as N.
        apply N. rewrite plus_IZR. lra. }
      apply (is_derive_ext_loc (fun t => Rpower (x t) e)).
      { generalize (curve_pos_locally H0). apply filter_imp. intros t Ht.
        symmetry. apply (R_pow_pos (x t) e Ht). }
      change (R_pow (x t0) (e - 1)) with (fpow R_ops (x t0) (e - 1)). rewrite R_pow_pos by exact H0.
      assert (Hp : Rpower (x t0) (e - 1) = Rpower (x t0) e * / x t0).
      { unfold Rminus. rewrite Rpower_plus, Rpower_Ropp, Rpower_1 by exact H0. reflexivity. }
      rewrite Hp. unfold Rpower.
      auto_derive; [tauto|]. rewrite Dx. field. lra.
  Qed.
End Curves.

(** the first components: the dual run computes the primal value (by definition) *)
Remark dual_fst : forall (X Y : @dual R),
    fst (fadd dR X Y) = fst X + fst Y /\ fst (fsub dR X Y) = fst X - fst Y /\
    fst (fmul dR X Y) = fst X * fst Y /\ fst (fdiv dR X Y) = fst X / fst Y /\
    fst (fneg dR X) = - fst X /\ fst (fexp dR X) = exp (fst X) /\ fst (fln dR X) = ln (fst X) /\
    fst (fpow dR X Y) = fpow R_ops (fst X) (fst Y).
Proof. intros. repeat split; reflexivity. Qed.

Theorem dual_fpow_nat : forall (n : nat) (u u' e' : R),
    fpow dR (u, u') (INR n, e') = (u ^ n, INR n * u ^ (n - 1) * u').
Proof.
  intros n u u' e'. cbn [fpow dual_ops fst snd]. f_equal; [apply R_pow_nat|].
  cbn [f1 R_ops fmul fsub]. destruct n as [|m].
  - cbn [INR]. ring.
  - replace (INR (S m) - 1) with (INR m) by (rewrite S_INR; ring).
    change (R_pow u (INR m)) with (fpow R_ops u (INR m)). rewrite R_pow_nat.
    replace (S m - 1)%nat with m by lia. reflexivity.
Qed.

Theorem d_pow_nat : forall (x : R -> R) (t0 x' : R) (n : nat),
    is_derive x t0 x' ->
    is_derive (fun t => x t ^ n) t0 (INR n * x t0 ^ (n - 1) * x').
Proof.
  intros x t0 x' n Hx.
  pose proof (d_fpow x t0 x' Hx (INR n) 0) as H.
  rewrite dual_fpow_nat in H. cbn [snd] in H.
  apply (is_derive_ext (fun t => fpow R_ops (x t) (INR n))); [intros t; apply R_pow_nat|].
  apply H. right. exists (Z.of_nat n). split; [apply INR_IZR_INZ|]. right. lia.
Qed.

(** negative integer exponents at a non-zero (in particular negative) base *)
Theorem d_pow_neg_nat : forall (x : R -> R) (t0 x' : R) (n : nat),
    is_derive x t0 x' -> x t0 <> 0 ->
    is_derive (fun t => / x t ^ n) t0 (snd (fpow dR (x t0, x') (- INR n, 0))).
Proof.
  intros x t0 x' n Hx H0.
  apply (is_derive_ext (fun t => fpow R_ops (x t) (- INR n))); [intros t; apply R_pow_neg_nat|].
  apply d_fpow; [exact Hx|]. right. exists (- Z.of_nat n)%Z.
  split; [rewrite opp_IZR, <- INR_IZR_INZ; reflexivity|]. left. exact H0.
Qed.

Definition sigmoid (x : R) : R := sigmoid_fn R_ops x.

Lemma sigmoid_eq : forall x, sigmoid x = 1 / (1 + exp (- x)).
Proof. reflexivity. Qed.

Lemma sigmoid_den_pos : forall x, 0 < 1 + exp (- x).
Proof. intros x. pose proof (exp_pos (- x)). lra. Qed.

(** the factor of the [BSigmoid] closure: [v * (1 - v)] at the cached value [v = sigmoid x] *)
Theorem sigmoid_derive : forall x, is_derive sigmoid x (sigmoid x * (1 - sigmoid x)).
Proof.
  intros x. unfold sigmoid, sigmoid_fn. cbn. pose proof (sigmoid_den_pos x) as Hd.
  auto_derive; [lra|]. field. lra.
Qed.

Theorem sigmoid_dual : forall x x',
    sigmoid_fn dR (x, x') = (sigmoid x, sigmoid x * (1 - sigmoid x) * x').
Proof.
  intros x x'. unfold sigmoid, sigmoid_fn. cbn. f_equal.
  pose proof (sigmoid_den_pos x) as Hd. field. lra.
Qed.

Theorem d_sigmoid : forall (x : R -> R) (t0 x' : R),
    is_derive x t0 x' ->
    is_derive (fun t => sigmoid_fn R_ops (x t)) t0 (snd (sigmoid_fn dR (x t0, x'))).
Proof.
  intros x t0 x' Hx. rewrite sigmoid_dual. cbn [snd].
  exact (is_derive_comp_R sigmoid x t0 _ x' (sigmoid_derive (x t0)) Hx).
Qed.

Definition relu (x : R) : R := if fgt0 R_ops x then x else f0 R_ops.
(** the factor of the [BRelu] closure *)
Definition relu' (x : R) : R := if fgt0 R_ops x then f1 R_ops else f0 R_ops.

Lemma relu_pos : forall x, 0 < x -> relu x = x /\ relu' x = 1.
Proof. intros x H. unfold relu, relu'. cbn. destruct (Rlt_dec 0 x); [split; reflexivity|tauto]. Qed.

Lemma relu_nonpos : forall x, x <= 0 -> relu x = 0 /\ relu' x = 0.
Proof.
  intros x H. unfold relu, relu'. cbn. destruct (Rlt_dec 0 x); [exfalso; lra|split; reflexivity].
Qed.

Theorem relu_derive : forall x, x <> 0 -> is_derive relu x (relu' x).
Proof.
  intros x Hx. destruct (Rlt_dec 0 x) as [Hp|Hn].
  - rewrite (proj2 (relu_pos x Hp)).
    apply (is_derive_ext_loc (fun t => t)); [|apply @is_derive_id].
    generalize (open_gt 0 x Hp). apply filter_imp. intros t Ht. symmetry. apply relu_pos. exact Ht.
  - assert (Hl : x < 0) by lra. rewrite (proj2 (relu_nonpos x (Rlt_le _ _ Hl))).
    apply (is_derive_ext_loc (fun _ => 0)); [|apply @is_derive_const].
    generalize (open_lt 0 x Hl). apply filter_imp. intros t Ht. symmetry. apply relu_nonpos. lra.
Qed.

Theorem relu_dual : forall x x',
    (if fgt0 dR (x, x') then (x, x') else f0 dR) = (relu x, relu' x * x').
Proof.
  intros x x'. unfold relu, relu'. cbn. destruct (Rlt_dec 0 x); f_equal; ring.
Qed.

Theorem d_relu : forall (x : R -> R) (t0 x' : R),
    is_derive x t0 x' -> x t0 <> 0 ->
    is_derive (fun t => relu (x t)) t0
              (snd (if fgt0 dR (x t0, x') then (x t0, x') else f0 dR)).
Proof.
  intros x t0 x' Hx H0. rewrite relu_dual. cbn [snd].
  exact (is_derive_comp_R relu x t0 _ x' (relu_derive (x t0) H0) Hx).
Qed.

(** at [0] the closure's factor is [0] (a convention: relu has no derivative there) *)
Remark relu'_at_0 : relu' 0 = 0.
Proof. apply relu_nonpos. lra. Qed.

Theorem relu_not_derivable_at_0 : ~ ex_derive relu 0.
Proof.
  intros (l & Hl). apply is_derive_Reals in Hl.
  destruct (Hl (1 / 2)) as (delta & Hd); [lra|].
  pose proof (cond_pos delta) as Hpos.
  assert (H1 : Rabs ((relu (0 + delta / 2) - relu 0) / (delta / 2) - l) < 1 / 2).
  { apply Hd; [lra|]. rewrite Rabs_pos_eq; lra. }
  assert (H2 : Rabs ((relu (0 + - (delta / 2)) - relu 0) / (- (delta / 2)) - l) < 1 / 2).
  { apply Hd; [lra|]. rewrite Rabs_Ropp, Rabs_pos_eq; lra. }
  rewrite (proj1 (relu_nonpos 0 (Rle_refl 0))) in H1, H2.
  rewrite (proj1 (relu_pos (0 + delta / 2) ltac:(lra))) in H1.
  rewrite (proj1 (relu_nonpos (0 + - (delta / 2)) ltac:(lra))) in H2.
  replace ((0 + delta / 2 - 0) / (delta / 2) - l) with (1 - l) in H1 by (field; lra).
  replace ((0 - 0) / - (delta / 2) - l) with (- l) in H2 by (field; lra).
  apply Rabs_def2 in H1. apply Rabs_def2 in H2. lra.
Qed.

Lemma vsum_R_nonneg : forall l : list R, List.Forall (fun v => 0 < v) l -> 0 <= vsum R_ops l.
Proof.
  intros l H. induction H as [|v l Hv _ IH].
  - rewrite (vsum_nil R_ops). cbn. lra.
  - rewrite (vsum_cons R_ops R_is_cring). cbn [fadd R_ops]. lra.
Qed.

Lemma vsum_R_pos : forall l : list R, l <> [] -> List.Forall (fun v => 0 < v) l -> 0 < vsum R_ops l.
Proof.
  intros [|v l] Hne H; [congruence|]. inversion H as [|? ? Hv Hl]; subst.
  rewrite (vsum_cons R_ops R_is_cring). cbn [fadd R_ops].
  pose proof (vsum_R_nonneg l Hl). lra.
Qed.

Lemma exp_list_pos : forall l : list R, List.Forall (fun v => 0 < v) (map exp l).
Proof. intros l. apply Forall_forall. intros y Hy. apply in_map_iff in Hy.
       destruct Hy as (v & <- & _). apply exp_pos. Qed.

(** the scalar fact: the normalised exponentials of a non-empty row sum to one *)
Lemma softmax_row_sum : forall row : list R,
    row <> [] ->
    let s := vsum R_ops (map (fexp R_ops) row) in
    0 < s /\ vsum R_ops (map (fun v => fdiv R_ops (fexp R_ops v) s) row) = 1.
Proof.
  intros row Hne s.
  assert (Hs : 0 < s).
  { apply vsum_R_pos; [|apply exp_list_pos]. destruct row; [congruence|discriminate]. }
  split; [exact Hs|].
  transitivity (vsum R_ops (map (fun y => fmul R_ops y (/ s)) (map (fexp R_ops) row))).
  { rewrite map_map. reflexivity. }
  rewrite (vsum_map_mul_r R_ops R_is_cring). fold s. cbn [fmul R_ops]. apply Rinv_r. lra.
Qed.

Theorem softmax_rows_R : forall (a : arr R) lead n,
    wf a -> dims a = lead ++ [n] ->
    exists c, a_softmax R_ops a = Some c /\ wf c /\ dims c = lead ++ [n] /\
      (* every entry is positive *)
      List.Forall (fun v => 0 < v) (vals c) /\
      (forall I, in_range I (dims c) -> exists v, get c I = Some v /\ 0 < v) /\
      (* every row, read element by element through [get], sums (left fold) to one *)
      forall J, in_range J lead ->
        exists row, map Some row = map (fun i => get c (J ++ [i])) (seq 0 n) /\
                    vsum R_ops row = 1.
Proof.
  intros a lead n Hwa Ed.
  destruct (a_softmax_spec R_ops a lead n Hwa Ed) as (c & Hc & Hwc & Hdc & Hval).
  destruct (wf_snoc a lead n Hwa Ed) as (Hpl & Hn & Hva).
  rewrite Ed in Hdc.
  assert (Hblk : forall J, in_range J lead -> length (block n (rowmajor lead J) (vals a)) = n).
  { intros J HJ. apply (block_length _ _ (prod lead)); [exact Hva|].
    apply rowmajor_lt_prod. exact HJ. }
  assert (Hne : forall J, in_range J lead -> block n (rowmajor lead J) (vals a) <> []).
  { intros J HJ E. pose proof (Hblk J HJ) as L. rewrite E in L. cbn in L. lia. }
  (* entries through [get] *)
  assert (Hget : forall I, in_range I (dims c) -> exists v, get c I = Some v /\ 0 < v).
  { intros I HI. rewrite Hdc in HI. unfold in_range in HI.
    apply Forall2_app_inv_r in HI. destruct HI as (J & K & HJ & HK & ->).
    inversion HK as [|i ? K' ? Hi HK']; subst. inversion HK'; subst.
    destruct (Hval J i HJ Hi) as (v & _ & Hcv). eexists. split; [exact Hcv|].
    destruct (softmax_row_sum _ (Hne J HJ)) as [Hs _]. cbv zeta in Hs. cbn [fdiv fexp R_ops] in *.
    apply Rdiv_lt_0_compat; [apply exp_pos|exact Hs]. }
  exists c. split; [exact Hc|]. split; [exact Hwc|]. split; [exact Hdc|].
  split; [|split; [exact Hget|]].
  - apply Forall_forall. intros v Hv. apply In_nth_error in Hv. destruct Hv as (p & Hp).
    destruct Hwc as [Hpc Hlc].
    assert (Hlt : (p < prod (dims c))%nat).
    { rewrite Hlc. apply nth_error_Some. congruence. }
    destruct (Hget (unrank (dims c) p)) as (w & Hw & Hw0); [apply unrank_lt; exact Hpc|].
    unfold get in Hw. rewrite rowmajor_unrank in Hw by assumption. congruence.
  - intros J HJ.
    assert (HlenJ : length J = length lead) by (eapply Forall2_len; exact HJ).
    set (blk := block n (rowmajor lead J) (vals a)).
    set (s := vsum R_ops (map (fexp R_ops) blk)).
    exists (map (fun v => fdiv R_ops (fexp R_ops v) s) blk). split.
    + assert (Hb : length blk = n) by (apply Hblk; exact HJ).
      rewrite (list_as_map_seq blk 0) at 1. rewrite Hb, !map_map.
      apply map_ext_in. intros i Hi. apply in_seq in Hi.
      destruct (Hval J i HJ ltac:(lia)) as (v & Hav & Hcv). fold blk in Hcv. fold s in Hcv.
      rewrite Hcv. f_equal. f_equal. f_equal.
      pose proof (row_get a lead n J i Ed HlenJ ltac:(lia)) as Hr. fold blk in Hr.
      rewrite Hav in Hr. apply nth_error_nth. exact Hr.
    + apply (softmax_row_sum blk). apply Hne. exact HJ.
Qed.

(** positivity for any successful run *)
Corollary softmax_entries_pos : forall (a c : arr R) lead n,
    wf a -> dims a = lead ++ [n] -> a_softmax R_ops a = Some c ->
    forall v, In v (vals c) -> 0 < v.
Proof.
  intros a c lead n Hwa Ed Hc v Hv.
  destruct (softmax_rows_R a lead n Hwa Ed) as (c' & Hc' & _ & _ & Hpos & _).
  assert (c' = c) by congruence. subst c'.
  exact (proj1 (Forall_forall _ _) Hpos v Hv).
Qed.

(** non-vacuity: a concrete 2x2 array *)
Example softmax_2x2 :
  let a := {| dims := [2; 2]%nat; vals := [0; 1; 2; 3] |} in
  exists c v00 v01 v10 v11,
    a_softmax R_ops a = Some c /\
    get c [0; 0]%nat = Some v00 /\ get c [0; 1]%nat = Some v01 /\
    get c [1; 0]%nat = Some v10 /\ get c [1; 1]%nat = Some v11 /\
    0 < v00 /\ 0 < v01 /\ 0 < v10 /\ 0 < v11 /\
    v00 + v01 = 1 /\ v10 + v11 = 1.
Proof.
  intros a.
  assert (Hwa : wf a).
  { split; cbn; [repeat constructor|reflexivity]. }
  destruct (softmax_rows_R a [2%nat] 2%nat Hwa eq_refl) as (c & Hc & Hwc & Hdc & Hpos & Hget & Hrow).
  assert (R0 : in_range [0%nat] [2%nat]) by (constructor; [lia|constructor]).
  assert (R1 : in_range [1%nat] [2%nat]) by (constructor; [lia|constructor]).
  destruct (Hrow _ R0) as (row0 & Hm0 & Hs0). destruct (Hrow _ R1) as (row1 & Hm1 & Hs1).
  cbn [seq map app] in Hm0, Hm1.
  destruct row0 as [|v00 [|v01 [|? ?]]]; try discriminate Hm0.
  destruct row1 as [|v10 [|v11 [|? ?]]]; try discriminate Hm1.
  cbn [map] in Hm0, Hm1. inversion Hm0 as [[E00 E01]]. inversion Hm1 as [[E10 E11]].
  exists c, v00, v01, v10, v11.
  assert (P : forall I v, in_range I (dims c) -> get c I = Some v -> 0 < v).
  { intros I v HI Hv. destruct (Hget I HI) as (w & Hw & Hw0). congruence. }
  assert (Rg : forall i j, (i < 2)%nat -> (j < 2)%nat -> in_range [i; j] (dims c)).
  { intros i j Hi Hj. rewrite Hdc. constructor; [exact Hi|]. constructor; [exact Hj|constructor]. }
  unfold vsum in Hs0, Hs1. cbn in Hs0, Hs1.
  split; [exact Hc|]. repeat split; try (symmetry; assumption); try lra.
  - apply (P [0; 0]%nat); [apply Rg; lia|congruence].
  - apply (P [0; 1]%nat); [apply Rg; lia|congruence].
  - apply (P [1; 0]%nat); [apply Rg; lia|congruence].
  - apply (P [1; 1]%nat); [apply Rg; lia|congruence].
Qed.

(** Axioms used (all declared by Coq's standard library; none by this development) *)
Print Assumptions R_is_cring.
Print Assumptions R_div_mul_inv.
Print Assumptions R_inv_mul.
Print Assumptions R_pow_two.
Print Assumptions R_pow_nat.
Print Assumptions R_pow_neg_nat.
Print Assumptions R_pow_pos.
Print Assumptions d_fadd.
Print Assumptions d_fsub.
Print Assumptions d_fneg.
Print Assumptions d_fmul.
Print Assumptions d_fdiv.
Print Assumptions d_fexp.
Print Assumptions d_fln.
Print Assumptions d_fpow.
Print Assumptions d_pow_nat.
Print Assumptions d_pow_neg_nat.
Print Assumptions sigmoid_derive.
Print Assumptions sigmoid_dual.
Print Assumptions d_sigmoid.
Print Assumptions relu_derive.
Print Assumptions d_relu.
Print Assumptions relu_not_derivable_at_0.
Print Assumptions softmax_row_sum.
Print Assumptions softmax_rows_R.
Print Assumptions softmax_2x2.
