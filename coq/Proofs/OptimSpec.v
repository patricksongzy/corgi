(** C13: a gradient-descent update is exactly one step per parameter and clears
    gradients (src/optimizer/gd.rs, [GradientDescent::update]; src/model.rs, [Model::update]).

    [F] and [O : ScalarOps F] are arbitrary: the update is the literal
    [fsub O x (fmul O lr g)], no algebraic law is used.

    Contents:
    - list facts (alignment of [concat]/[firstn]/[skipn]; [sgd_zip] over appended lists);
    - the closed form of [gd_update] ([gd_update_closed]): the final node list is the
      old node list with the gradient slots of the unfrozen parameters emptied,
      followed by one fresh node per unfrozen parameter;
    - the position-wise reading [gd_post] and the main theorem [gd_update_spec];
    - [gd_update_all_frozen], [model_update_spec];
    - parameter lists with several handles of one node: as in corgi, "frozen" is decided
      while walking the list ([frozen_flags]); [frozen_flags_false_iff] characterises the
      flags, [frozen_flags_nodup] shows they are the up-front test when no node repeats,
      [gd_update_alias_spec] / [gd_post_alias] describe the later handles of a stepped node;
    - examples over [Z_ops]: non-vacuity, and the refutation without the length
      hypothesis (what C03 provides). *)

From Coq Require Import List Arith Bool Lia.
From Corgi Require Import Lib.OptionMonad Lib.ListFacts Model.Scalar Model.Arr Model.Ops
     Model.Engine Model.Program Proofs.ArrFacts Proofs.EngineBase.
Import ListNotations.

(** * List facts *)

Fixpoint map2 {A B C} (f : A -> B -> C) (l1 : list A) (l2 : list B) : list C :=
  match l1, l2 with
  | a :: l1', b :: l2' => f a b :: map2 f l1' l2'
  | _, _ => []
  end.

Lemma map2_length : forall {A B C} (f : A -> B -> C) l1 l2,
    length l2 = length l1 -> length (map2 f l1 l2) = length l1.
Proof.
  intros A B C f l1. induction l1 as [|a l1 IH]; intros [|b l2] H; simpl in *;
    try reflexivity; try discriminate.
  f_equal. apply IH. lia.
Qed.

Lemma map2_nth : forall {A B C} (f : A -> B -> C) l1 l2 i a b,
    nth_error l1 i = Some a -> nth_error l2 i = Some b ->
    nth_error (map2 f l1 l2) i = Some (f a b).
Proof.
  intros A B C f l1. induction l1 as [|x l1 IH]; intros [|y l2] [|i] a b H1 H2; simpl in *;
    try discriminate.
  - congruence.
  - eapply IH; eassumption.
Qed.

Lemma combine_map_r : forall {A B} (f : A -> B) (l : list A),
    combine l (map f l) = map (fun x => (x, f x)) l.
Proof. intros A B f l. induction l as [|x l IH]; simpl; [reflexivity | f_equal; exact IH]. Qed.

Lemma filter_mask : forall {A} (fr f : A -> bool) (l : list A),
    (forall x, negb (fr x) = f x) ->
    map fst (filter (fun p : A * bool => negb (snd p)) (map (fun x => (x, fr x)) l)) = filter f l.
Proof.
  intros A fr f l H. induction l as [|x l IH]; simpl; [reflexivity|].
  rewrite (H x). destruct (f x); simpl; [f_equal|]; exact IH.
Qed.

Lemma existsb_eqb_In : forall (j : nat) (l : list nat), existsb (Nat.eqb j) l = true <-> In j l.
Proof.
  intros j l. rewrite existsb_exists. split.
  - intros (x & Hx & E). apply Nat.eqb_eq in E. subst x. exact Hx.
  - intros H. exists j. split; [exact H | apply Nat.eqb_refl].
Qed.

(** the element at position [i] of a list without repetition (up to [f]) does not occur before *)
Lemma nodup_first_occ : forall {A B} (f : A -> B) (l : list A) i x,
    NoDup (map f l) -> nth_error l i = Some x -> ~ In (f x) (map f (firstn i l)).
Proof.
  intros A B f l. induction l as [|y l IH]; intros i x Hnd Hi; [destruct i; discriminate Hi |].
  inversion Hnd as [|? ? Hnin Hnd']; subst. destruct i as [|i]; simpl in *; [tauto |].
  intros [He | Hin].
  - apply Hnin. rewrite He. apply in_map. eapply nth_error_In. exact Hi.
  - apply (IH i x Hnd' Hi Hin).
Qed.

Section OptimSpec.
  Context {F : Type} (O : ScalarOps F).

  Local Notation state := (@Program.state F).
  Local Notation gnode := (@Program.gnode F).

  (** ** One step, element-wise *)

  Definition sgd_step (lr : F) : F -> F -> F := fun x gx => fsub O x (fmul O lr gx).

  Lemma sgd_zip_length : forall lr xs gs, length (sgd_zip O lr xs gs) = length xs.
  Proof.
    intros lr xs. induction xs as [|x xs IH]; intros [|g gs]; simpl; try reflexivity.
    f_equal. apply IH.
  Qed.

  Lemma sgd_zip_app : forall lr xs gs xs' gs',
      length gs = length xs ->
      sgd_zip O lr (xs ++ xs') (gs ++ gs') = sgd_zip O lr xs gs ++ sgd_zip O lr xs' gs'.
  Proof.
    intros lr xs. induction xs as [|x xs IH]; intros [|g gs] xs' gs' H; simpl in *;
      try discriminate.
    - reflexivity.
    - f_equal. apply IH. lia.
  Qed.

  Lemma sgd_zip_map2 : forall lr xs gs,
      length gs = length xs -> sgd_zip O lr xs gs = map2 (sgd_step lr) xs gs.
  Proof.
    intros lr xs. induction xs as [|x xs IH]; intros [|g gs] H; simpl in *;
      try reflexivity; try discriminate.
    unfold sgd_step at 1. f_equal. apply IH. lia.
  Qed.

  (** ** Vocabulary *)

  Definition is_frozen (s : state) (h : handle) : bool :=
    match grad_of s h with None => true | Some _ => false end.

  Definition has_grad (s : state) (h : handle) : bool :=
    match grad_of s h with Some _ => true | None => false end.

  (** the handles of a flagged list whose flag is [false], in order *)
  Definition unf_of (pf : list (handle * bool)) : list handle :=
    map fst (filter (fun p : handle * bool => negb (snd p)) pf).

  (** the parameters paired with the flags of corgi's walk ([frozen_flags]) *)
  Definition flagged (s : state) (params : list handle) : list (handle * bool) :=
    combine params (frozen_flags s [] params).

  (** the parameters that are stepped, in order: those that hold a gradient and whose node
      does not occur earlier in the list *)
  Definition unfrozen (s : state) (params : list handle) : list handle :=
    unf_of (flagged s params).

  Definition pvals_of (s : state) (h : handle) : list F :=
    match h_node s h with Some nd => p_vals (n_pay nd) | None => [] end.

  Definition gvals_of (s : state) (h : handle) : list F :=
    match grad_of s h with Some g => vals g | None => [] end.

  Lemma grad_of_some : forall (s : state) h g,
      grad_of s h = Some g <-> exists nd, h_node s h = Some nd /\ n_grad nd = Some g.
  Proof.
    intros s h g. unfold grad_of. destruct (h_node s h) as [nd|].
    - split; [intros H; exists nd; auto | intros (nd' & E & H); congruence].
    - split; [discriminate | intros (nd' & E & _); discriminate].
  Qed.

  Lemma h_arr_some : forall (s : state) h p,
      h_arr s h = Some p <-> exists nd, h_node s h = Some nd /\ p = pay_arr (n_pay nd).
  Proof.
    intros s h p. unfold h_arr. destruct (h_node s h) as [nd|]; simpl.
    - split; [intros H; exists nd; split; congruence | intros (nd' & E & H); congruence].
    - split; [discriminate | intros (nd' & E & _); discriminate].
  Qed.

  (** the gradient slot belongs to the node: two handles of one node see the same slot *)
  Lemma grad_of_node : forall (s : state) h1 h2, e_node h1 = e_node h2 -> grad_of s h1 = grad_of s h2.
  Proof. intros s h1 h2 H. unfold grad_of, h_node. rewrite H. reflexivity. Qed.

  Lemma in_unf_of : forall pf h, In h (unf_of pf) <-> In (h, false) pf.
  Proof.
    intros pf h. unfold unf_of. rewrite in_map_iff. split.
    - intros ([h' b] & E & Hin). simpl in E. subst h'. apply filter_In in Hin.
      destruct Hin as [Hin Hb]. simpl in Hb. destruct b; [discriminate Hb | exact Hin].
    - intro Hin. exists (h, false). split; [reflexivity |]. apply filter_In. split; [exact Hin | reflexivity].
  Qed.

  (** *** the flags of corgi's walk *)

  Lemma frozen_flags_length : forall (s : state) ps taken, length (frozen_flags s taken ps) = length ps.
  Proof.
    intros s ps. induction ps as [|h ps IH]; intros taken; simpl; [reflexivity |].
    destruct (grad_of s h); [destruct (existsb (Nat.eqb (e_node h)) taken) |]; simpl; f_equal; apply IH.
  Qed.

  (** a handle is stepped exactly when it holds a gradient and its node was not met before *)
  Lemma frozen_flags_false_iff : forall (s : state) ps taken i h,
      nth_error ps i = Some h ->
      (nth_error (frozen_flags s taken ps) i = Some false <->
       (exists g, grad_of s h = Some g) /\ ~ In (e_node h) taken /\
       ~ In (e_node h) (map e_node (firstn i ps))).
  Proof.
    intros s ps. induction ps as [|h0 ps IH]; intros taken i h Hi.
    - destruct i; discriminate Hi.
    - destruct i as [|i]; simpl in Hi.
      + injection Hi as ->. simpl. destruct (grad_of s h) as [g|] eqn:Hg.
        * destruct (existsb (Nat.eqb (e_node h)) taken) eqn:Hm; simpl.
          -- apply existsb_eqb_In in Hm. split; [discriminate | intros (_ & Hn & _); contradiction].
          -- split; [intros _ | reflexivity]. split; [eauto |]. split; [| intros []].
             intro Hin. apply existsb_eqb_In in Hin. congruence.
        * simpl. split; [discriminate | intros ((g & Hg') & _); discriminate].
      + cbn [firstn map In]. cbn [frozen_flags].
        destruct (grad_of s h0) as [g0|] eqn:Hg0.
        * destruct (existsb (Nat.eqb (e_node h0)) taken) eqn:Hm; cbn [nth_error].
          -- apply existsb_eqb_In in Hm. rewrite (IH taken i h Hi). split.
             ++ intros (Hg & Ht & Hf). split; [exact Hg |]. split; [exact Ht |].
                intros [He | Hin]; [apply Ht; rewrite <- He; exact Hm | exact (Hf Hin)].
             ++ intros (Hg & Ht & Hf). split; [exact Hg |]. split; [exact Ht |].
                intro Hin. apply Hf. right. exact Hin.
          -- rewrite (IH (e_node h0 :: taken) i h Hi). cbn [In]. split.
             ++ intros (Hg & Ht & Hf). split; [exact Hg |]. split; [tauto | tauto].
             ++ intros (Hg & Ht & Hf). split; [exact Hg |]. split; [tauto | tauto].
        * cbn [nth_error]. rewrite (IH taken i h Hi). split.
          -- intros (Hg & Ht & Hf). split; [exact Hg |]. split; [exact Ht |].
             intros [He | Hin]; [| exact (Hf Hin)].
             destruct Hg as (g & Hg). rewrite (grad_of_node s h h0 (eq_sym He)) in Hg. congruence.
          -- intros (Hg & Ht & Hf). split; [exact Hg |]. split; [exact Ht |].
             intro Hin. apply Hf. right. exact Hin.
  Qed.

  (** without repeated nodes, corgi's walk is the up-front test "holds no gradient" *)
  Lemma frozen_flags_nodup_gen : forall (s : state) ps taken,
      NoDup (map e_node ps) -> (forall h, In h ps -> ~ In (e_node h) taken) ->
      frozen_flags s taken ps = map (is_frozen s) ps.
  Proof.
    intros s ps. induction ps as [|h ps IH]; intros taken Hnd Hdis; simpl; [reflexivity |].
    inversion Hnd as [|? ? Hnin Hnd']; subst. unfold is_frozen at 1.
    destruct (grad_of s h) as [g|].
    - assert (Hm : existsb (Nat.eqb (e_node h)) taken = false).
      { destruct (existsb (Nat.eqb (e_node h)) taken) eqn:E; [| reflexivity].
        apply existsb_eqb_In in E. exfalso. apply (Hdis h (or_introl eq_refl) E). }
      rewrite Hm. f_equal. apply IH; [exact Hnd' |].
      intros h' Hh' [He | Hin].
      + apply Hnin. rewrite He. apply in_map. exact Hh'.
      + apply (Hdis h' (or_intror Hh') Hin).
    - f_equal. apply IH; [exact Hnd' |]. intros h' Hh'. apply Hdis. right. exact Hh'.
  Qed.

  Theorem frozen_flags_nodup : forall (s : state) params,
      NoDup (map e_node params) ->
      frozen_flags s [] params
      = map (fun h => match grad_of s h with None => true | Some _ => false end) params.
  Proof. intros s params H. apply (frozen_flags_nodup_gen s params [] H). intros h _ []. Qed.

  Lemma frozen_flags_firstn : forall (s : state) ps taken i,
      frozen_flags s taken (firstn i ps) = firstn i (frozen_flags s taken ps).
  Proof.
    intros s ps. induction ps as [|h ps IH]; intros taken i; [destruct i; reflexivity |].
    destruct i as [|i]; [reflexivity |]. cbn [firstn frozen_flags].
    destruct (grad_of s h); [destruct (existsb (Nat.eqb (e_node h)) taken) |]; cbn [firstn];
      f_equal; apply IH.
  Qed.

  Lemma flagged_firstn : forall (s : state) ps i, firstn i (flagged s ps) = flagged s (firstn i ps).
  Proof. intros s ps i. unfold flagged. rewrite combine_firstn, frozen_flags_firstn. reflexivity. Qed.

  Lemma flagged_length : forall (s : state) ps, length (flagged s ps) = length ps.
  Proof. intros s ps. unfold flagged. rewrite combine_length, frozen_flags_length. apply Nat.min_id. Qed.

  Lemma flagged_nth : forall (s : state) ps i h,
      nth_error ps i = Some h ->
      exists b, nth_error (frozen_flags s [] ps) i = Some b /\ nth_error (flagged s ps) i = Some (h, b).
  Proof.
    intros s ps i h Hi.
    assert (Hlt : i < length (frozen_flags s [] ps)).
    { rewrite frozen_flags_length. apply nth_error_Some. rewrite Hi. discriminate. }
    destruct (nth_error (frozen_flags s [] ps) i) as [b|] eqn:Hb; [| apply nth_error_None in Hb; lia].
    exists b. split; [reflexivity |]. unfold flagged.
    clear Hlt. revert i Hi Hb. generalize (frozen_flags s [] ps) as fl.
    induction ps as [|x ps IH]; intros fl i Hi Hb; [destruct i; discriminate Hi |].
    destruct fl as [|y fl]; [destruct i; discriminate Hb |].
    destruct i as [|i]; simpl in *; [congruence | apply IH; assumption].
  Qed.

  Lemma in_combine_flags : forall (s : state) ps taken h,
      In (h, false) (combine ps (frozen_flags s taken ps)) ->
      In h ps /\ exists g, grad_of s h = Some g.
  Proof.
    intros s ps. induction ps as [|h0 ps IH]; intros taken h Hin; [destruct Hin |].
    cbn [frozen_flags] in Hin.
    destruct (grad_of s h0) as [g0|] eqn:Hg0; [destruct (existsb (Nat.eqb (e_node h0)) taken) |];
      cbn [combine In] in Hin; destruct Hin as [Hin | Hin]; try discriminate Hin.
    - destruct (IH _ _ Hin) as [H1 H2]. split; [right; exact H1 | exact H2].
    - injection Hin as ->. split; [left; reflexivity | eauto].
    - destruct (IH _ _ Hin) as [H1 H2]. split; [right; exact H1 | exact H2].
    - destruct (IH _ _ Hin) as [H1 H2]. split; [right; exact H1 | exact H2].
  Qed.

  (** [->] only: a later handle of a node that was already stepped is not in the list *)
  Lemma in_unfrozen : forall (s : state) params h,
      In h (unfrozen s params) -> In h params /\ exists g, grad_of s h = Some g.
  Proof.
    intros s params h Hin. apply in_unf_of in Hin. apply (in_combine_flags s params [] h Hin).
  Qed.

  (** the stepped nodes are pairwise distinct, and every node of a handle with a gradient
      is among them *)
  Lemma unf_nodes_gen : forall (s : state) ps taken,
      NoDup (map e_node (unf_of (combine ps (frozen_flags s taken ps)))) /\
      (forall j, In j (map e_node (unf_of (combine ps (frozen_flags s taken ps)))) -> ~ In j taken) /\
      (forall h g, In h ps -> grad_of s h = Some g ->
                   In (e_node h) taken \/
                   In (e_node h) (map e_node (unf_of (combine ps (frozen_flags s taken ps))))).
  Proof.
    intros s ps. induction ps as [|h0 ps IH]; intros taken.
    - simpl. split; [constructor |]. split; [intros j [] | intros h g []].
    - cbn [frozen_flags]. destruct (grad_of s h0) as [g0|] eqn:Hg0.
      + destruct (existsb (Nat.eqb (e_node h0)) taken) eqn:Hm.
        * apply existsb_eqb_In in Hm. destruct (IH taken) as (I1 & I2 & I3).
          split; [exact I1 |]. split; [exact I2 |].
          intros h g [Hh | Hh] Hg; [subst h; left; exact Hm | apply (I3 h g Hh Hg)].
        * destruct (IH (e_node h0 :: taken)) as (I1 & I2 & I3).
          unfold unf_of in *. cbn [combine filter snd negb map fst].
          split; [| split].
          -- constructor; [| exact I1]. intro Hin. apply (I2 _ Hin). left. reflexivity.
          -- intros j [Hj | Hj].
             ++ subst j. intro Hin. apply existsb_eqb_In in Hin. congruence.
             ++ intro Hin. apply (I2 j Hj). right. exact Hin.
          -- intros h g [Hh | Hh] Hg.
             ++ subst h. right. left. reflexivity.
             ++ destruct (I3 h g Hh Hg) as [[He | Ht] | Hu].
                ** right. left. exact He.
                ** left. exact Ht.
                ** right. right. exact Hu.
      + destruct (IH taken) as (I1 & I2 & I3).
        split; [exact I1 |]. split; [exact I2 |].
        intros h g [Hh | Hh] Hg; [subst h; congruence | apply (I3 h g Hh Hg)].
  Qed.

  Theorem unfrozen_nodup : forall (s : state) params, NoDup (map e_node (unfrozen s params)).
  Proof. intros s params. apply (unf_nodes_gen s params []). Qed.

  Theorem unfrozen_nodes : forall (s : state) params h g,
      In h params -> grad_of s h = Some g -> In (e_node h) (map e_node (unfrozen s params)).
  Proof.
    intros s params h g Hh Hg. destruct (unf_nodes_gen s params []) as (_ & _ & H).
    destruct (H h g Hh Hg) as [[] | Hin]. exact Hin.
  Qed.

  (** without repeated nodes the stepped parameters are those that hold a gradient *)
  Theorem unfrozen_nodup_eq : forall (s : state) params,
      NoDup (map e_node params) -> unfrozen s params = filter (has_grad s) params.
  Proof.
    intros s params H. unfold unfrozen, flagged, unf_of. rewrite (frozen_flags_nodup_gen s params [] H).
    - rewrite combine_map_r. apply filter_mask.
      intro h. unfold is_frozen, has_grad. destruct (grad_of s h); reflexivity.
    - intros h _ [].
  Qed.

  Lemma flagged_true_nodup : forall (s : state) ps h,
      NoDup (map e_node ps) -> In (h, true) (flagged s ps) -> grad_of s h = None.
  Proof.
    intros s ps h Hnd Hin. unfold flagged in Hin.
    rewrite (frozen_flags_nodup_gen s ps [] Hnd), combine_map_r in Hin by (intros h' _ []).
    apply in_map_iff in Hin. destruct Hin as (h' & E & _). injection E as -> E.
    unfold is_frozen in E. destruct (grad_of s h); [discriminate E | reflexivity].
  Qed.

  (** the node allocated for an unfrozen parameter whose old node is [nd] and whose
      gradient is [g] *)
  Definition gd_new_node (tag id : nat) (lr : F) (nd : gnode) (g : arr F) : gnode :=
    {| n_pay := {| p_dims := p_dims (n_pay nd);
                   p_vals := map2 (sgd_step lr) (p_vals (n_pay nd)) (vals g);
                   p_bop := None; p_buf := id; p_tag := tag |};
       n_children := []; n_count := 0; n_delta := None; n_grad := None |}.

  (** the fresh nodes of a flagged list, in order; [base] is the id of the next node *)
  Fixpoint gd_new_f (s : state) (lr : F) (base : nat) (pf : list (handle * bool)) : list gnode :=
    match pf with
    | [] => []
    | (h, true) :: pf' => gd_new_f s lr base pf'
    | (h, false) :: pf' =>
      match h_node s h with
      | Some nd =>
        match n_grad nd with
        | Some g => gd_new_node (st_tag s) base lr nd g :: gd_new_f s lr (S base) pf'
        | None => gd_new_f s lr base pf'
        end
      | None => gd_new_f s lr base pf'
      end
    end.

  (** the returned handles: a frozen parameter is returned as is, an unfrozen one is
      rebound to its fresh node, tracked *)
  Fixpoint gd_out_f (base : nat) (pf : list (handle * bool)) : list handle :=
    match pf with
    | [] => []
    | (h, true) :: pf' => h :: gd_out_f base pf'
    | (h, false) :: pf' => mkh base true true :: gd_out_f (S base) pf'
    end.

  Definition gd_new (s : state) (lr : F) (base : nat) (ps : list handle) : list gnode :=
    gd_new_f s lr base (flagged s ps).

  Definition gd_out (s : state) (base : nat) (ps : list handle) : list handle :=
    gd_out_f base (flagged s ps).

  (** every handle flagged [false] has a node and a gradient *)
  Definition flags_ok (s : state) (pf : list (handle * bool)) : Prop :=
    forall h, In (h, false) pf -> exists nd g, h_node s h = Some nd /\ n_grad nd = Some g.

  Lemma flagged_ok : forall (s : state) ps, flags_ok s (flagged s ps).
  Proof.
    intros s ps h Hin. destruct (in_combine_flags s ps [] h Hin) as (_ & g & Hg).
    apply grad_of_some in Hg. destruct Hg as (nd & Hn & Hg). eauto.
  Qed.

  (** emptying the gradient slots of the nodes [ids] *)
  Definition clear_if (ids : list nat) (j : nat) (nd : gnode) : gnode :=
    if existsb (Nat.eqb j) ids then set_grad nd None else nd.

  Fixpoint clear_from (ids : list nat) (j : nat) (g : list gnode) : list gnode :=
    match g with
    | [] => []
    | nd :: g' => clear_if ids j nd :: clear_from ids (S j) g'
    end.

  Definition clear_grads (ids : list nat) (g : list gnode) : list gnode := clear_from ids 0 g.

  Lemma clear_from_nth : forall ids g j i,
      nth_error (clear_from ids j g) i = option_map (clear_if ids (j + i)) (nth_error g i).
  Proof.
    intros ids g. induction g as [|nd g IH]; intros j i; simpl.
    - destruct i; reflexivity.
    - destruct i as [|i]; simpl.
      + rewrite Nat.add_0_r. reflexivity.
      + rewrite IH. replace (S j + i) with (j + S i) by lia. reflexivity.
  Qed.

  Lemma clear_grads_nth : forall ids g i,
      nth_error (clear_grads ids g) i = option_map (clear_if ids i) (nth_error g i).
  Proof. intros ids g i. unfold clear_grads. rewrite clear_from_nth. reflexivity. Qed.

  Lemma clear_from_length : forall ids g j, length (clear_from ids j g) = length g.
  Proof. intros ids g. induction g as [|nd g IH]; intros j; simpl; [reflexivity | f_equal; apply IH]. Qed.

  Lemma clear_grads_length : forall ids g, length (clear_grads ids g) = length g.
  Proof. intros ids g. apply clear_from_length. Qed.

  Lemma clear_grads_nil : forall g, clear_grads [] g = g.
  Proof.
    intros g. apply nth_error_ext. intro j. rewrite clear_grads_nth.
    destruct (nth_error g j); reflexivity.
  Qed.

  Lemma clear_if_pay : forall ids j nd, n_pay (clear_if ids j nd) = n_pay nd.
  Proof. intros ids j nd. unfold clear_if. destruct (existsb (Nat.eqb j) ids); reflexivity. Qed.

  Lemma clear_if_in : forall ids j nd, In j ids -> clear_if ids j nd = set_grad nd None.
  Proof. intros ids j nd H. unfold clear_if. apply existsb_eqb_In in H. rewrite H. reflexivity. Qed.

  Lemma clear_if_notin : forall ids j nd, ~ In j ids -> clear_if ids j nd = nd.
  Proof.
    intros ids j nd H. unfold clear_if.
    destruct (existsb (Nat.eqb j) ids) eqn:E; [apply existsb_eqb_In in E; contradiction | reflexivity].
  Qed.

  Lemma set_grad_none_id : forall nd : gnode, n_grad nd = None -> set_grad nd None = nd.
  Proof. intros nd H. destruct nd. simpl in *. subst. reflexivity. Qed.

  Lemma with_nodes_id : forall s : state, with_nodes s (st_nodes s) = s.
  Proof. intros s. destruct s. reflexivity. Qed.

  (** ** Emptying the slots: the [clear_grad] fold *)

  Lemma clear_fold : forall (s : state) us done,
      (forall h, In h us -> e_node h < length (st_nodes s)) ->
      fold_left (fun (acc : option state) (h : handle) => st <- acc ;; clear_grad st h) us
                (Some (with_nodes s (clear_grads done (st_nodes s))))
      = Some (with_nodes s (clear_grads (done ++ map e_node us) (st_nodes s))).
  Proof.
    intros s us. induction us as [|h us IH]; intros done Hlt; simpl.
    - rewrite app_nil_r. reflexivity.
    - assert (Hh : e_node h < length (st_nodes s)) by (apply Hlt; left; reflexivity).
      destruct (nth_error (st_nodes s) (e_node h)) as [nd|] eqn:Hnd;
        [| apply nth_error_None in Hnd; lia].
      unfold clear_grad at 2. unfold h_node. simpl.
      rewrite clear_grads_nth, Hnd. simpl.
      destruct (put_some (clear_grads done (st_nodes s)) (e_node h)
                         (set_grad (clear_if done (e_node h) nd) None)) as (g' & Hput).
      { rewrite clear_grads_length. exact Hh. }
      rewrite Hput. simpl.
      assert (Eg : g' = clear_grads (done ++ [e_node h]) (st_nodes s)).
      { apply nth_error_ext. intro j. apply put_inv in Hput. destruct Hput as (_ & _ & Hj).
        rewrite Hj, !clear_grads_nth. unfold clear_if. rewrite existsb_app. simpl.
        destruct (j =? e_node h) eqn:Ej.
        - apply Nat.eqb_eq in Ej. subst j. rewrite Hnd. simpl. rewrite orb_true_r.
          destruct (existsb (Nat.eqb (e_node h)) done); reflexivity.
        - rewrite !orb_false_r. reflexivity. }
      subst g'.
      replace (done ++ e_node h :: map e_node us) with ((done ++ [e_node h]) ++ map e_node us)
        by (rewrite <- app_assoc; reflexivity).
      apply (IH (done ++ [e_node h])).
      intros h' Hin. apply Hlt. right. exact Hin.
  Qed.

  (** ** The rebuilding loop *)

  Definition gd_step (acc : option (state * list F * list handle)) (p : handle * bool)
    : option (state * list F * list handle) :=
    st <- acc ;;
    let '(s', buf', out) := st in
    let h := fst p in
    if snd p then Some (s', buf', out ++ [h])
    else
      a <- h_arr s' h ;;
      let n := length (vals a) in
      check (n <=? length buf') ;;
      na <- mk (dims a) (firstn n buf') ;;
      let '(s'', h') := alloc s' na [] None None in
      Some (s'', skipn n buf', out ++ [mkh (e_node h') true true]).

  Lemma gd_update_unfold : forall (s : state) lr params,
      gd_update O s lr params =
      (let unf := unfrozen s params in
       pv <- mapM (fun h => a <- h_arr s h ;; Some (vals a)) unf ;;
       pg <- mapM (fun h => g <- grad_of s h ;; Some (vals g)) unf ;;
       s1 <- fold_left (fun (acc : option state) (h : handle) => st <- acc ;; clear_grad st h)
                       unf (Some s) ;;
       r <- fold_left gd_step (flagged s params)
                      (Some (s1, sgd_zip O lr (concat pv) (concat pg), [])) ;;
       let '(s2, _, out) := r in Some (s2, out)).
  Proof. reflexivity. Qed.

  (** one iteration on an unfrozen parameter whose front of the buffer is [B1] *)
  Lemma gd_step_unfrozen : forall (s' : state) (B1 B2 : list F) out h nd',
      nth_error (st_nodes s') (e_node h) = Some nd' ->
      wf (pay_arr (n_pay nd')) ->
      length B1 = length (p_vals (n_pay nd')) ->
      gd_step (Some (s', B1 ++ B2, out)) (h, false)
      = Some (with_nodes s'
                (st_nodes s' ++
                 [{| n_pay := {| p_dims := p_dims (n_pay nd'); p_vals := B1; p_bop := None;
                                 p_buf := length (st_nodes s'); p_tag := st_tag s' |};
                     n_children := []; n_count := 0; n_delta := None; n_grad := None |}]),
              B2, out ++ [mkh (length (st_nodes s')) true true]).
  Proof.
    intros s' B1 B2 out h nd' Hn [Hd Hp] Hlen.
    unfold gd_step, h_arr, h_node. simpl. rewrite Hn. simpl.
    rewrite <- Hlen. rewrite firstn_app_len, skipn_app_len.
    assert (Hle : (length B1 <=? length (B1 ++ B2)) = true).
    { apply Nat.leb_le. rewrite app_length. lia. }
    rewrite Hle. simpl.
    assert (Hmk : mk (p_dims (n_pay nd')) B1
                  = Some {| dims := p_dims (n_pay nd'); vals := B1 |}).
    { apply mk_some. simpl in Hd, Hp. split; [exact Hd|]. split; [lia | reflexivity]. }
    rewrite Hmk. simpl. reflexivity.
  Qed.

  (** the nodes of [s'] extend those of [s] up to gradient slots *)
  Definition pay_agree (s s' : state) : Prop :=
    forall j nd, nth_error (st_nodes s) j = Some nd ->
                 exists nd', nth_error (st_nodes s') j = Some nd' /\ n_pay nd' = n_pay nd.

  Definition param_ok (s : state) (params : list handle) : Prop :=
    forall h nd g, In h params -> h_node s h = Some nd -> n_grad nd = Some g ->
                   wf (pay_arr (n_pay nd)) /\ length (vals g) = length (p_vals (n_pay nd)).

  Lemma gd_loop : forall (s : state) lr pf (s' : state) out,
      st_tag s' = st_tag s ->
      pay_agree s s' ->
      flags_ok s pf ->
      param_ok s (map fst pf) ->
      fold_left gd_step pf
                (Some (s',
                       sgd_zip O lr (concat (map (pvals_of s) (unf_of pf)))
                               (concat (map (gvals_of s) (unf_of pf))),
                       out))
      = Some (with_nodes s' (st_nodes s' ++ gd_new_f s lr (length (st_nodes s')) pf),
              [], out ++ gd_out_f (length (st_nodes s')) pf).
  Proof.
    intros s lr pf. induction pf as [|[h fb] pf IH]; intros s' out Htag Hag Hfl Hok.
    - simpl. rewrite !app_nil_r, with_nodes_id. reflexivity.
    - assert (Hfl' : flags_ok s pf) by (intros h' Hin; apply Hfl; right; exact Hin).
      assert (Hok' : param_ok s (map fst pf)).
      { intros h' nd g Hin. apply Hok. right. exact Hin. }
      destruct fb.
      + (* frozen *)
        cbn [fold_left gd_new_f gd_out_f]. unfold unf_of. cbn [filter snd negb]. fold (unf_of pf).
        unfold gd_step at 2. cbn [obind fst snd].
        rewrite IH by assumption. rewrite <- app_assoc. reflexivity.
      + (* unfrozen *)
        destruct (Hfl h (or_introl eq_refl)) as (nd & g & Hn & Hg).
        destruct (Hok h nd g (or_introl eq_refl) Hn Hg) as [Hwf Hlen].
        cbn [fold_left gd_new_f gd_out_f]. rewrite Hn, Hg.
        unfold unf_of. cbn [filter snd negb map fst concat]. fold (unf_of pf).
        assert (Epv : pvals_of s h = p_vals (n_pay nd)) by (unfold pvals_of; rewrite Hn; reflexivity).
        assert (Egv : gvals_of s h = vals g)
          by (unfold gvals_of, grad_of; rewrite Hn, Hg; reflexivity).
        rewrite Epv, Egv.
        rewrite sgd_zip_app by exact Hlen.
        unfold h_node in Hn. destruct (Hag _ _ Hn) as (nd' & Hn' & Epay).
        rewrite (gd_step_unfrozen s' _ _ out h nd' Hn').
        2:{ rewrite Epay. exact Hwf. }
        2:{ rewrite sgd_zip_length, Epay. reflexivity. }
        rewrite IH.
        * cbn [st_nodes with_nodes]. rewrite app_length. simpl length.
          rewrite Nat.add_1_r, <- !app_assoc. simpl.
          unfold gd_new_node. rewrite Epay, Htag, (sgd_zip_map2 _ _ _ Hlen).
          reflexivity.
        * exact Htag.
        * intros j nd0 Hj. destruct (Hag j nd0 Hj) as (nd0' & Hj' & E0).
          exists nd0'. split; [|exact E0]. cbn [st_nodes with_nodes].
          rewrite nth_error_app1; [exact Hj'|]. apply nth_error_Some. congruence.
        * exact Hfl'.
        * exact Hok'.
  Qed.

  Lemma map_fst_combine_flags : forall (s : state) ps taken,
      map fst (combine ps (frozen_flags s taken ps)) = ps.
  Proof.
    intros s ps taken. assert (H : length (frozen_flags s taken ps) = length ps) by apply frozen_flags_length.
    revert H. generalize (frozen_flags s taken ps) as fl.
    induction ps as [|x ps IH]; intros fl H; [reflexivity |].
    destruct fl as [|y fl]; [discriminate H |]. simpl. f_equal. apply IH. simpl in H. lia.
  Qed.

  (** ** Closed form *)

  Theorem gd_update_closed : forall (s : state) lr params,
      param_ok s params ->
      gd_update O s lr params =
      Some (with_nodes s (clear_grads (map e_node (unfrozen s params)) (st_nodes s)
                          ++ gd_new s lr (length (st_nodes s)) params),
            gd_out s (length (st_nodes s)) params).
  Proof.
    intros s lr params Hok. rewrite gd_update_unfold. cbv zeta.
    assert (HU : forall h, In h (unfrozen s params) ->
                           exists nd g, h_node s h = Some nd /\ n_grad nd = Some g).
    { intros h Hin. apply in_unfrozen in Hin. destruct Hin as (_ & g & Hg).
      apply grad_of_some in Hg. destruct Hg as (nd & Hn & Hg). eauto. }
    rewrite (mapM_some_map _ (pvals_of s)).
    2:{ intros h Hin. destruct (HU h Hin) as (nd & g & Hn & Hg).
        unfold h_arr, pvals_of. rewrite Hn. reflexivity. }
    rewrite (mapM_some_map _ (gvals_of s)).
    2:{ intros h Hin. destruct (HU h Hin) as (nd & g & Hn & Hg).
        unfold gvals_of, grad_of. rewrite Hn, Hg. reflexivity. }
    cbn [obind].
    pose proof (clear_fold s (unfrozen s params) []) as Hcl.
    rewrite clear_grads_nil, with_nodes_id in Hcl. rewrite Hcl; clear Hcl.
    2:{ intros h Hin. destruct (HU h Hin) as (nd & g & Hn & _).
        apply nth_error_Some. unfold h_node in Hn. congruence. }
    cbn [app obind]. unfold unfrozen at 2 3.
    rewrite gd_loop.
    - cbn [obind st_nodes with_nodes]. rewrite clear_grads_length. reflexivity.
    - reflexivity.
    - intros j nd Hj. cbn [st_nodes with_nodes]. rewrite clear_grads_nth, Hj. simpl.
      eexists. split; [reflexivity | apply clear_if_pay].
    - apply flagged_ok.
    - unfold flagged. rewrite map_fst_combine_flags. exact Hok.
  Qed.

  (** ** Position-wise reading of the closed form *)

  Lemma gd_out_f_length : forall pf base, length (gd_out_f base pf) = length pf.
  Proof.
    intros pf. induction pf as [|[h fb] pf IH]; intros base; simpl; [reflexivity |].
    destruct fb; simpl; f_equal; apply IH.
  Qed.

  Lemma gd_out_length : forall (s : state) ps base, length (gd_out s base ps) = length ps.
  Proof. intros s ps base. unfold gd_out. rewrite gd_out_f_length. apply flagged_length. Qed.

  Lemma gd_new_f_length : forall (s : state) lr pf base,
      flags_ok s pf -> length (gd_new_f s lr base pf) = length (unf_of pf).
  Proof.
    intros s lr pf. induction pf as [|[h fb] pf IH]; intros base Hfl; [reflexivity |].
    assert (Hfl' : flags_ok s pf) by (intros h' Hin; apply Hfl; right; exact Hin).
    destruct fb; cbn [gd_new_f]; unfold unf_of; cbn [filter snd negb map]; fold (unf_of pf).
    - apply IH. exact Hfl'.
    - destruct (Hfl h (or_introl eq_refl)) as (nd & g & Hn & Hg). rewrite Hn, Hg.
      cbn [length]. f_equal. apply IH. exact Hfl'.
  Qed.

  Lemma gd_new_length : forall (s : state) lr ps base,
      length (gd_new s lr base ps) = length (unfrozen s ps).
  Proof. intros s lr ps base. apply gd_new_f_length. apply flagged_ok. Qed.

  Lemma gd_out_f_true : forall pf base i h,
      nth_error pf i = Some (h, true) -> nth_error (gd_out_f base pf) i = Some h.
  Proof.
    intros pf. induction pf as [|[h0 fb] pf IH]; intros base i h Hi; [destruct i; discriminate Hi |].
    destruct i as [|i]; simpl in Hi.
    - injection Hi as -> ->. reflexivity.
    - destruct fb; simpl; apply IH; exact Hi.
  Qed.

  Lemma gd_f_false_nth : forall (s : state) lr pf base i h nd g,
      flags_ok s pf ->
      nth_error pf i = Some (h, false) -> h_node s h = Some nd -> n_grad nd = Some g ->
      let k := length (unf_of (firstn i pf)) in
      nth_error (gd_out_f base pf) i = Some (mkh (base + k) true true) /\
      nth_error (gd_new_f s lr base pf) k = Some (gd_new_node (st_tag s) (base + k) lr nd g).
  Proof.
    intros s lr pf. induction pf as [|[h0 fb] pf IH]; intros base i h nd g Hfl Hi Hn Hg.
    - destruct i; discriminate Hi.
    - assert (Hfl' : flags_ok s pf) by (intros h' Hin; apply Hfl; right; exact Hin).
      destruct i as [|i]; simpl in Hi.
      + injection Hi as -> ->. cbn [firstn gd_out_f gd_new_f]. rewrite Hn, Hg. simpl.
        rewrite Nat.add_0_r. split; reflexivity.
      + cbn [firstn gd_out_f gd_new_f]. unfold unf_of. cbn [filter snd negb]. destruct fb.
        * cbn [negb map]. fold (unf_of (firstn i pf)). cbn [nth_error].
          apply (IH base i h nd g Hfl' Hi Hn Hg).
        * cbn [negb map length]. fold (unf_of (firstn i pf)). cbn [nth_error].
          destruct (Hfl h0 (or_introl eq_refl)) as (nd0 & g0 & Hn0 & Hg0). rewrite Hn0, Hg0.
          cbn [nth_error].
          replace (base + S (length (unf_of (firstn i pf))))
            with (S base + length (unf_of (firstn i pf))) by lia.
          apply (IH (S base) i h nd g Hfl' Hi Hn Hg).
  Qed.

  (** a parameter without gradient, and a later handle of a node met before, are returned as
      they are *)
  Lemma gd_out_kept : forall (s : state) ps base i h,
      nth_error ps i = Some h ->
      grad_of s h = None \/ In (e_node h) (map e_node (firstn i ps)) ->
      nth_error (gd_out s base ps) i = Some h.
  Proof.
    intros s ps base i h Hi Hk. destruct (flagged_nth s ps i h Hi) as (fb & Hb & Hf).
    apply gd_out_f_true. destruct fb; [exact Hf |].
    apply (frozen_flags_false_iff s ps [] i h Hi) in Hb. destruct Hb as ((g & Hg) & _ & Hn).
    destruct Hk as [Hk | Hk]; [congruence | contradiction].
  Qed.

  (** the first handle of a node that holds a gradient is stepped *)
  Lemma gd_unfrozen_nth : forall (s : state) lr ps base i h nd g,
      nth_error ps i = Some h -> h_node s h = Some nd -> n_grad nd = Some g ->
      ~ In (e_node h) (map e_node (firstn i ps)) ->
      let k := length (unfrozen s (firstn i ps)) in
      nth_error (gd_out s base ps) i = Some (mkh (base + k) true true) /\
      nth_error (gd_new s lr base ps) k = Some (gd_new_node (st_tag s) (base + k) lr nd g).
  Proof.
    intros s lr ps base i h nd g Hi Hn Hg Hfirst. cbv zeta.
    destruct (flagged_nth s ps i h Hi) as (fb & Hb & Hf).
    assert (fb = false).
    { destruct fb; [| reflexivity]. exfalso.
      assert (Hfalse : nth_error (frozen_flags s [] ps) i = Some false).
      { apply (frozen_flags_false_iff s ps [] i h Hi). split; [| split; [intros [] | exact Hfirst]].
        exists g. apply grad_of_some. eauto. }
      congruence. }
    subst fb. unfold unfrozen. rewrite <- flagged_firstn.
    apply (gd_f_false_nth s lr (flagged s ps) base i h nd g (flagged_ok s ps) Hf Hn Hg).
  Qed.

  Lemma gd_new_f_inv : forall (s : state) lr pf base k nd',
      nth_error (gd_new_f s lr base pf) k = Some nd' ->
      exists nd g, nd' = gd_new_node (st_tag s) (base + k) lr nd g.
  Proof.
    intros s lr pf. induction pf as [|[h fb] pf IH]; intros base k nd' H; [destruct k; discriminate H |].
    cbn [gd_new_f] in H. destruct fb; [apply (IH base k nd' H) |].
    destruct (h_node s h) as [nd|]; [destruct (n_grad nd) as [g|] |]; try apply (IH base k nd' H).
    destruct k as [|k]; cbn [nth_error] in H.
    - injection H as <-. rewrite Nat.add_0_r. eauto.
    - rewrite <- Nat.add_succ_comm. apply (IH (S base) k nd' H).
  Qed.

  (** a returned handle is a frozen parameter or the tracked handle of a fresh node *)
  Lemma gd_out_f_In : forall pf base h',
      In h' (gd_out_f base pf) ->
      In (h', true) pf \/ exists k, k < length (unf_of pf) /\ h' = mkh (base + k) true true.
  Proof.
    intros pf. induction pf as [|[h fb] pf IH]; intros base h' Hin; [destruct Hin |].
    destruct fb; cbn [gd_out_f] in Hin; destruct Hin as [<- | Hin].
    - left. left. reflexivity.
    - destruct (IH base h' Hin) as [H | H]; [left; right; exact H | right; exact H].
    - right. exists 0. split; [apply Nat.lt_0_succ | rewrite Nat.add_0_r; reflexivity].
    - destruct (IH (S base) h' Hin) as [H | (k & Hk & ->)]; [left; right; exact H | right].
      exists (S k). split; [apply -> Nat.succ_lt_mono; exact Hk | rewrite Nat.add_succ_comm; reflexivity].
  Qed.

  (** old ids lie below [base], fresh ids start there: the returned ids do not repeat *)
  Lemma gd_out_f_nodup : forall pf base,
      (forall p, In p pf -> e_node (fst p) < base) -> NoDup (map e_node (map fst pf)) ->
      NoDup (map e_node (gd_out_f base pf)).
  Proof.
    intros pf. induction pf as [|[h fb] pf IH]; intros base Hlt Hnd; [constructor |].
    cbn [map fst] in Hnd. inversion Hnd as [|? ? Hnin Hnd']; subst.
    assert (Hh : e_node h < base) by (apply (Hlt (h, fb)); left; reflexivity).
    destruct fb; cbn [gd_out_f map]; constructor.
    - intro Hin. apply in_map_iff in Hin. destruct Hin as (h' & He & Hin).
      destruct (gd_out_f_In pf base h' Hin) as [H | (k & _ & ->)].
      + apply Hnin. rewrite <- He. apply (in_map (fun p => e_node (fst p)) pf (h', true)) in H.
        rewrite <- map_map in H. exact H.
      + cbn [e_node mkh] in He. lia.
    - apply IH; [intros p Hp; apply Hlt; right; exact Hp | exact Hnd'].
    - intro Hin. apply in_map_iff in Hin. destruct Hin as (h' & He & Hin). cbn [e_node mkh] in He.
      destruct (gd_out_f_In pf (S base) h' Hin) as [H | (k & _ & ->)].
      + assert (e_node h' < base) by (apply (Hlt (h', true)); right; exact H). lia.
      + cbn [e_node mkh] in He. lia.
    - apply IH; [intros p Hp; apply Nat.lt_lt_succ_r; apply Hlt; right; exact Hp | exact Hnd'].
  Qed.

  Lemma gd_out_nodup : forall (s : state) ps base,
      (forall h, In h ps -> e_node h < base) -> NoDup (map e_node ps) ->
      NoDup (map e_node (gd_out s base ps)).
  Proof.
    intros s ps base Hlt Hnd. rewrite <- (map_fst_combine_flags s ps []) in Hlt, Hnd.
    apply gd_out_f_nodup; [| exact Hnd]. intros p Hp. apply Hlt. apply in_map. exact Hp.
  Qed.

  (** the postcondition of a successful update, position by position *)
  Definition gd_post (s : state) (lr : F) (params : list handle)
             (s' : state) (out : list handle) : Prop :=
    let base := length (st_nodes s) in
    let U := unfrozen s params in
    (* (4) everything but the node list is unchanged *)
    (st_pool s' = st_pool s /\ st_layers s' = st_layers s /\ st_cost s' = st_cost s /\
     st_lr s' = st_lr s /\ st_output s' = st_output s /\ st_tag s' = st_tag s) /\
    (* shape: one output per parameter, one fresh node per unfrozen parameter *)
    length out = length params /\
    length (st_nodes s') = base + length U /\
    (* (1) a frozen parameter is returned unchanged and its node is untouched *)
    (forall i h, nth_error params i = Some h -> grad_of s h = None ->
       nth_error out i = Some h /\
       (forall nd, h_node s h = Some nd -> h_node s' h = Some nd)) /\
    (* (2) an unfrozen parameter -- the first handle of its node in the list -- is rebound to
       a fresh tracked node holding one step with its own gradient *)
    (forall i h p g, nth_error params i = Some h -> h_arr s h = Some p -> grad_of s h = Some g ->
       ~ In (e_node h) (map e_node (firstn i params)) ->
       let id := base + length (unfrozen s (firstn i params)) in
       nth_error out i = Some (mkh id true true) /\
       nth_error (st_nodes s') id =
       Some {| n_pay := {| p_dims := dims p;
                           p_vals := map2 (fun x gx => fsub O x (fmul O lr gx)) (vals p) (vals g);
                           p_bop := None; p_buf := id; p_tag := st_tag s |};
               n_children := []; n_count := 0; n_delta := None; n_grad := None |}) /\
    (* (3) old nodes: the gradient slot of an unfrozen parameter is emptied, nothing else
       changes *)
    (forall h nd, In h U -> h_node s h = Some nd -> h_node s' h = Some (set_grad nd None)) /\
    (forall j nd, nth_error (st_nodes s) j = Some nd -> ~ In j (map e_node U) ->
       nth_error (st_nodes s') j = Some nd).

  (** the state the update ends in ([gd_update_closed]) *)
  Definition gd_result (s : state) (lr : F) (params : list handle) : state :=
    with_nodes s (clear_grads (map e_node (unfrozen s params)) (st_nodes s)
                  ++ gd_new s lr (length (st_nodes s)) params).

  Lemma gd_result_old : forall (s : state) lr params j nd,
      nth_error (st_nodes s) j = Some nd ->
      nth_error (st_nodes (gd_result s lr params)) j
      = Some (clear_if (map e_node (unfrozen s params)) j nd).
  Proof.
    intros s lr params j nd Hj. cbn [gd_result st_nodes with_nodes]. rewrite nth_error_app1.
    - rewrite clear_grads_nth, Hj. reflexivity.
    - rewrite clear_grads_length. apply nth_error_Some. congruence.
  Qed.

  Lemma gd_result_new : forall (s : state) lr params k,
      nth_error (st_nodes (gd_result s lr params)) (length (st_nodes s) + k)
      = nth_error (gd_new s lr (length (st_nodes s)) params) k.
  Proof.
    intros s lr params k. cbn [gd_result st_nodes with_nodes].
    rewrite nth_error_app2; rewrite clear_grads_length; [| apply Nat.le_add_r].
    rewrite Nat.add_comm, Nat.add_sub. reflexivity.
  Qed.

  (** every node at or above the old length was made by the update *)
  Lemma gd_result_fresh : forall (s : state) lr params j nd',
      length (st_nodes s) <= j -> nth_error (st_nodes (gd_result s lr params)) j = Some nd' ->
      exists nd g, nd' = gd_new_node (st_tag s) j lr nd g.
  Proof.
    intros s lr params j nd' Hj H. rewrite <- (Nat.sub_add _ _ Hj), Nat.add_comm in H |- *.
    rewrite gd_result_new in H. apply (gd_new_f_inv _ _ _ _ _ _ H).
  Qed.

  (** the node of a listed handle ends without gradient and is otherwise unchanged: either it
      held none, or it is among the stepped nodes ([unfrozen_nodes]) *)
  Lemma gd_result_listed : forall (s : state) lr params h nd,
      In h params -> h_node s h = Some nd ->
      h_node (gd_result s lr params) h = Some (set_grad nd None).
  Proof.
    intros s lr params h nd Hh Hn. unfold h_node in *. rewrite (gd_result_old s lr params _ _ Hn).
    f_equal. destruct (n_grad nd) as [g|] eqn:Hg.
    - apply clear_if_in. apply (unfrozen_nodes s params h g Hh).
      unfold grad_of, h_node. rewrite Hn. exact Hg.
    - rewrite (set_grad_none_id nd Hg). unfold clear_if.
      destruct (existsb (Nat.eqb (e_node h)) (map e_node (unfrozen s params)));
        [apply set_grad_none_id; exact Hg | reflexivity].
  Qed.

  Lemma gd_result_no_grad : forall (s : state) lr params h,
      In h params -> grad_of (gd_result s lr params) h = None.
  Proof.
    intros s lr params h Hh. destruct (h_node s h) as [nd|] eqn:Hn.
    - unfold grad_of. rewrite (gd_result_listed s lr params h nd Hh Hn). reflexivity.
    - (* a dangling handle can only land on a fresh node, which has no gradient *)
      apply nth_error_None in Hn. unfold grad_of, h_node.
      destruct (nth_error (st_nodes (gd_result s lr params)) (e_node h)) as [nd'|] eqn:Hn'; [| reflexivity].
      destruct (gd_result_fresh s lr params _ nd' Hn Hn') as (nd & g & ->). reflexivity.
  Qed.

  Lemma gd_result_out : forall (s : state) lr params h',
      In h' (gd_out s (length (st_nodes s)) params) ->
      In (h', true) (flagged s params) \/
      exists nd g, length (st_nodes s) <= e_node h' /\ e_tracked h' = true /\ e_keep h' = true /\
                   h_node (gd_result s lr params) h'
                   = Some (gd_new_node (st_tag s) (e_node h') lr nd g).
  Proof.
    intros s lr params h' Hin.
    destruct (gd_out_f_In _ _ _ Hin) as [H | (k & Hk & ->)]; [left; exact H | right].
    fold (unfrozen s params) in Hk. rewrite <- (gd_new_length s lr params (length (st_nodes s))) in Hk.
    unfold h_node. cbn [e_node e_tracked e_keep mkh]. rewrite gd_result_new.
    destruct (nth_error (gd_new s lr (length (st_nodes s)) params) k) as [nd'|] eqn:Hk';
      [| apply nth_error_None in Hk'; lia].
    destruct (gd_new_f_inv _ _ _ _ _ _ Hk') as (nd & g & ->). exists nd, g.
    split; [apply Nat.le_add_r |]. repeat split.
  Qed.

  Lemma param_node : forall (s : state) h p g,
      h_arr s h = Some p -> grad_of s h = Some g ->
      exists nd, h_node s h = Some nd /\ p = pay_arr (n_pay nd) /\ n_grad nd = Some g.
  Proof.
    intros s h p g Hp Hg. apply h_arr_some in Hp. destruct Hp as (nd & Hn & ->).
    apply grad_of_some in Hg. destruct Hg as (nd' & Hn' & Hg). exists nd.
    split; [exact Hn |]. split; [reflexivity | congruence].
  Qed.

  Lemma gd_closed_post : forall (s : state) lr params,
      gd_post s lr params (gd_result s lr params) (gd_out s (length (st_nodes s)) params).
  Proof.
    intros s lr params. unfold gd_post.
    split; [repeat split |].
    split; [apply gd_out_length |].
    split; [cbn [gd_result st_nodes with_nodes];
            rewrite app_length, clear_grads_length, gd_new_length; reflexivity |].
    split; [| split; [| split]].
    - intros i h Hi Hg. split; [apply gd_out_kept; [exact Hi | left; exact Hg] |].
      intros nd Hn. rewrite (gd_result_listed s lr params h nd (nth_error_In _ _ Hi) Hn).
      f_equal. apply set_grad_none_id. unfold grad_of in Hg. rewrite Hn in Hg. exact Hg.
    - intros i h p g Hi Hp Hg Hfirst. cbv zeta.
      destruct (param_node s h p g Hp Hg) as (nd & Hn & -> & Hgn).
      destruct (gd_unfrozen_nth s lr params (length (st_nodes s)) i h nd g Hi Hn Hgn Hfirst) as [Ho Hnew].
      split; [exact Ho |]. rewrite gd_result_new. exact Hnew.
    - intros h nd Hin Hn. apply gd_result_listed; [apply (in_unfrozen s params h Hin) | exact Hn].
    - intros j nd Hj Hnin. rewrite (gd_result_old s lr params j nd Hj).
      f_equal. apply clear_if_notin. exact Hnin.
  Qed.

  (** ** Main theorem (C13) *)

  (** The hypotheses concern the parameters that hold a gradient: their node payload is a
      well-formed array and the gradient has as many elements as the parameter (C03).
      As in corgi, "frozen" is decided while walking the list: a later handle of a node
      whose gradient was already taken is frozen, so the stepped nodes are always pairwise
      distinct ([unfrozen_nodup]) and no such hypothesis is needed. *)
  Definition gd_pre (s : state) (params : list handle) : Prop :=
    forall h p g, In h params -> h_arr s h = Some p -> grad_of s h = Some g ->
                  wf p /\ length (vals g) = length (vals p).

  Lemma gd_pre_ok : forall (s : state) params, gd_pre s params -> param_ok s params.
  Proof.
    intros s params H h nd g Hin Hn Hg.
    apply (H h (pay_arr (n_pay nd)) g Hin).
    - apply h_arr_some. eauto.
    - apply grad_of_some. eauto.
  Qed.

  Theorem gd_update_spec : forall (s : state) lr params,
      gd_pre s params ->
      exists s' out, gd_update O s lr params = Some (s', out) /\ gd_post s lr params s' out.
  Proof.
    intros s lr params H. eexists. eexists. split.
    - apply gd_update_closed. apply gd_pre_ok. exact H.
    - apply gd_closed_post.
  Qed.

  (** the statement with the (always true) hypothesis that the stepped nodes are distinct *)
  Theorem gd_update_spec_nodup : forall (s : state) lr params,
      NoDup (map e_node (unfrozen s params)) ->
      gd_pre s params ->
      exists s' out, gd_update O s lr params = Some (s', out) /\ gd_post s lr params s' out.
  Proof. intros s lr params _ H. apply gd_update_spec. exact H. Qed.

  (** ** Parameter lists with several handles of one node *)

  (** what the update does to a later handle of a node that holds a gradient, and to the
      gradient slots of all listed nodes *)
  Definition gd_post_alias (s : state) (params : list handle)
             (s' : state) (out : list handle) : Prop :=
    (* (a) a handle whose node occurred earlier in the list is returned unchanged; if the node
       held a gradient the slot is now empty, and the node is otherwise unchanged *)
    (forall i h, nth_error params i = Some h -> In (e_node h) (map e_node (firstn i params)) ->
       nth_error out i = Some h /\
       (forall nd, h_node s h = Some nd -> h_node s' h = Some (set_grad nd None))) /\
    (* (c) after the update no listed node holds a gradient *)
    (forall h, In h params -> grad_of s' h = None) /\
    (* nor does any returned handle *)
    (forall h, In h out -> grad_of s' h = None).

  Lemma gd_closed_post_alias : forall (s : state) lr params,
      gd_post_alias s params (gd_result s lr params) (gd_out s (length (st_nodes s)) params).
  Proof.
    intros s lr params. split; [| split; [apply gd_result_no_grad |]].
    - intros i h Hi Hin. split; [apply gd_out_kept; [exact Hi | right; exact Hin] |].
      intros nd Hn. apply gd_result_listed; [eapply nth_error_In; exact Hi | exact Hn].
    - intros h Hin. destruct (gd_result_out s lr params h Hin) as [Hf | (nd & g & _ & _ & _ & Hn)].
      + apply gd_result_no_grad. apply in_combine_l in Hf. exact Hf.
      + unfold grad_of. rewrite Hn. reflexivity.
  Qed.

  (** the update of ANY parameter list, repeated nodes included: [gd_post] for the handles
      that are stepped (each with its own gradient: aliasing never shifts the flat buffers),
      [gd_post_alias] for the later handles of a stepped node *)
  Theorem gd_update_alias_spec : forall (s : state) lr params,
      gd_pre s params ->
      exists s' out, gd_update O s lr params = Some (s', out) /\
                     gd_post s lr params s' out /\ gd_post_alias s params s' out.
  Proof.
    intros s lr params H. eexists. eexists. split; [| split].
    - apply gd_update_closed. apply gd_pre_ok. exact H.
    - apply gd_closed_post.
    - apply gd_closed_post_alias.
  Qed.

  (** ** No parameter holds a gradient *)

  Lemma all_frozen_flags : forall (s : state) ps taken base lr,
      (forall h, In h ps -> grad_of s h = None) ->
      unf_of (combine ps (frozen_flags s taken ps)) = [] /\
      gd_new_f s lr base (combine ps (frozen_flags s taken ps)) = [] /\
      gd_out_f base (combine ps (frozen_flags s taken ps)) = ps.
  Proof.
    intros s ps taken base lr. induction ps as [|h ps IH]; intros H; [repeat split |].
    cbn [frozen_flags]. rewrite (H h (or_introl eq_refl)).
    destruct (IH (fun h' Hin => H h' (or_intror Hin))) as (E1 & E2 & E3).
    unfold unf_of in *. cbn [combine filter snd negb gd_new_f gd_out_f].
    split; [exact E1 |]. split; [exact E2 | rewrite E3; reflexivity].
  Qed.

  Theorem gd_update_all_frozen : forall (s : state) lr params,
      (forall h, In h params -> grad_of s h = None) ->
      gd_update O s lr params = Some (s, params).
  Proof.
    intros s lr params H.
    assert (Hok : param_ok s params).
    { intros h nd g Hin Hn Hg. specialize (H h Hin). unfold grad_of in H. rewrite Hn in H.
      congruence. }
    rewrite (gd_update_closed s lr params Hok).
    destruct (all_frozen_flags s params [] (length (st_nodes s)) lr H) as (E1 & E2 & E3).
    unfold unfrozen, gd_new, gd_out, flagged. rewrite E1, E2, E3. simpl.
    rewrite clear_grads_nil, app_nil_r, with_nodes_id. reflexivity.
  Qed.

  (** ** The model loop *)

  Lemma model_params_length : forall s : state,
      length (model_params s) = 2 * length (st_layers s).
  Proof.
    intros s. unfold model_params. induction (st_layers s) as [|l ls IH]; simpl; [reflexivity|].
    rewrite IH. lia.
  Qed.

  Lemma rebuild_layers_params : forall (ls : list layer) hs,
      length hs = 2 * length ls ->
      flat_map (fun l => [l_w l; l_b l]) (rebuild_layers ls hs) = hs.
  Proof.
    intros ls. induction ls as [|l ls IH]; intros hs H.
    - destruct hs; [reflexivity | discriminate].
    - destruct hs as [|w [|b hs]]; simpl in H; try lia.
      simpl. f_equal. f_equal. apply IH. lia.
  Qed.

  Lemma rebuild_layers_length : forall (ls : list layer) hs,
      length (rebuild_layers ls hs) = length ls.
  Proof.
    intros ls. induction ls as [|l ls IH]; intros hs; simpl; [reflexivity|].
    destruct hs as [|w [|b hs]]; simpl; try reflexivity. f_equal. apply IH.
  Qed.

  Lemma rebuild_layers_nth : forall (ls : list layer) hs k l,
      length hs = 2 * length ls ->
      nth_error ls k = Some l ->
      exists w b, nth_error hs (2 * k) = Some w /\ nth_error hs (2 * k + 1) = Some b /\
                  nth_error (rebuild_layers ls hs) k
                  = Some {| l_conv := l_conv l; l_act := l_act l; l_w := w; l_b := b |}.
  Proof.
    intros ls. induction ls as [|l0 ls IH]; intros hs k l H Hk.
    - destruct k; discriminate.
    - destruct hs as [|w [|b hs]]; simpl in H; try lia.
      destruct k as [|k]; simpl in Hk.
      + injection Hk as ->. exists w, b. simpl. auto.
      + assert (H' : length hs = 2 * length ls) by lia.
        destruct (IH hs k l H' Hk) as (w' & b' & H1 & H2 & H3).
        exists w', b'.
        replace (2 * S k) with (S (S (2 * k))) by lia.
        replace (S (S (2 * k)) + 1) with (S (S (2 * k + 1))) by lia.
        simpl nth_error. simpl in H1, H2. auto.
  Qed.

  (** [Model::update]: the optimizer runs over the layers' parameters
      [w_0; b_0; w_1; b_1; ...] and every layer is rebound, position-wise, to the
      returned handles; nothing else of the state changes. *)
  Theorem model_update_spec : forall s : state,
      gd_pre s (model_params s) ->
      exists s1 out,
        gd_update O s (st_lr s) (model_params s) = Some (s1, out) /\
        gd_post s (st_lr s) (model_params s) s1 out /\
        model_update O s = Some (with_layers s1 (rebuild_layers (st_layers s) out)) /\
        model_params (with_layers s1 (rebuild_layers (st_layers s) out)) = out /\
        length (rebuild_layers (st_layers s) out) = length (st_layers s) /\
        (forall k l, nth_error (st_layers s) k = Some l ->
           exists w b, nth_error out (2 * k) = Some w /\ nth_error out (2 * k + 1) = Some b /\
                       nth_error (rebuild_layers (st_layers s) out) k
                       = Some {| l_conv := l_conv l; l_act := l_act l; l_w := w; l_b := b |}).
  Proof.
    intros s Hpre.
    destruct (gd_update_spec s (st_lr s) (model_params s) Hpre) as (s1 & out & Hup & Hpost).
    exists s1, out.
    assert (Hlay : st_layers s1 = st_layers s) by (apply Hpost).
    assert (Hlen : length out = 2 * length (st_layers s)).
    { destruct Hpost as (_ & Hl & _). rewrite Hl. apply model_params_length. }
    split; [exact Hup|]. split; [exact Hpost|].
    split; [unfold model_update; rewrite Hup; simpl; rewrite Hlay; reflexivity|].
    split; [unfold model_params; cbn [st_layers with_layers];
            apply rebuild_layers_params; exact Hlen|].
    split; [apply rebuild_layers_length|].
    intros k l Hk. apply rebuild_layers_nth; assumption.
  Qed.

  Theorem model_update_spec_nodup : forall s : state,
      NoDup (map e_node (unfrozen s (model_params s))) ->
      gd_pre s (model_params s) ->
      exists s1 out,
        gd_update O s (st_lr s) (model_params s) = Some (s1, out) /\
        gd_post s (st_lr s) (model_params s) s1 out /\
        model_update O s = Some (with_layers s1 (rebuild_layers (st_layers s) out)) /\
        model_params (with_layers s1 (rebuild_layers (st_layers s) out)) = out /\
        length (rebuild_layers (st_layers s) out) = length (st_layers s) /\
        (forall k l, nth_error (st_layers s) k = Some l ->
           exists w b, nth_error out (2 * k) = Some w /\ nth_error out (2 * k + 1) = Some b /\
                       nth_error (rebuild_layers (st_layers s) out) k
                       = Some {| l_conv := l_conv l; l_act := l_act l; l_w := w; l_b := b |}).
  Proof. intros s _ H. apply model_update_spec. exact H. Qed.
End OptimSpec.

(** * Examples over exact integers *)

From Coq Require Import ZArith.

Module OptimExamples.
  Open Scope Z_scope.

  Definition znode (d : list nat) (v : list Z) (buf : nat) (g : option (arr Z)) : @gnode Z :=
    {| n_pay := {| p_dims := d; p_vals := v; p_bop := None; p_buf := buf; p_tag := 0 |};
       n_children := []; n_count := 0; n_delta := None; n_grad := g |}.

  Definition zstate (g : list (@gnode Z)) : @state Z :=
    {| st_nodes := g; st_pool := []; st_layers := []; st_cost := CMse; st_lr := 0;
       st_output := None; st_tag := 7 |}.

  (** what is observable of a node: dimensions, values, gradient slot *)
  Definition view (s : @state Z) : list (list nat * list Z * option (arr Z)) :=
    map (fun nd => (p_dims (n_pay nd), p_vals (n_pay nd), n_grad nd)) (st_nodes s).

  (** ** Non-vacuity: dims [2], [1;2], [3]; the middle parameter is frozen; lr = 2 *)

  Definition ex_state : @state Z :=
    zstate [ znode [2%nat] [10; 20] 0 (Some {| dims := [2%nat]; vals := [1; 2] |});
             znode [1%nat; 2%nat] [30; 40] 1 None;
             znode [3%nat] [50; 60; 70] 2 (Some {| dims := [3%nat]; vals := [3; 4; 5] |}) ].

  Definition ex_params : list handle := [mkh 0 true true; mkh 1 true false; mkh 2 false false].

  Example gd_update_example :
    exists s',
      gd_update Z_ops ex_state 2 ex_params
      = Some (s', [mkh 3 true true; mkh 1 true false; mkh 4 true true]) /\
      view s' = [ ([2%nat], [10; 20], None);
                  ([1%nat; 2%nat], [30; 40], None);
                  ([3%nat], [50; 60; 70], None);
                  ([2%nat], [10 - 2 * 1; 20 - 2 * 2], None);
                  ([3%nat], [50 - 2 * 3; 60 - 2 * 4; 70 - 2 * 5], None) ] /\
      st_pool s' = [] /\ st_layers s' = [] /\ st_lr s' = 0 /\ st_output s' = None.
  Proof. eexists. vm_compute. repeat split. Qed.

  (** the hypotheses of [gd_update_spec] hold of this instance *)
  Example gd_update_spec_nonvacuous :
    NoDup (map e_node (unfrozen ex_state ex_params)) /\ gd_pre ex_state ex_params.
  Proof.
    split.
    - vm_compute. repeat constructor; simpl; intuition discriminate.
    - intros h p g Hin Hp Hg.
      destruct Hin as [<-|[<-|[<-|[]]]]; vm_compute in Hp, Hg;
        try discriminate Hg;
        injection Hp as <-; injection Hg as <-;
        (split; [split; [repeat constructor | reflexivity] | reflexivity]).
  Qed.

  Example gd_update_spec_instance :
    exists s' out, gd_update Z_ops ex_state 2 ex_params = Some (s', out) /\
                   gd_post Z_ops ex_state 2 ex_params s' out.
  Proof.
    destruct gd_update_spec_nonvacuous as [H1 H2].
    exact (gd_update_spec Z_ops ex_state 2 ex_params H2).
  Qed.

  (** ** Why the length hypothesis (C03) matters: the first gradient is one element too
      long, so the flat buffers are misaligned and the SECOND parameter is stepped with
      the elements [3; 5] instead of its own gradient [5; 6].  Every other hypothesis of
      [gd_update_spec] holds. *)

  Definition bad_state : @state Z :=
    zstate [ znode [2%nat] [10; 20] 0 (Some {| dims := [3%nat]; vals := [1; 2; 3] |});
             znode [2%nat] [30; 40] 1 (Some {| dims := [2%nat]; vals := [5; 6] |}) ].

  Definition bad_params : list handle := [mkh 0 true true; mkh 1 true true].

  Example gd_update_refuted_without_lengths :
    NoDup (map e_node (unfrozen bad_state bad_params)) /\
    (forall h p, In h bad_params -> h_arr bad_state h = Some p -> wf p) /\
    exists s' out h1,
      gd_update Z_ops bad_state 2 bad_params = Some (s', out) /\
      nth_error out 1 = Some h1 /\
      option_map vals (h_arr s' h1) = Some [30 - 2 * 3; 40 - 2 * 5] /\
      map2 (fun x gx => fsub Z_ops x (fmul Z_ops 2 gx)) [30; 40] [5; 6] = [20; 28] /\
      option_map vals (h_arr s' h1) <> Some [20; 28].
  Proof.
    split; [|split].
    - vm_compute. repeat constructor; simpl; intuition discriminate.
    - intros h p Hin Hp.
      destruct Hin as [<-|[<-|[]]]; vm_compute in Hp; injection Hp as <-;
        (split; [repeat constructor | reflexivity]).
    - eexists. eexists. eexists. vm_compute.
      split; [reflexivity|]. split; [reflexivity|]. split; [reflexivity|].
      split; [reflexivity|]. discriminate.
  Qed.
  (** ** Two handles of one node: [w; w.clone(); b], lr = 2.  As in corgi, the first handle
      takes the gradient of [w] and is stepped; the clone then sees no gradient and is
      returned unchanged (its node only lost its gradient); [b] is stepped with ITS OWN
      gradient [3] -- the flat buffers are not shifted by the clone. *)

  Definition alias_state : @state Z :=
    zstate [ znode [2%nat] [10; 20] 0 (Some {| dims := [2%nat]; vals := [1; 2] |});
             znode [1%nat] [5] 1 (Some {| dims := [1%nat]; vals := [3] |}) ].

  Definition alias_params : list handle := [mkh 0 true true; mkh 0 false false; mkh 1 true true].

  Example gd_update_alias_example :
    frozen_flags alias_state [] alias_params = [false; true; false] /\
    exists s',
      gd_update Z_ops alias_state 2 alias_params
      = Some (s', [mkh 2 true true; mkh 0 false false; mkh 3 true true]) /\
      view s' = [ ([2%nat], [10; 20], None);
                  ([1%nat], [5], None);
                  ([2%nat], [10 - 2 * 1; 20 - 2 * 2], None);
                  ([1%nat], [5 - 2 * 3], None) ].
  Proof. split; [reflexivity |]. eexists. vm_compute. repeat split. Qed.

  (** the general theorem applies to this instance *)
  Example gd_update_alias_instance :
    exists s' out, gd_update Z_ops alias_state 2 alias_params = Some (s', out) /\
                   gd_post Z_ops alias_state 2 alias_params s' out /\
                   gd_post_alias alias_state alias_params s' out.
  Proof.
    apply gd_update_alias_spec. intros h p g Hin Hp Hg.
    destruct Hin as [<-|[<-|[<-|[]]]]; vm_compute in Hp, Hg;
      injection Hp as <-; injection Hg as <-;
      (split; [split; [repeat constructor | reflexivity] | reflexivity]).
  Qed.
End OptimExamples.

Print Assumptions gd_update_closed.
Print Assumptions gd_update_spec.
Print Assumptions gd_update_all_frozen.
Print Assumptions frozen_flags_false_iff.
Print Assumptions frozen_flags_nodup.
Print Assumptions unfrozen_nodup.
Print Assumptions unfrozen_nodes.
Print Assumptions unfrozen_nodup_eq.
Print Assumptions gd_update_alias_spec.
Print Assumptions model_update_spec.
Print Assumptions OptimExamples.gd_update_example.
Print Assumptions OptimExamples.gd_update_spec_instance.
Print Assumptions OptimExamples.gd_update_refuted_without_lengths.
Print Assumptions OptimExamples.gd_update_alias_example.
Print Assumptions OptimExamples.gd_update_alias_instance.
