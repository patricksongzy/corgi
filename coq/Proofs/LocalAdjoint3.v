(** C02, local part, concluded: the rank-1 forms of matrix multiplication (dot product,
    vector-matrix, matrix-vector) in the uniform formulation [local_identity]. *)

From Coq Require Import List Arith Bool Lia PeanoNat ZArith Ring_theory Ring.
From Corgi Require Import Lib.OptionMonad Lib.IdxDefs Lib.Idx Model.Scalar Model.Arr
     Model.SlicedOp Model.Elementwise Model.Linalg Model.Image Model.Ops Lib.Sums
     Proofs.ArrFacts Proofs.BroadcastDims Proofs.SpecDefs Proofs.SlicedOpSpec Proofs.EwSpec
     Proofs.ReduceSpec Proofs.FlattenSpec Proofs.MatmulSpec Proofs.DualLift
     Proofs.LocalAdjoint Proofs.LocalAdjoint2.
Import ListNotations.

Section ReshapeRow.
  Context {F : Type} (O : ScalarOps F) (R : is_cring O).
  Local Notation D2 := (dual_ops O).

  Definition as_row (a : arr F) (n : nat) : arr F := {| dims := [1; n]; vals := vals a |}.

  Lemma as_row_tangent : forall (c t : arr F) n,
      wf c -> dims c = [n] -> tangent_for c t -> tangent_for (as_row c n) (as_row t n).
  Proof.
    intros c t n Hwc Ec [Hwt Hdt]. split; [|reflexivity].
    apply wf_reshape_row; [exact Hwt|]. rewrite Hdt. exact Ec.
  Qed.

  Lemma lift_as_row : forall (c t : arr F) n fl,
      {| dims := [1; n]; vals := vals (lift c (mask O fl t)) |}
      = lift (as_row c n) (mask O fl (as_row t n)).
  Proof. intros c t n [|]; reflexivity. Qed.

  Lemma bcast_row_vec : forall (u : arr F) n lead,
      dims u = [n] -> Forall (fun x => 1 <= x) (lead ++ [1; n]) ->
      vals (bcast_to O (as_row u n) (lead ++ [1; n])) = vals (bcast_to O u (lead ++ [1; n])).
  Proof.
    intros u n lead Eu Hp. cbn [bcast_to vals as_row dims]. apply map_ext_in. intros I HI.
    apply (all_indices_in_range _ _ Hp) in HI. rewrite Eu.
    change (lead ++ [1; n]) with (lead ++ [1] ++ [n]) in HI. rewrite app_assoc in HI.
    destruct (in_range_snoc_inv _ _ _ HI) as (I1 & k & -> & HI1 & Hk).
    destruct (in_range_snoc_inv _ _ _ HI1) as (J & i & -> & HJ & Hi).
    f_equal.
    assert (E1 : bclamp [1; n] ((J ++ [i]) ++ [k]) = [0; if n =? 1 then 0 else k]).
    { change [1; n] with (([] ++ [1]) ++ [n]).
      rewrite (bclamp_snoc ([] ++ [1]) n (J ++ [i]) k) by (rewrite !app_length; cbn [length]; lia).
      rewrite (bclamp_snoc [] 1 J i) by (cbn [length]; lia).
      rewrite bclamp_nil. reflexivity. }
    assert (E2 : bclamp [n] ((J ++ [i]) ++ [k]) = [if n =? 1 then 0 else k]).
    { change [n] with ([] ++ [n]).
      rewrite (bclamp_snoc [] n (J ++ [i]) k) by (cbn [length]; lia).
      rewrite bclamp_nil. reflexivity. }
    rewrite E1, E2. cbn [rowmajor prod fold_right]. lia.
  Qed.

  (** a delta of dimensions [lead ++ [1; n]]: flattening it to [[n]] and pairing with a
      vector tangent is flattening it to [[1; n]] and pairing with the tangent as a row *)
  Lemma reshape_row_term : forall (c t d : arr F) n lead fl x,
      wf c -> dims c = [n] -> tangent_for c t -> wf d -> dims d = lead ++ [1; n] ->
      child_term O (as_row c n) (as_row t n) fl (Some d) x ->
      child_term O c t fl (Some d) x.
  Proof.
    intros c t d n lead fl x Hwc Ec Ht Hwd Ed (fd' & Hfd' & Ex).
    pose proof Hwd as [Hpd _]. rewrite Ed in Hpd.
    assert (Hn : 1 <= n).
    { destruct Hwc as [Hp _]. rewrite Ec in Hp. inversion Hp; assumption. }
    assert (Hnd : dims d <> []) by (rewrite Ed; destruct lead; discriminate).
    assert (Hs1 : sub_target [n] (dims d)).
    { rewrite Ed. change (lead ++ [1; n]) with (lead ++ [1] ++ [n]). rewrite app_assoc.
      apply sub_lead_tail. }
    assert (Hs2 : sub_target [1; n] (dims d)) by (rewrite Ed; apply sub_lead_tail).
    assert (Hp1 : Forall (fun x => 1 <= x) [n]) by (constructor; [exact Hn|constructor]).
    assert (Hp2 : Forall (fun x => 1 <= x) [1; n]) by (constructor; [lia|exact Hp1]).
    destruct (flatten_to_spec O R d [n] Hwd Hnd ltac:(discriminate) Hp1 Hs1) as (fd & Hfd & _).
    unfold child_term. rewrite Ec. exists fd. split; [exact Hfd|]. rewrite Ex.
    destruct (mask_tangent_for O fl c t Ht) as [Hwu Hdu].
    destruct (mask_tangent_for O fl _ _ (as_row_tangent c t n Hwc Ec Ht)) as [Hwu' Hdu'].
    rewrite (flatten_to_adjoint O R d fd' _ [1; n] Hwd Hnd ltac:(discriminate) Hp2 Hs2 Hfd' Hwu' Hdu').
    rewrite Ec in Hdu.
    rewrite (flatten_to_adjoint O R d fd _ [n] Hwd Hnd ltac:(discriminate) Hp1 Hs1 Hfd Hwu Hdu).
    f_equal. rewrite Ed.
    replace (mask O fl (as_row t n)) with (as_row (mask O fl t) n) by (destruct fl; reflexivity).
    apply bcast_row_vec; assumption.
  Qed.
End ReshapeRow.

Section VecLocal.
  Context {F : Type} (O : ScalarOps F) (R : is_cring O).
  Local Notation D2 := (dual_ops O).

  (** first operand of rank 1 (treated by the model as the row [[1; n]]), second of rank >= 2 *)
  Definition vecl_pre (ta tb : bool) (cs : list (arr F)) : Prop :=
    exists n lb br bc,
      dims (nth 0 cs dummy_arr) = [n] /\
      dims (nth 1 cs dummy_arr) = lb ++ [br; bc] /\
      let dc := dims (nth 2 cs dummy_arr) in
      let ro := mm_rows ta 1 n in
      let co := mm_cols tb br bc in
      dc = [co] \/ dc = [ro; co] \/ dc = [1; co] \/ dc = [1].

  Theorem vecl_local : forall ta tb,
      local_identity O 3 (vecl_pre ta tb)
                     (fwd3 (fun A B C => a_matmul D2 A ta B tb (Some C)))
                     (fun _ _ => BMatmul ta tb).
  Proof.
    intros ta tb. apply (local_identity_3 O R).
    intros a b c3 t0 t1 t2 flags delta RD ds (n & lb & br & bc & Ea & Eb & Hshape)
           Hwa Hwb Hwc Ht0 Ht1 Ht2 Ht0' Ht1' _ Hfwd Hwd Hdd Hrun.
    cbn [nth] in Ea, Eb, Hshape. cbv zeta in Hshape. cbn [fwd3] in Hfwd.
    set (a' := as_row a n). set (t0r := as_row t0 n).
    assert (Hwa' : wf a') by (apply wf_reshape_row; assumption).
    assert (Ht0r : tangent_for a' t0r) by (apply as_row_tangent; assumption).
    pose proof (lift_wf a _ Hwa Ht0') as HwA. pose proof (lift_wf b _ Hwb Ht1') as HwB.
    assert (EA : dims (lift a (mask O (flag flags 0) t0)) = [n]) by exact Ea.
    assert (EB : dims (lift b (mask O (flag flags 1) t1)) = lb ++ [br; bc]) by exact Eb.
    pose proof (matmul_vec_l_dims D2 _ ta _ tb _ n lb br bc RD EA EB Hfwd) as HdR.
    rewrite (matmul_vec_l D2 _ ta _ tb _ n lb br bc HwA HwB EA EB), lift_as_row in Hfwd.
    fold a' t0r in Hfwd.
    assert (Edl : dims delta = lb ++ [if ta then n else 1; mm_cols tb br bc]) by congruence.
    (* the closure sees the same matrices *)
    assert (Hd1 : (if tb then a_matmul O delta true a' ta None
                   else a_matmul O a' (negb ta) delta false None)
                  = (if tb then a_matmul O delta true a ta None
                     else a_matmul O a (negb ta) delta false None)).
    { destruct tb; symmetry.
      - apply (matmul_vec_r O delta true a ta None n _ _ _ Hwd Hwa Edl Ea).
      - apply (matmul_vec_l O a (negb ta) delta false None n _ _ _ Hwa Hwd Ea Edl). }
    assert (Hrun' : run_bop O (BMatmul ta tb) [a'; b; c3] flags delta = Some ds).
    { rewrite <- Hrun. cbn [run_bop]. cbv zeta. cbn [a' as_row dims length].
      rewrite Ea, Eb, ltb_snoc2. cbn [length Nat.ltb Nat.leb andb]. fold a'.
      rewrite Hd1. reflexivity. }
    assert (Hpre' : mm_pre ta tb [a'; b; c3]).
    { exists [], 1, n, lb, br, bc. cbn [nth app]. split; [reflexivity|]. split; [exact Eb|exact Hshape]. }
    destruct (matmul_terms O R ta tb a' b c3 t0r t1 t2 flags delta RD ds Hpre' Hwa' Hwb Hwc Ht0r Ht1 Ht2
                           Hfwd Hwd Hdd Hrun') as (od0 & od1 & od2 & x0 & x1 & x2 & -> & T0 & T1 & T2 & E).
    exists od0, od1, od2, x0, x1, x2. split; [reflexivity|]. split; [|auto].
    destruct od0 as [d0|]; [|exact T0].
    cbn [run_bop] in Hrun'. cbv zeta in Hrun'. cbn [a' as_row dims length Nat.ltb Nat.leb andb] in Hrun'.
    apply obind_some in Hrun'. destruct Hrun' as (od0 & H0 & Hrun').
    apply obind_some in Hrun'. destruct Hrun' as (od1' & _ & Hrun'). injection Hrun' as -> _ _.
    apply when_some in H0. destruct H0 as [(_ & r & Hr & Er)|(_ & Er)]; [|discriminate Er].
    injection Er as <-.
    destruct (matmul_fwd_inv D2 (lift a' (mask O (flag flags 0) t0r)) ta _ tb _ RD [] 1 n lb br bc
                              eq_refl EB Hfwd) as [Hinner _].
    assert (Ed : dims delta = bmax [] lb ++ [mm_rows ta 1 n; mm_cols tb br bc]).
    { rewrite bmax_nil_l, Edl. destruct ta; reflexivity. }
    destruct (deliver_a O R a' b delta [] lb 1 n br bc Hwa' Hwb Hwd eq_refl Eb I ta tb d0 Hinner Ed Hr)
      as (Hwd0 & Hdd0 & _).
    exact (reshape_row_term O R a t0 d0 n _ _ x0 Hwa Ea Ht0 Hwd0 Hdd0 T0).
  Qed.

  (** second operand of rank 1 (treated by the model as the row [[1; n]]), first of rank >= 2 *)
  Definition vecr_pre (ta tb : bool) (cs : list (arr F)) : Prop :=
    exists n la ar ac,
      dims (nth 0 cs dummy_arr) = la ++ [ar; ac] /\
      dims (nth 1 cs dummy_arr) = [n] /\
      let dc := dims (nth 2 cs dummy_arr) in
      let ro := mm_rows ta ar ac in
      let co := mm_cols tb 1 n in
      dc = [co] \/ dc = [ro; co] \/ dc = [1; co] \/ dc = [1].

  Theorem vecr_local : forall ta tb,
      local_identity O 3 (vecr_pre ta tb)
                     (fwd3 (fun A B C => a_matmul D2 A ta B tb (Some C)))
                     (fun _ _ => BMatmul ta tb).
  Proof.
    intros ta tb. apply (local_identity_3 O R).
    intros a b c3 t0 t1 t2 flags delta RD ds (n & la & ar & ac & Ea & Eb & Hshape)
           Hwa Hwb Hwc Ht0 Ht1 Ht2 Ht0' Ht1' _ Hfwd Hwd Hdd Hrun.
    cbn [nth] in Ea, Eb, Hshape. cbv zeta in Hshape. cbn [fwd3] in Hfwd.
    set (b' := as_row b n). set (t1r := as_row t1 n).
    assert (Hwb' : wf b') by (apply wf_reshape_row; assumption).
    assert (Ht1r : tangent_for b' t1r) by (apply as_row_tangent; assumption).
    pose proof (lift_wf a _ Hwa Ht0') as HwA. pose proof (lift_wf b _ Hwb Ht1') as HwB.
    assert (EA : dims (lift a (mask O (flag flags 0) t0)) = la ++ [ar; ac]) by exact Ea.
    assert (EB : dims (lift b (mask O (flag flags 1) t1)) = [n]) by exact Eb.
    pose proof (matmul_vec_r_dims D2 _ ta _ tb _ n la ar ac RD EA EB Hfwd) as HdR.
    rewrite (matmul_vec_r D2 _ ta _ tb _ n la ar ac HwA HwB EA EB), lift_as_row in Hfwd.
    fold b' t1r in Hfwd.
    assert (Edl : dims delta = la ++ [mm_rows ta ar ac; if tb then 1 else n]) by congruence.
    assert (Hd0 : (if ta then a_matmul O b' tb delta true None
                   else a_matmul O delta false b' (negb tb) None)
                  = (if ta then a_matmul O b tb delta true None
                     else a_matmul O delta false b (negb tb) None)).
    { destruct ta; symmetry.
      - apply (matmul_vec_l O b tb delta true None n _ _ _ Hwb Hwd Eb Edl).
      - apply (matmul_vec_r O delta false b (negb tb) None n _ _ _ Hwd Hwb Edl Eb). }
    assert (Hrun' : run_bop O (BMatmul ta tb) [a; b'; c3] flags delta = Some ds).
    { rewrite <- Hrun. cbn [run_bop]. cbv zeta. cbn [b' as_row dims].
      rewrite Ea, ltb_snoc2. cbn [andb]. fold b'. rewrite Hd0. reflexivity. }
    assert (Hpre' : mm_pre ta tb [a; b'; c3]).
    { exists la, ar, ac, [], 1, n. cbn [nth app]. split; [exact Ea|]. split; [reflexivity|exact Hshape]. }
    destruct (matmul_terms O R ta tb a b' c3 t0 t1r t2 flags delta RD ds Hpre' Hwa Hwb' Hwc Ht0 Ht1r Ht2
                           Hfwd Hwd Hdd Hrun') as (od0 & od1 & od2 & x0 & x1 & x2 & -> & T0 & T1 & T2 & E).
    exists od0, od1, od2, x0, x1, x2. split; [reflexivity|]. split; [exact T0|]. split; [|auto].
    destruct od1 as [d1|]; [|exact T1].
    cbn [run_bop] in Hrun'. cbv zeta in Hrun'. rewrite Ea, ltb_snoc2 in Hrun'. cbn [andb] in Hrun'.
    apply obind_some in Hrun'. destruct Hrun' as (od0' & _ & Hrun').
    apply obind_some in Hrun'. destruct Hrun' as (od1 & H1 & Hrun'). injection Hrun' as _ -> _.
    apply when_some in H1. destruct H1 as [(_ & r & Hr & Er)|(_ & Er)]; [|discriminate Er].
    injection Er as <-.
    destruct (matmul_fwd_inv D2 _ ta (lift b' (mask O (flag flags 1) t1r)) tb _ RD la ar ac [] 1 n
                              EA eq_refl Hfwd) as [Hinner _].
    assert (Ed : dims delta = bmax la [] ++ [mm_rows ta ar ac; mm_cols tb 1 n]).
    { rewrite bmax_nil_r, Edl. destruct tb; reflexivity. }
    destruct (deliver_b O R a b' delta la [] ar ac 1 n Hwa Hwb' Hwd Ea eq_refl
                        (proj1 (bcompat_sym [] la) I) ta tb d1 Hinner Ed Hr) as (Hwd1 & Hdd1 & _).
    exact (reshape_row_term O R b t1 d1 n _ _ x1 Hwb Eb Ht1 Hwd1 Hdd1 T1).
  Qed.
End VecLocal.

Section DotBias.
  Context {G : Type} (O' : ScalarOps G).

  Theorem matmul_dot_bias : forall (a b c : arr G) n,
      wf a -> wf b -> wf c -> dims a = [n] -> dims b = [n] -> dims c = [1] ->
      a_matmul O' a false b false (Some c)
      = Some {| dims := [1];
                vals := [fadd O' (nth 0 (vals c) (f0 O'))
                              (vsum O' (map (fun k => fmul O' (nth k (vals a) (f0 O'))
                                                           (nth k (vals b) (f0 O')))
                                            (seq 0 n)))] |}.
  Proof.
    intros a b c n Hwa Hwb Hwc Ea Eb Ec.
    assert (Hla : length (vals a) = 1 * n)
      by (destruct Hwa as [_ H]; rewrite Ea in H; cbn [prod fold_right] in H; lia).
    assert (Hlb : length (vals b) = n * 1)
      by (destruct Hwb as [_ H]; rewrite Eb in H; cbn [prod fold_right] in H; lia).
    assert (Hlc : length (vals c) = 1)
      by (destruct Hwc as [_ H]; rewrite Ec in H; cbn [prod fold_right] in H; lia).
    unfold a_matmul. rewrite Ea, Eb, matmul_dims_dot, Nat.eqb_refl.
    cbn [guard obind ms_in ms_out ms_rows ms_cols ms_sum].
    unfold bias_ok. rewrite Hlc. cbn [Nat.eqb guard obind].
    unfold sliced_op.
    assert (Hv : forallb (sliced_valid 2 [n]) [a; b; c] = true).
    { cbn [forallb]. rewrite !sliced_valid_low; [reflexivity|rewrite Ec; cbn; lia|rewrite Eb; cbn; lia|rewrite Ea; cbn; lia]. }
    rewrite Hv. cbn [guard obind length Nat.sub Nat.eqb mapM].
    rewrite (slice_all (vals a)) by (apply (group_length_vec a n Hwa Ea)).
    rewrite (slice_all (vals b)) by (apply (group_length_vec b n Hwb Eb)).
    rewrite (slice_all (vals c)) by (apply (group_length_vec c 1 Hwc Ec)).
    cbn [obind skipn prod fold_right Nat.mul Nat.add firstn repeat slice Nat.leb length].
    assert (Hnc : vals c <> []) by (intros E; rewrite E in Hlc; discriminate).
    destruct (matmul_sop_spec O' true 1 1 n false false (vals a) (vals b) (vals c) Hla Hlb Hnc)
      as (new & Hnew & Hlen & Hval).
    cbn [Nat.mul Nat.add repeat] in Hnew. rewrite Hnew. cbn [obind].
    specialize (Hval 0 0 ltac:(lia) ltac:(lia)). cbn [Nat.mul Nat.add] in Hval, Hlen.
    destruct new as [|x [|y new]]; cbn [length] in Hlen; try lia.
    cbn [nth_error] in Hval. inversion Hval as [Hx]. clear Hval.
    cbn [length Nat.eqb guard obind splice firstn skipn Nat.add app].
    unfold mk. cbn [dims_valid forallb Nat.leb andb guard obind prod fold_right Nat.mul Nat.add length
                               Nat.eqb].
    f_equal. f_equal. f_equal. unfold mm_value, bias_entry. rewrite Hlc, Nat.mod_1_r. f_equal. f_equal.
    apply map_ext. intros k. unfold a_off, b_off. f_equal; f_equal; lia.
  Qed.
End DotBias.

Section DotLocal.
  Context {F : Type} (O : ScalarOps F) (R : is_cring O).
  Local Notation D2 := (dual_ops O).

  Let Rth : ring_theory (f0 O) (f1 O) (fadd O) (fmul O) (fsub O) (fneg O) (@eq F) := R.
  Add Ring la3_ring_dot : Rth.

  Local Notation "l '@' j" := (nth j l (f0 O)) (at level 9, j at level 9).

  (** two vectors of equal length, additive term of dimensions [[1]] *)
  Definition dot_pre (cs : list (arr F)) : Prop :=
    exists n, dims (nth 0 cs dummy_arr) = [n] /\ dims (nth 1 cs dummy_arr) = [n] /\
              dims (nth 2 cs dummy_arr) = [1].

  Lemma bpos_unit : forall D j, bpos D [1] j = 0.
  Proof.
    intros D j. unfold bpos. rewrite bclamp_eq. cbn [length].
    destruct (lastn 1 (unrank D j)) as [|x l]; [reflexivity|].
    cbn [combine map rowmajor]. destruct l; cbn; lia.
  Qed.

  Lemma wf_vec_length : forall (a : arr F) n, wf a -> dims a = [n] -> length (vals a) = n /\ 1 <= n.
  Proof.
    intros a n [Hp Hl] E. rewrite E in Hp, Hl. cbn [prod fold_right] in Hl.
    inversion Hp; subst. split; lia.
  Qed.

  (** [c * delta] for a vector [c] and the one-element [delta] *)
  Lemma mul_vec_unit : forall (c other delta : arr F) n fl od,
      wf c -> wf other -> wf delta -> dims c = [n] -> dims other = [n] -> dims delta = [1] ->
      when fl (a_mul O c delta) = Some od ->
      deliv O (dims other) fl od (fun j => fmul O ((vals c) @ j) ((vals delta) @ 0)).
  Proof.
    intros c other delta n fl od Hwc Hwo Hwd Ec Eo Ed H.
    apply (when_deliv O (dims other) _ _ _ _ H). intros r Hr.
    assert (Hsub : sub_lead (dims delta) (dims c)).
    { rewrite Ed, Ec. split; [cbn; lia|]. cbn [length]. unfold lastn. cbn [length Nat.sub skipn].
      constructor; [left; reflexivity|constructor]. }
    destruct (ew_right_below O (fmul O) delta c r Hwd Hwc Hsub Hr) as (Hwr & Hdr & Hv).
    split; [exact Hwr|]. split; [congruence|].
    intros j Hj. rewrite Eo, <- Ec in Hj. rewrite (Hv j Hj).
    rewrite Ed, bpos_unit. reflexivity.
  Qed.

  (** the tangent of the dual-number run of the dot product with additive term *)
  Lemma dot_lifted_tangent : forall (a ta b tb c tc : arr F) n (RD : arr (@dual F)),
      wf a -> wf b -> wf c -> tangent_for a ta -> tangent_for b tb -> tangent_for c tc ->
      dims a = [n] -> dims b = [n] -> dims c = [1] ->
      a_matmul D2 (lift a ta) false (lift b tb) false (Some (lift c tc)) = Some RD ->
      dims RD = [1] /\
      vals (tangent RD)
      = [fadd O ((vals tc) @ 0)
              (SUM O n (fun k => fadd O (fmul O ((vals a) @ k) ((vals tb) @ k))
                                        (fmul O ((vals ta) @ k) ((vals b) @ k))))].
  Proof.
    intros a ta b tb c tc n RD Hwa Hwb Hwc Hta Htb Htc Ea Eb Ec Hfwd.
    rewrite (matmul_dot_bias D2 _ _ _ n (lift_wf a ta Hwa Hta) (lift_wf b tb Hwb Htb)
                             (lift_wf c tc Hwc Htc) Ea Eb Ec) in Hfwd.
    injection Hfwd as <-. split; [reflexivity|]. cbn [tangent vals map dual_ops fadd snd].
    assert (Hl : forall (x t : arr F), wf x -> tangent_for x t -> length (vals x) = length (vals t))
      by (intros x t Hw Ht; symmetry; apply tangent_for_length; assumption).
    rewrite vsum_dual. cbn [snd]. rewrite map_map. unfold dual, SUM.
    rewrite combine_nth by (apply Hl; assumption). do 3 f_equal. apply map_ext. intros k.
    cbn [snd]. rewrite !combine_nth by (apply Hl; assumption). reflexivity.
  Qed.

  (** the scalar identity behind the dot product: [d (tc + a . tb + ta . b)] *)
  Lemma dot_core : forall n (a b ta tb : nat -> F) (d tc : F),
      fmul O d (fadd O tc (SUM O n (fun k => fadd O (fmul O (a k) (tb k)) (fmul O (ta k) (b k)))))
      = fadd O (fadd O (SUM O n (fun k => fmul O (fmul O (b k) d) (ta k)))
                       (SUM O n (fun k => fmul O (fmul O (a k) d) (tb k))))
               (fmul O d tc).
  Proof.
    intros n a b ta tb d tc. rewrite (cr_distr_r O R), <- (SUM_scale_l O R), <- (SUM_add O R).
    rewrite (SUM_ext O n _ (fun k => fadd O (fmul O (fmul O (b k) d) (ta k))
                                          (fmul O (fmul O (a k) d) (tb k))))
      by (intros k _; ring).
    ring.
  Qed.

  Theorem dot_local :
    local_identity O 3 dot_pre
                   (fwd3 (fun A B C => a_matmul D2 A false B false (Some C)))
                   (fun _ _ => BMatmul false false).
  Proof.
    apply (local_identity_3 O R).
    intros a b c3 t0 t1 t2 flags delta RD ds (n & Ea & Eb & Ec) Hwa Hwb Hwc Ht0 Ht1 Ht2 Hta' Htb' Htc'
           Hfwd Hwd Hdd Hrun.
    cbn [nth] in Ea, Eb, Ec. cbn [fwd3] in Hfwd.
    destruct (dot_lifted_tangent a _ b _ c3 _ n RD Hwa Hwb Hwc Hta' Htb' Htc' Ea Eb Ec Hfwd) as [HdR ->].
    rewrite HdR in Hdd.
    destruct (wf_vec_length a n Hwa Ea) as [Hla _]. destruct (wf_vec_length b n Hwb Eb) as [Hlb _].
    destruct (wf_vec_length c3 1 Hwc Ec) as [Hlc _]. destruct (wf_vec_length delta 1 Hwd Hdd) as [Hld _].
    cbn [run_bop] in Hrun. cbv zeta in Hrun. rewrite Ea, Eb in Hrun.
    cbn [length Nat.ltb Nat.leb andb negb] in Hrun.
    revert Hrun. apply obind_elim. intros od0 H0 Hrun.
    revert Hrun. apply obind_elim. intros od1 H1 Hrun. inversion Hrun; subst ds. clear Hrun.
    pose proof (mul_vec_unit b a delta n _ od0 Hwb Hwa Hwd Eb Ea Hdd H0) as Hd0.
    pose proof (mul_vec_unit a b delta n _ od1 Hwa Hwb Hwd Ea Eb Hdd H1) as Hd1.
    pose proof (flag_deliv O (dims c3) delta (flag flags 2) Hwd (eq_trans Hdd (eq_sym Ec))) as Hd2.
    destruct (deliv_own_term O R a t0 _ od0 _ Hwa Ht0 Hd0) as (x0 & Hx0 & ->).
    destruct (deliv_own_term O R b t1 _ od1 _ Hwb Ht1 Hd1) as (x1 & Hx1 & ->).
    destruct (deliv_own_term O R c3 t2 _ _ _ Hwc Ht2 Hd2) as (x2 & Hx2 & ->).
    do 6 eexists. split; [reflexivity|]. split; [exact Hx0|]. split; [exact Hx1|]. split; [exact Hx2|].
    rewrite Hla, Hlb, Hlc. destruct (vals delta) as [|d [|? ?]]; try discriminate Hld.
    unfold dot. cbn [combine map fst snd seq nth]. rewrite !(vsum_single O R).
    apply dot_core.
  Qed.
End DotLocal.

Section Absent.
  Context {F : Type} (O : ScalarOps F) (R : is_cring O).
  Local Notation D2 := (dual_ops O).

  Definition local_identity_absent (ta tb : bool) (pre : list (arr F) -> Prop) : Prop :=
    forall (cs ts : list (arr F)) flags (delta : arr F) (RD : arr (@dual F)) ds,
      length cs = 3 -> pre cs -> nth 2 cs dummy_arr = zeros1 O -> flag flags 2 = false ->
      Forall wf cs -> Forall2 tangent_for cs ts ->
      fwd3 (fun A B _ => a_matmul D2 A ta B tb None) (lift_children O 0 flags cs ts) = Some RD ->
      wf delta -> dims delta = dims RD ->
      run_bop O (BMatmul ta tb) cs flags delta = Some ds ->
      exists xs, child_terms O 0 flags cs ts ds xs /\
                 dot O (vals delta) (vals (tangent RD)) = vsum O xs.

  Lemma getd_vec : forall (a : arr F) n k, dims a = [n] -> getd O a [k] = nth k (vals a) (f0 O).
  Proof.
    intros a n k E. unfold getd. rewrite E. cbn [rowmajor prod fold_right]. f_equal. lia.
  Qed.
End Absent.

Section AbsentEqs.
  Context {G : Type} (O' : ScalarOps G).

  Lemma dot_none_zeros1 : forall (a b : arr G) n,
      wf a -> wf b -> dims a = [n] -> dims b = [n] ->
      a_matmul O' a false b false None = a_matmul O' a false b false (Some (zeros1 O')).
  Proof.
    intros a b n Hwa Hwb Ea Eb.
    rewrite (proj1 (matmul_dot O' a b n Hwa Hwb Ea Eb)).
    rewrite (matmul_dot_bias O' a b (zeros1 O') n Hwa Hwb (wf_zeros1 O') Ea Eb eq_refl).
    f_equal. f_equal. f_equal. cbn [zeros1 vals nth]. f_equal. f_equal.
    apply map_ext. intros k. unfold MatmulSpec.getd. rewrite Ea, Eb.
    cbn [rowmajor prod fold_right]. f_equal; f_equal; lia.
  Qed.

  Lemma vecl_none_zeros1 : forall (a : arr G) ta (b : arr G) tb n lb br bc,
      wf a -> wf b -> dims a = [n] -> dims b = lb ++ [br; bc] ->
      a_matmul O' a ta b tb None = a_matmul O' a ta b tb (Some (zeros1 O')).
  Proof.
    intros a ta b tb n lb br bc Hwa Hwb Ea Eb.
    rewrite !(matmul_vec_l O' a ta b tb _ n lb br bc Hwa Hwb Ea Eb).
    apply (matmul_none_zeros1 O' _ ta b tb [] 1 n lb br bc);
      [apply wf_reshape_row; assumption|exact Hwb|reflexivity|exact Eb].
  Qed.

  Lemma vecr_none_zeros1 : forall (a : arr G) ta (b : arr G) tb n la ar ac,
      wf a -> wf b -> dims a = la ++ [ar; ac] -> dims b = [n] ->
      a_matmul O' a ta b tb None = a_matmul O' a ta b tb (Some (zeros1 O')).
  Proof.
    intros a ta b tb n la ar ac Hwa Hwb Ea Eb.
    rewrite !(matmul_vec_r O' a ta b tb _ n la ar ac Hwa Hwb Ea Eb).
    apply (matmul_none_zeros1 O' a ta _ tb la ar ac [] 1 n);
      [exact Hwa|apply wf_reshape_row; assumption|exact Ea|reflexivity].
  Qed.
End AbsentEqs.

Section AbsentLocal.
  Context {F : Type} (O : ScalarOps F) (R : is_cring O).
  Local Notation D2 := (dual_ops O).

  Theorem dot_local_absent : local_identity_absent O false false dot_pre.
  Proof.
    unfold local_identity_absent. apply (absent_of_bias O false false dot_pre (dot_local O R)).
    intros a b c3 t0 t1 Hwa Hwb Ht0 Ht1 (n & Ea & Eb & _). cbn [nth] in Ea, Eb.
    apply (dot_none_zeros1 D2 _ _ n); [apply lift_wf; assumption|apply lift_wf; assumption|exact Ea|exact Eb].
  Qed.

  Theorem vecl_local_absent : forall ta tb, local_identity_absent O ta tb (vecl_pre ta tb).
  Proof.
    intros ta tb. unfold local_identity_absent. apply (absent_of_bias O ta tb _ (vecl_local O R ta tb)).
    intros a b c3 t0 t1 Hwa Hwb Ht0 Ht1 (n & lb & br & bc & Ea & Eb & _). cbn [nth] in Ea, Eb.
    apply (vecl_none_zeros1 D2 _ ta _ tb n lb br bc);
      [apply lift_wf; assumption|apply lift_wf; assumption|exact Ea|exact Eb].
  Qed.

  Theorem vecr_local_absent : forall ta tb, local_identity_absent O ta tb (vecr_pre ta tb).
  Proof.
    intros ta tb. unfold local_identity_absent. apply (absent_of_bias O ta tb _ (vecr_local O R ta tb)).
    intros a b c3 t0 t1 Hwa Hwb Ht0 Ht1 (n & la & ar & ac & Ea & Eb & _). cbn [nth] in Ea, Eb.
    apply (vecr_none_zeros1 D2 _ ta _ tb n la ar ac);
      [apply lift_wf; assumption|apply lift_wf; assumption|exact Ea|exact Eb].
  Qed.

  (** the rank >= 2 case of Proofs/LocalAdjoint2.v, in the same form *)
  Theorem matmul_local_absent' : forall ta tb, local_identity_absent O ta tb (mm_pre ta tb).
  Proof.
    intros ta tb cs ts flags delta RD ds. apply (matmul_local_absent O R ta tb).
  Qed.
End AbsentLocal.

Module Sanity3.
  Import Sanity2.
  Definition mmn ta tb := fwd3 (fun A B (_ : arr (@dual Z)) => a_matmul Zd A ta B tb None).
  Definition z1 : arr Z := zeros1 Z_ops.
  (* absent additive term: third child zeros1, unflagged *)
  Definition chk_absent fwdD code (cs ts : list (arr Z)) d :=
    forallb (fun fl => ok (eval_identity Z_ops fwdD code cs ts fl d))
            [[true;true;false];[true;false;false];[false;true;false];[false;false;false]].

  (* (a) dot product *)
  Example dot_bias : chk 3 (mm false false) (fun _ _ => BMatmul false false)
      [arrZ 3 [3]; arrZ 5 [3]; arrZ 1 [1]] [arrZ 7 [3]; arrZ 2 [3]; arrZ 6 [1]] (arrZ 4 [1]) = true.
  Proof. vm_compute. reflexivity. Qed.
  Example dot_absent : chk_absent (mmn false false) (fun _ _ => BMatmul false false)
      [arrZ 3 [3]; arrZ 5 [3]; z1] [arrZ 7 [3]; arrZ 2 [3]; arrZ 6 [1]] (arrZ 4 [1]) = true.
  Proof. vm_compute. reflexivity. Qed.

  (* (b) vector x matrix: [3] x [3;2], [3] x [2;3]^T, batched, with bias *)
  Example vl_ff : chk 3 (mm false false) (fun _ _ => BMatmul false false)
      [arrZ 3 [3]; arrZ 5 [3;2]; arrZ 1 [2]] [arrZ 7 [3]; arrZ 2 [3;2]; arrZ 6 [2]] (arrZ 4 [1;2]) = true.
  Proof. vm_compute. reflexivity. Qed.
  Example vl_ft : chk 3 (mm false true) (fun _ _ => BMatmul false true)
      [arrZ 3 [3]; arrZ 5 [2;2;3]; arrZ 1 [1;2]] [arrZ 7 [3]; arrZ 2 [2;2;3]; arrZ 6 [1;2]]
      (arrZ 4 [2;1;2]) = true.
  Proof. vm_compute. reflexivity. Qed.
  Example vl_tf : chk 3 (mm true false) (fun _ _ => BMatmul true false)
      [arrZ 3 [3]; arrZ 5 [1;2]; arrZ 1 [1]] [arrZ 7 [3]; arrZ 2 [1;2]; arrZ 6 [1]] (arrZ 4 [3;2]) = true.
  Proof. vm_compute. reflexivity. Qed.
  Example vl_absent : chk_absent (mmn false false) (fun _ _ => BMatmul false false)
      [arrZ 3 [3]; arrZ 5 [2;3;2]; z1] [arrZ 7 [3]; arrZ 2 [2;3;2]; arrZ 6 [1]] (arrZ 4 [2;1;2]) = true.
  Proof. vm_compute. reflexivity. Qed.

  (* (c) matrix x vector: [2;3] x [3] with tb = true (column), tb = false *)
  Example vr_ft : chk 3 (mm false true) (fun _ _ => BMatmul false true)
      [arrZ 3 [2;3]; arrZ 5 [3]; arrZ 1 [1]] [arrZ 7 [2;3]; arrZ 2 [3]; arrZ 6 [1]] (arrZ 4 [2;1]) = true.
  Proof. vm_compute. reflexivity. Qed.
  Example vr_tt : chk 3 (mm true true) (fun _ _ => BMatmul true true)
      [arrZ 3 [2;3;2]; arrZ 5 [3]; arrZ 1 [2;1]] [arrZ 7 [2;3;2]; arrZ 2 [3]; arrZ 6 [2;1]]
      (arrZ 4 [2;2;1]) = true.
  Proof. vm_compute. reflexivity. Qed.
  Example vr_ff : chk 3 (mm false false) (fun _ _ => BMatmul false false)
      [arrZ 3 [2;1]; arrZ 5 [3]; arrZ 1 [3]] [arrZ 7 [2;1]; arrZ 2 [3]; arrZ 6 [3]] (arrZ 4 [2;3]) = true.
  Proof. vm_compute. reflexivity. Qed.
  Example vr_absent : chk_absent (mmn false true) (fun _ _ => BMatmul false true)
      [arrZ 3 [2;2;3]; arrZ 5 [3]; z1] [arrZ 7 [2;2;3]; arrZ 2 [3]; arrZ 6 [1]] (arrZ 4 [2;2;1]) = true.
  Proof. vm_compute. reflexivity. Qed.
End Sanity3.

Print Assumptions dot_local.
Print Assumptions dot_local_absent.
Print Assumptions vecl_local.
Print Assumptions vecl_local_absent.
Print Assumptions vecr_local.
Print Assumptions vecr_local_absent.
