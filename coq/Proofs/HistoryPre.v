(** The side conditions of the closures, at every operation node, as an invariant of program
    histories, under side conditions on the instructions that build the nodes:
    - [OSum k]: [k] at most the rank of the operand;
    - [OSoftmax]: operand of rank at least 1;
    - [OMatmul]: a condition [mmp] on the operands and the additive term (a fresh [zeros1]
      if there is none), implied by [mm_pre]: operands of rank at least 2, additive term of
      one of the four admissible shapes;
    - [OConv]: filters of rank at least 4 (as the convolutional layers build them);
    - [OCustom CMul/CAff]: operands of equal dimensions.
    Everything else (unroll/expand geometry, the matmul inside a convolution) is derived
    from the success of the forward operation.  With [mmp := mm_pre] the invariant is
    [pre_ok] ([Proofs/C01Full.v]); [Proofs/HistoryPre3.v] takes [mmp := mm_any]. *)

From Coq Require Import List Arith Bool Lia PeanoNat.
From Corgi Require Import Lib.OptionMonad Lib.Sums Model.Scalar Model.Arr Model.SlicedOp
     Model.Elementwise Model.Linalg Model.Image Model.Ops Model.Engine Model.Program
     Proofs.ArrFacts Proofs.BroadcastDims Proofs.EngineDefs Proofs.EngineBase Proofs.Propagate
     Proofs.EngineInv Proofs.SlicedOpSpec Proofs.FlattenSpec Proofs.MatmulSpec Proofs.ConvSpec
     Proofs.DualLift Proofs.LocalAdjoint Proofs.LocalAdjoint2 Proofs.OpsWf Proofs.HistoryInv
     Proofs.FwdCode Proofs.CodeSupport2 Proofs.HistoryVC Proofs.C01Concrete Proofs.C01Full Proofs.C01Gen.
Import ListNotations.

Section HistoryPre.
  Context {F : Type} (O : ScalarOps F).

  Local Notation pay := (@pay F).
  Local Notation gnode := (@gnode F).
  Local Notation state := (@state F).
  Local Notation instr := (@instr F).
  Local Notation opk := (@opk F).
  Local Notation E := (Program.E O).
  Lemma dim_back_inv : forall d k v, dim_back d k = Some v -> k <= length d /\ nth_error d (length d - k) = Some v.
  Proof.
    intros d k v H. unfold dim_back in H. destruct (k <=? length d) eqn:Hk; [| discriminate H].
    apply Nat.leb_le in Hk. cbn [guard obind] in H. split; assumption.
  Qed.

  Lemma dim_back_split3 : forall d x y z,
      dim_back d 3 = Some x -> dim_back d 2 = Some y -> dim_back d 1 = Some z ->
      d = firstn (length d - 3) d ++ [x; y; z].
  Proof.
    intros d x y z H3 H2 H1.
    apply dim_back_inv in H3. apply dim_back_inv in H2. apply dim_back_inv in H1.
    destruct H3 as [Hl H3]. destruct H2 as [_ H2]. destruct H1 as [_ H1].
    set (pre := firstn (length d - 3) d).
    assert (Hf : length pre = length d - 3) by (unfold pre; rewrite firstn_length; lia).
    assert (Hs : length (skipn (length d - 3) d) = 3) by (rewrite skipn_length; lia).
    destruct (skipn (length d - 3) d) as [|a [|b [|c [|? ?]]]] eqn:Hsk; simpl in Hs; try lia.
    assert (Hd : d = pre ++ [a; b; c]) by (unfold pre; rewrite <- Hsk; symmetry; apply firstn_skipn).
    assert (Hn : forall i, nth_error d (length pre + i) = nth_error [a; b; c] i).
    { intro i. rewrite Hd at 1. rewrite nth_error_app2 by lia. f_equal. lia. }
    replace (length d - 3) with (length pre + 0) in H3 by lia.
    replace (length d - 2) with (length pre + 1) in H2 by lia.
    replace (length d - 1) with (length pre + 2) in H1 by lia.
    rewrite Hn in H3, H2, H1. simpl in H3, H2, H1.
    rewrite Hd at 1. congruence.
  Qed.

  Lemma stride_count_inv : forall i f st c,
      stride_count i f st = Some c -> f <= i /\ 1 <= st /\ c = out_count i f st.
  Proof.
    intros i f st c H. unfold stride_count in H.
    destruct (f <=? i) eqn:H1; [| discriminate H]. cbn [guard obind] in H.
    destruct (1 <=? st) eqn:H2; [| discriminate H]. cbn [guard obind] in H.
    apply Nat.leb_le in H1. apply Nat.leb_le in H2. injection H as H.
    split; [exact H1 |]. split; [exact H2 |]. symmetry. exact H.
  Qed.

  (** the success of [unroll_blocks] gives the geometry its closure needs *)
  Lemma unroll_blocks_pre : forall (a x : arr F) depth rows cols sr sc fr fc,
      dim_back (dims a) 3 = Some depth -> dim_back (dims a) 2 = Some rows ->
      dim_back (dims a) 1 = Some cols ->
      unroll_blocks O a sr sc fr fc = Some x ->
      unroll_pre depth rows cols sr sc fr fc [a] /\
      dims x = firstn (length (dims a) - 3) (dims a)
                      ++ [out_count rows fr sr * out_count cols fc sc; depth * (fr * fc)].
  Proof.
    intros a x depth rows cols sr sc fr fc H3 H2 H1 Hx.
    unfold unroll_blocks in Hx. cbv zeta in Hx. rewrite H3, H2, H1 in Hx. cbn [obind] in Hx.
    revert Hx. apply obind_elim. intros rcount Hrc Hx.
    revert Hx. apply obind_elim. intros ccount Hcc Hx.
    apply stride_count_inv in Hrc. destruct Hrc as (Hfr' & Hsr & ->).
    apply stride_count_inv in Hcc. destruct Hcc as (Hfc' & Hsc & ->).
    destruct (sliced_op_shape O _ _ _ _ _ _ Hx) as [[Hpx _] Hdx].
    split; [| exact Hdx].
    rewrite Hdx in Hpx. apply Forall_app in Hpx. destruct Hpx as [_ Hpx].
    inversion Hpx as [|? ? _ Hpx1]; subst. inversion Hpx1 as [|? ? Hp _]; subst.
    unfold unroll_pre. cbn [nth].
    split; [exact Hsr |]. split; [exact Hsc |].
    split; [destruct fr; [rewrite Nat.mul_0_l, Nat.mul_0_r in Hp; lia | lia] |].
    split; [destruct fc; [rewrite !Nat.mul_0_r in Hp; lia | lia] |].
    split; [exact Hfr' |]. split; [exact Hfc' |].
    eexists. apply dim_back_split3; assumption.
  Qed.

  Lemma nonempty_snoc : forall {A} (l : list A), 1 <= length l -> exists l' x, l = l' ++ [x].
  Proof.
    intros A l H. destruct (exists_last (l := l)) as (l' & x & E).
    - intro E. subst l. simpl in H. lia.
    - exists l', x. exact E.
  Qed.

  Definition act_ok (s1 : state) (a : Program.act) (h1 : handle) : Prop :=
    match a with
    | ASoftmax => forall x, h_arr s1 h1 = Some x -> 1 <= length (dims x)
    | _ => True
    end.

  Section MatmulCondition.
  Variable mmp : bool -> bool -> list (arr F) -> Prop.
  Hypothesis mm_pre_mmp : forall ta tb cs, mm_pre ta tb cs -> mmp ta tb cs.

  Definition cpre_mm (code : bop_code F) (d : list nat) (cs : list (arr F)) : Prop :=
    match code with
    | BMatmul ta tb => mmp ta tb cs
    | _ => code_pre2 code d cs
    end.

  Definition fpre (code : bop_code F) (v : arr F) (cs : list (arr F)) : Prop :=
    cpre_mm code (dims v) cs.

  Local Notation pre := (pre_ok_gen cpre_mm).

  Lemma pre_all_ops : forall g : list gnode, pre g <-> all_ops fpre g.
  Proof.
    intro g. unfold pre_ok_gen, all_ops. split.
    - intros H id nd Hnd. destruct (p_bop (n_pay nd)) as [code|] eqn:Hb; [| exact I].
      exact (H id nd code Hnd Hb).
    - intros H id nd code Hnd Hb. specialize (H id nd Hnd). rewrite Hb in H. exact H.
  Qed.

  Lemma fpre_plain : forall code v cs, plain code = true -> fok O fpre code v cs.
  Proof. intros code v cs Hp _. destruct code; try discriminate Hp; exact I. Qed.

  Definition op_side (s : state) (k : opk) (hs : list handle) : Prop :=
    match k, hs with
    | OSum n, [a] => forall x, h_arr s a = Some x -> n <= length (dims x)
    | OSoftmax, [a] => forall x, h_arr s a = Some x -> 1 <= length (dims x)
    | OMatmul ta tb, [a; b] =>
      forall x y, h_arr s a = Some x -> h_arr s b = Some y -> mmp ta tb [x; y; zeros1 O]
    | OMatmul ta tb, [a; b; c] =>
      forall x y z, h_arr s a = Some x -> h_arr s b = Some y -> h_arr s c = Some z ->
                    mmp ta tb [x; y; z]
    | OConv _ _, [a; b] => forall y, h_arr s b = Some y -> 4 <= length (dims y)
    | OCustom CMul, _ | OCustom CAff, _ => same_dims2 (cvals (st_nodes s) hs)
    | _, _ => True
    end.

  (** the matmul and the expansion inside a convolution: their side conditions follow from the
      shapes of the unrolled image and of the reshaped filters *)
  Lemma conv_side : forall sr sc (image filters : arr F),
      4 <= length (dims filters) -> conv_fok O fpre sr sc image filters.
  Proof.
    intros sr sc image filters Hrank. split.
    - intros d r c fr fc v [Hfit [Hfwd | []]]. cbn [code_fits nth] in Hfit. cbn [fwd_of_code] in Hfwd.
      destruct Hfit as (H3 & H2 & H1).
      exact (proj1 (unroll_blocks_pre image v d r c sr sc fr fc H3 H2 H1 Hfwd)).
    - intros depth rows cols fr fc rcount ccount u last fm Hd3 Hd2 Hd1 _ _ Hrc Hcc Hu _ Hfm.
      destruct (unroll_blocks_pre image u depth rows cols sr sc fr fc Hd3 Hd2 Hd1 Hu) as [_ Hdu].
      apply stride_count_inv in Hrc. destruct Hrc as (_ & _ & Erc).
      apply stride_count_inv in Hcc. destruct Hcc as (_ & _ & Ecc).
      rewrite <- Erc, <- Ecc in Hdu.
      destruct (a_reshape_wf _ _ _ Hfm) as [_ Hdfm].
      assert (Hpre4 : 1 <= length (firstn (length (dims filters) - 3) (dims filters)))
        by (rewrite firstn_length; lia).
      destruct (nonempty_snoc _ Hpre4) as (fpre0 & cnt & Efpre).
      rewrite Efpre, <- app_assoc in Hdfm. cbn [app] in Hdfm.
      split.
      + intros v _. apply mm_pre_mmp. unfold mm_pre. cbn [nth]. do 6 eexists.
        split; [exact Hdu |]. split; [exact Hdfm |]. cbv zeta. right. right. right. reflexivity.
      + intros mr fcount v Hmr [Hfit _]. cbn [code_fits nth] in Hfit. destruct Hfit as [Hfc Hst].
        destruct (a_matmul_dims O u false fm true None mr Hmr) as (sh & Hsh & Hdmr).
        rewrite Hdu, Hdfm in Hsh.
        destruct (matmul_dims_rank2 (firstn (length (dims image) - 3) (dims image)) (rcount * ccount)
                                    (depth * (fr * fc)) false fpre0 cnt (last / depth * depth) true)
          as (p & q & Emd).
        rewrite Emd in Hsh.
        revert Hsh. apply obind_elim. intros lead _ Hsh.
        revert Hsh. apply obind_elim. intros u3 _ Hsh.
        injection Hsh as <-. cbn [ms_out mm_rows mm_cols] in Hdmr.
        rewrite Hdmr, dim_back_snoc2_1 in Hfc. injection Hfc as <-.
        assert (Hpos : 0 < rcount * ccount).
        { apply Nat.mul_pos_pos; [rewrite Erc | rewrite Ecc]; apply out_count_pos. }
        rewrite Hst in Hpos, Hdmr. apply Nat.lt_0_mul' in Hpos.
        split; [exact (proj1 Hpos) |]. split; [exact (proj2 Hpos) |].
        exists lead. exact Hdmr.
  Qed.

  Lemma op_side_fok : forall s k hs, op_side s k hs -> op_fok O fpre s k hs.
  Proof.
    intros s k hs Hok.
    destruct k; try (destruct hs as [|h1 [|h2 [|h3 [|h4 l]]]]; cbn [op_fok]; exact I).
    - destruct hs as [|a [|? ?]]; cbn [op_fok op_side] in *; try exact I.
      intros x v Hx _. exact (Hok x Hx).
    - destruct hs as [|a [|b [|c [|? ?]]]]; cbn [op_fok op_side] in *; try exact I.
      + intros x y v Hx Hy _. exact (Hok x y Hx Hy).
      + intros x y z v Hx Hy Hz _. exact (Hok x y z Hx Hy Hz).
    - destruct hs as [|a [|b [|? ?]]]; cbn [op_fok op_side] in *; try exact I.
      intros x y _ Hy. apply conv_side. exact (Hok y Hy).
    - destruct hs as [|a [|? ?]]; cbn [op_fok op_side] in *; try exact I.
      intros x e v Hx He _. unfold fpre. cbn [cpre_mm code_pre2 nth].
      rewrite (proj2 (map_arr_wf _ _ _ He)). exact (Hok x Hx).
    - destruct c; destruct hs as [|h1 [|h2 [|h3 [|h4 l]]]]; cbn [op_fok op_side] in *;
        intros args v Hargs _; try exact I;
        unfold fpre; cbn [cpre_mm code_pre2];
        rewrite <- (proj1 (mapM_h_arr s _ args Hargs)); exact Hok.
  Qed.

  Lemma fold_layers_pre : forall ls s h s1 out,
      store_good (st_nodes s) -> pre (st_nodes s) -> hvalid (st_nodes s) h ->
      (forall l, In l ls -> lvalid (st_nodes s) l) -> layers_cond O op_side s ls h ->
      fold_left (fun (acc : option (state * handle)) (l : layer) =>
                   st <- acc ;; let '(s', h') := st in layer_forward O s' l h')
                ls (Some (s, h)) = Some (s1, out) ->
      pre (st_nodes s1).
  Proof.
    intros ls s h s1 out Hg Hp Hh Hls Hok H. apply pre_all_ops. apply pre_all_ops in Hp.
    exact (proj2 (fold_layers_kept O fpre fpre_plain ls s h s1 out Hg Hh Hls
                                   (layers_cond_mono O _ _ op_side_fok ls s h Hok) H) Hp).
  Qed.

  Lemma cost_apply_pre : forall s c output target r,
      store_good (st_nodes s) -> pre (st_nodes s) ->
      hvalid (st_nodes s) output -> hvalid (st_nodes s) target ->
      cost_apply O s c output target = Some r -> pre (st_nodes (fst r)).
  Proof.
    intros s c output target r Hg Hp Ho Ht H. apply pre_all_ops. apply pre_all_ops in Hp.
    exact (proj2 (cost_apply_kept O fpre fpre_plain s c output target r Hg Ho Ht H) Hp).
  Qed.

  Theorem step_pre : forall s0 i s' o,
      good s0 -> seed_ok s0 i -> pre (st_nodes s0) -> instr_cond O op_side s0 i ->
      step O s0 i = Some (s', o) -> pre (st_nodes s').
  Proof.
    intros s0 i s' o Hgd Hseed Hp Hok H. apply pre_all_ops. apply pre_all_ops in Hp.
    exact (proj2 (step_kept O fpre fpre_plain s0 i s' o Hgd Hseed
                            (instr_cond_mono O _ _ op_side_fok s0 i Hok) H) Hp).
  Qed.
  End MatmulCondition.

  Lemma pre_ok_mm : forall g : list gnode, pre_ok g <-> pre_ok_gen (cpre_mm mm_pre) g.
  Proof.
    intro g. split; intros H id nd code Hnd Hb; specialize (H id nd code Hnd Hb);
      destruct code; exact H.
  Qed.

  Definition op_ok (s : state) (k : opk) (hs : list handle) : Prop :=
    match k, hs with
    | OSum n, [a] => forall x, h_arr s a = Some x -> n <= length (dims x)
    | OSoftmax, [a] => forall x, h_arr s a = Some x -> 1 <= length (dims x)
    | OMatmul ta tb, [a; b] =>
      forall x y, h_arr s a = Some x -> h_arr s b = Some y -> mm_pre ta tb [x; y; zeros1 O]
    | OMatmul ta tb, [a; b; c] =>
      forall x y z, h_arr s a = Some x -> h_arr s b = Some y -> h_arr s c = Some z ->
                    mm_pre ta tb [x; y; z]
    | OConv _ _, [a; b] => forall y, h_arr s b = Some y -> 4 <= length (dims y)
    | OCustom CMul, _ | OCustom CAff, _ => same_dims2 (cvals (st_nodes s) hs)
    | _, _ => True
    end.

  (** the operand shapes one layer needs: dense layers multiply operands of rank >= 2 with an
      admissible bias, convolutional layers have filters of rank >= 4, a softmax activation
      acts on a non-scalar *)
  Definition layer_ok (s : state) (l : layer) (input : handle) : Prop :=
    match l_conv l with
    | None =>
      (forall x y z, h_arr s input = Some x -> h_arr s (l_w l) = Some y -> h_arr s (l_b l) = Some z ->
                     mm_pre false true [x; y; z]) /\
      (forall s1 h1, op_matmul O s false true input (l_w l) (Some (l_b l)) = Some (s1, h1) ->
                     act_ok s1 (l_act l) h1)
    | Some (sr, sc) =>
      (forall y, h_arr s (l_w l) = Some y -> 4 <= length (dims y)) /\
      (forall s1 hc s2 h2, op_conv O s sr sc input (l_w l) = Some (s1, hc) ->
                           op_add O s1 hc (l_b l) = Some (s2, h2) -> act_ok s2 (l_act l) h2)
    end.

  Fixpoint layers_ok (s : state) (ls : list layer) (h : handle) : Prop :=
    match ls with
    | [] => True
    | l :: ls' => layer_ok s l h /\
                  forall s1 h1, layer_forward O s l h = Some (s1, h1) -> layers_ok s1 ls' h1
    end.

  Definition instr_ok (s0 : state) (i : instr) : Prop :=
    let s := with_tag s0 (length (st_pool s0)) in
    match i with
    | IOp k args => forall hs, mapM (var s) args = Some hs -> op_ok s k hs
    | IForward h => forall x, var s h = Some x -> layers_ok s (st_layers s) x
    | _ => True
    end.

  Theorem step_pre_ok : forall s0 i s' o,
      good s0 -> seed_ok s0 i -> pre_ok (st_nodes s0) -> instr_ok s0 i ->
      step O s0 i = Some (s', o) -> pre_ok (st_nodes s').
  Proof.
    intros s0 i s' o Hgd Hseed Hp Hok H. apply pre_ok_mm. apply pre_ok_mm in Hp.
    exact (step_pre mm_pre (fun _ _ _ H => H) s0 i s' o Hgd Hseed Hp Hok H).
  Qed.

  Definition good3 (s : state) : Prop := good2 O s /\ pre_ok (st_nodes s).

  Theorem good3_init : good3 (init_state O).
  Proof.
    split; [apply good2_init |]. intros id nd code H. destruct id; discriminate H.
  Qed.

  Theorem step_good3 : forall s0 i s' o,
      good3 s0 -> seed_ok s0 i -> instr_ok s0 i -> step O s0 i = Some (s', o) -> good3 s'.
  Proof.
    intros s0 i s' o [Hg2 Hp] Hseed Hok H. split.
    - eapply step_good2; eassumption.
    - destruct Hg2 as [Hgd _]. eapply step_pre_ok; eassumption.
  Qed.

  (** [s] is reached from [s0] by a prefix of [p] all of whose instructions satisfy their
      side conditions (well-shaped explicit seeds, [instr_ok]) *)
  Inductive reaches_ok (s0 : state) : list instr -> state -> Prop :=
  | reaches_ok_nil : forall p, reaches_ok s0 p s0
  | reaches_ok_step : forall i p s1 o s,
      seed_ok s0 i -> instr_ok s0 i -> step O s0 i = Some (s1, o) -> reaches_ok s1 p s ->
      reaches_ok s0 (i :: p) s.

  Theorem reaches_ok_good3 : forall s0 p s, good3 s0 -> reaches_ok s0 p s -> good3 s.
  Proof.
    intros s0 p s Hgd H. induction H as [s0 p | s0 i p s1 o s Hseed Hok Hstep Hre IH].
    - exact Hgd.
    - apply IH. eapply step_good3; eassumption.
  Qed.

  Definition reachable_ok (p : list instr) (s : state) : Prop := reaches_ok (init_state O) p s.

  Theorem run_good3 : forall p s, reachable_ok p s -> good3 s.
  Proof. intros p s H. eapply reaches_ok_good3; [apply good3_init | exact H]. Qed.
End HistoryPre.

Print Assumptions step_good3.
Print Assumptions run_good3.
