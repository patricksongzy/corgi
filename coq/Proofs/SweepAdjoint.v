(** (S2) The adjoint identity for the declarative backward pass (property C01:
    reverse mode agrees with forward mode).

    Given a pairing [pair : D -> T -> K] of adjoints with tangents into a commutative
    monoid [K], one tangent [tan n] per node id, and the LOCAL transpose identity of
    every closure ([H_local]), the seed paired with the root's tangent equals the sum,
    over the leaves, of the leaf's adjoint paired with the leaf's tangent. *)

From Coq Require Import List Arith Bool Lia PeanoNat.
From Corgi Require Import Lib.OptionMonad Model.Engine Proofs.EngineDefs Proofs.EngineBase
     Proofs.AdjointSpec Proofs.SweepBase.
Import ListNotations.

Definition ksum {K : Type} (kadd : K -> K -> K) (k0 : K) (l : list K) : K := fold_right kadd k0 l.

Definition isop {P D : Type} (E : eops P D) (g : store P D) (m : nat) : bool :=
  match nth_error g m with
  | Some nd => hasop E nd
  | None => false
  end.

Section Monoid.
  Variable K : Type.
  Variable k0 : K.
  Variable kadd : K -> K -> K.
  Hypothesis kadd_assoc : forall a b c, kadd a (kadd b c) = kadd (kadd a b) c.
  Hypothesis kadd_comm : forall a b, kadd a b = kadd b a.
  Hypothesis kadd_0_l : forall a, kadd k0 a = a.

  Local Notation ksum := (ksum kadd k0).

  Lemma kadd_0_r : forall a, kadd a k0 = a.
  Proof. intro a. rewrite kadd_comm. apply kadd_0_l. Qed.

  Lemma kadd_swap : forall a b c, kadd (kadd a b) c = kadd (kadd a c) b.
  Proof.
    intros a b c. rewrite <- (kadd_assoc a b c), (kadd_comm b c), kadd_assoc. reflexivity.
  Qed.

  Lemma ksum_nil : ksum [] = k0.
  Proof. reflexivity. Qed.

  Lemma ksum_cons : forall x l, ksum (x :: l) = kadd x (ksum l).
  Proof. reflexivity. Qed.

  Lemma ksum_single : forall x, ksum [x] = x.
  Proof. intro x. simpl. apply kadd_0_r. Qed.

  Lemma ksum_app : forall l1 l2, ksum (l1 ++ l2) = kadd (ksum l1) (ksum l2).
  Proof.
    intros l1 l2. induction l1 as [|x l1 IH].
    - simpl. symmetry. apply kadd_0_l.
    - simpl. rewrite IH. apply kadd_assoc.
  Qed.

  Lemma ksum_all_k0 : forall {A} (f : A -> K) l,
      (forall x, In x l -> f x = k0) -> ksum (map f l) = k0.
  Proof.
    intros A f l. induction l as [|x l IH]; intros H.
    - reflexivity.
    - simpl. rewrite (H x (or_introl eq_refl)), kadd_0_l.
      apply IH. intros y Hy. apply H. right. exact Hy.
  Qed.

  Lemma ksum_update : forall (f f' : nat -> K) i x l,
      NoDup l -> In i l -> f' i = kadd (f i) x -> (forall j, j <> i -> f' j = f j) ->
      ksum (map f' l) = kadd (ksum (map f l)) x.
  Proof.
    intros f f' i x l. induction l as [|a l IH]; intros Hnd Hin Hi Ho.
    - destruct Hin.
    - inversion Hnd as [|a' l' Hna Hnd']. subst a' l'.
      simpl. destruct (Nat.eq_dec a i) as [Heq | Hne].
      + subst a. rewrite Hi.
        assert (Hm : map f' l = map f l).
        { apply map_ext_in. intros j Hj. apply Ho. intro Hji. subst j. contradiction. }
        rewrite Hm. apply kadd_swap.
      + destruct Hin as [Hin | Hin]; [contradiction |].
        rewrite (Ho a Hne). rewrite (IH Hnd' Hin Hi Ho). apply kadd_assoc.
  Qed.
End Monoid.

Section AdjointIdentity.
  Context {P D : Type}.
  Variable E : eops P D.
  Variable g : store P D.

  Variable T : Type.                 (* tangents *)
  Variable K : Type.                 (* values of the pairing *)
  Variable k0 : K.
  Variable kadd : K -> K -> K.
  Hypothesis kadd_assoc : forall a b c, kadd a (kadd b c) = kadd (kadd a b) c.
  Hypothesis kadd_comm : forall a b, kadd a b = kadd b a.
  Hypothesis kadd_0_l : forall a, kadd k0 a = a.

  Variable pair : D -> T -> K.
  Variable tan : nat -> T.           (* the forward tangent of every node *)

  Local Notation ksum := (ksum kadd k0).

  Definition pairc (c : nat * D) : K := pair (snd c) (tan (fst c)).

  Definition val (tab : table) (m : nat) : K :=
    match nth m tab None with
    | Some d => pair d (tan m)
    | None => k0
    end.

  Definition leaf (m : nat) : bool := negb (isop E g m).

  Lemma val_eq : forall tab tab' m, nth m tab' None = nth m tab None -> val tab' m = val tab m.
  Proof. intros tab tab' m H. unfold val. rewrite H. reflexivity. Qed.

  (** The identity is proved for adjoints restricted to acceptable values ([okn n d]: [d]
      may be the adjoint of node [n]); additivity of the pairing and the local transpose
      identities are then only needed on such values, and the sweep keeps every slot
      acceptable. *)
  Section Guarded.
    Variable okn : nat -> D -> Prop.

    Hypothesis G_add : forall n x y z, okn n x -> okn n y -> eo_add E x y = Some z -> okn n z.
    Hypothesis G_contribs : forall n delta cs c,
        okn n delta -> contribs E g n delta = Some cs -> In c cs -> okn (fst c) (snd c).
    Hypothesis G_pair_add : forall n x y z t,
        okn n x -> okn n y -> eo_add E x y = Some z -> pair z t = kadd (pair x t) (pair y t).
    Hypothesis G_local : forall n nd delta cs,
        nth_error g n = Some nd -> hasop E nd = true -> okn n delta ->
        contribs E g n delta = Some cs ->
        pair delta (tan n) = ksum (map pairc cs).

    Definition tab_all (tab : table) : Prop := forall m d, nth m tab None = Some d -> okn m d.

    Lemma tab_add_val : forall tab c tab' l,
        tab_all tab -> okn (fst c) (snd c) -> tab_add E tab c = Some tab' ->
        NoDup l -> In (fst c) l ->
        tab_all tab' /\
        ksum (map (val tab') l) = kadd (ksum (map (val tab) l)) (pairc c).
    Proof.
      intros tab c tab' l Ht Hc H Hnd Hin.
      apply tab_add_inv in H. destruct H as (_ & _ & nw & Hnw & Hj).
      assert (Hnw' : okn (fst c) nw /\ pair nw (tan (fst c)) = kadd (val tab (fst c)) (pairc c)).
      { unfold val, pairc. destruct (nth (fst c) tab None) as [x|] eqn:Hx; simpl in Hnw.
        - pose proof (Ht _ _ Hx) as Hokx.
          split; [exact (G_add _ x _ nw Hokx Hc Hnw) | exact (G_pair_add _ x _ nw _ Hokx Hc Hnw)].
        - injection Hnw as Hnw. subst nw. split; [exact Hc | symmetry; apply kadd_0_l]. }
      destruct Hnw' as (Hoknw & Hpair). split.
      - intros m d Hd. rewrite Hj in Hd. destruct (m =? fst c) eqn:Hm; [| apply Ht; exact Hd].
        apply Nat.eqb_eq in Hm. injection Hd as Hd. subst m d. exact Hoknw.
      - apply (ksum_update K k0 kadd kadd_assoc kadd_comm (val tab) (val tab') (fst c));
          try assumption.
        + unfold val at 1. rewrite Hj, Nat.eqb_refl. exact Hpair.
        + intros j Hne. apply val_eq. rewrite Hj.
          apply Nat.eqb_neq in Hne. rewrite Hne. reflexivity.
    Qed.

    Lemma tab_add_all_val : forall cs tab tab' l,
        tab_all tab -> (forall c, In c cs -> okn (fst c) (snd c)) ->
        tab_add_all E tab cs = Some tab' -> NoDup l -> (forall c, In c cs -> In (fst c) l) ->
        tab_all tab' /\
        ksum (map (val tab') l) = kadd (ksum (map (val tab) l)) (ksum (map pairc cs)).
    Proof.
      intro cs. induction cs as [|c cs IH]; intros tab tab' l Ht Hcs H Hnd Hin.
      - rewrite tab_add_all_nil in H. injection H as H. subst tab'. split; [exact Ht |].
        simpl. symmetry. apply (kadd_0_r K k0 kadd kadd_comm kadd_0_l).
      - rewrite tab_add_all_cons in H. revert H. apply obind_elim. intros t Htc H.
        destruct (tab_add_val tab c t l Ht (Hcs c (or_introl eq_refl)) Htc Hnd
                              (Hin c (or_introl eq_refl))) as (Ht1 & Hsum1).
        destruct (IH t tab' l Ht1) as (Ht' & Hsum); try assumption;
          try (intros c0 Hc0; (apply Hcs || apply Hin); right; exact Hc0).
        split; [exact Ht' |]. rewrite Hsum, Hsum1. simpl. symmetry. apply kadd_assoc.
    Qed.

    (** the invariant of the sweep: what the slots below [n] pair to is moved to the leaves *)
    Lemma sweep_pair : forall n tab tab',
        wfg E g -> tab_all tab -> sweep E g (rev (seq 0 n)) tab = Some tab' ->
        tab_all tab' /\
        ksum (map (val tab) (seq 0 n)) = ksum (map (val tab') (filter leaf (seq 0 n))).
    Proof.
      intro n. induction n as [|k IH]; intros tab tab' Hwf Ht H.
      - injection H as H. subst tab'. split; [exact Ht | reflexivity].
      - rewrite (seq_S k 0) in H |- *. change (0 + k) with k in H |- *.
        rewrite rev_app_distr in H. simpl in H.
        rewrite filter_app, !map_app.
        rewrite !(ksum_app K k0 kadd kadd_assoc kadd_0_l).
        assert (Hsame : forall t t', sweep E g (rev (seq 0 k)) t = Some t' ->
                                     nth k t' None = nth k t None).
        { intros t t' Ht0. apply (sweep_unchanged E g _ t t' k Hwf Ht0).
          intros m Hm. apply in_rev in Hm. apply in_seq in Hm. lia. }
        change (filter leaf [k]) with (if leaf k then [k] else []).
        change (map (val tab) [k]) with [val tab k].
        rewrite (ksum_single K k0 kadd kadd_comm kadd_0_l).
        apply sweep_cons_inv in H.
        destruct H as [[Hd H] | (delta & cs & tab1 & Hd & Hcs & Ht1 & H)].
        + (* slot empty: node [k] is not differentiated *)
          destruct (IH tab tab' Hwf Ht H) as (Ht' & Hsum). split; [exact Ht' |]. rewrite Hsum.
          assert (Hv : val tab k = k0) by (unfold val; rewrite Hd; reflexivity).
          assert (Hv' : val tab' k = k0) by (rewrite (val_eq tab tab' k (Hsame _ _ H)); exact Hv).
          rewrite Hv. f_equal.
          destruct (leaf k); simpl; [rewrite Hv'; symmetry; apply kadd_0_l | reflexivity].
        + assert (Hv : val tab k = pair delta (tan k)) by (unfold val; rewrite Hd; reflexivity).
          pose proof (Ht k delta Hd) as Hokd.
          destruct (contribs_inv E g k delta cs Hcs) as (nd & Hnd & Hcase).
          destruct Hcase as [[Hop Hnil] | [Hop _]].
          * (* a leaf: its term stays *)
            subst cs. rewrite tab_add_all_nil in Ht1. injection Ht1 as Ht1. subst tab1.
            destruct (IH tab tab' Hwf Ht H) as (Ht' & Hsum). split; [exact Ht' |]. rewrite Hsum.
            assert (Hl : leaf k = true) by (unfold leaf, isop; rewrite Hnd, Hop; reflexivity).
            rewrite Hl. simpl.
            rewrite (kadd_0_r K k0 kadd kadd_comm kadd_0_l).
            rewrite (val_eq tab tab' k (Hsame _ _ H)). reflexivity.
          * (* a node with a closure: its term is traded for its contributions *)
            assert (Hl : leaf k = false) by (unfold leaf, isop; rewrite Hnd, Hop; reflexivity).
            rewrite Hl. simpl.
            rewrite (kadd_0_r K k0 kadd kadd_comm kadd_0_l).
            destruct (tab_add_all_val cs tab tab1 (seq 0 k) Ht) as (Ht1' & Hsum1).
            -- intros c Hc. eapply G_contribs; eassumption.
            -- exact Ht1.
            -- apply seq_NoDup.
            -- intros c Hc. apply in_seq.
               assert (Hlt : fst c < k) by (eapply contribs_lt; eassumption). lia.
            -- destruct (IH tab1 tab' Hwf Ht1' H) as (Ht' & Hsum). split; [exact Ht' |].
               rewrite <- Hsum, Hsum1, Hv.
               rewrite (G_local k nd delta cs Hnd Hop Hokd Hcs). reflexivity.
    Qed.

    Theorem adjoint_identity_okn : forall r s tab,
        wfg E g -> okn r s -> adjoints E g r s = Some tab ->
        tab_all tab /\
        pair s (tan r) = ksum (map (val tab) (filter leaf (seq 0 (S r)))).
    Proof.
      intros r s tab Hwf Hs H. unfold adjoints, down_from in H.
      assert (Ht0 : tab_all (init_table (length g) r s)).
      { intros m d Hd. rewrite init_table_nth in Hd.
        destruct (m =? r) eqn:Hm; [| discriminate Hd].
        apply Nat.eqb_eq in Hm. injection Hd as Hd. subst m d. exact Hs. }
      destruct (sweep_pair (S r) _ tab Hwf Ht0 H) as (Ht & Hp). split; [exact Ht |].
      rewrite <- Hp. rewrite (seq_S r 0), map_app.
      rewrite (ksum_app K k0 kadd kadd_assoc kadd_0_l).
      rewrite (ksum_all_k0 K k0 kadd kadd_0_l).
      - simpl. rewrite kadd_0_l, (kadd_0_r K k0 kadd kadd_comm kadd_0_l).
        unfold val. rewrite init_table_nth, Nat.eqb_refl. reflexivity.
      - intros m Hm. apply in_seq in Hm. unfold val. rewrite init_table_nth.
        assert (Hne : (m =? r) = false) by (apply Nat.eqb_neq; lia). rewrite Hne. reflexivity.
    Qed.
  End Guarded.

  (** the pairing is additive in the adjoint *)
  Hypothesis H_pair_add : forall x y z t,
      eo_add E x y = Some z -> pair z t = kadd (pair x t) (pair y t).

  (** the local transpose identity of one closure *)
  Hypothesis H_local : forall n nd delta cs,
      nth_error g n = Some nd -> hasop E nd = true -> contribs E g n delta = Some cs ->
      pair delta (tan n) = ksum (map pairc cs).

  Theorem adjoint_identity_gen : forall r s tab,
      wfg E g -> adjoints E g r s = Some tab ->
      pair s (tan r) =
      ksum (map (fun m => match nth m tab None with
                          | Some d => pair d (tan m)
                          | None => k0
                          end)
                (filter (fun m => negb (isop E g m)) (seq 0 (S r)))).
  Proof.
    intros r s tab Hwf H.
    refine (proj2 (adjoint_identity_okn (fun _ _ => True) _ _ _ _ r s tab Hwf I H)).
    - intros; exact I.
    - intros; exact I.
    - intros n x y z t _ _. apply H_pair_add.
    - intros n nd delta cs Hnd Hop _. apply (H_local n nd delta cs Hnd Hop).
  Qed.

  (** [r < length g] is not needed *)
  Theorem adjoint_identity : forall r s tab,
      wfg E g -> r < length g -> adjoints E g r s = Some tab ->
      pair s (tan r) =
      ksum (map (fun m => match nth m tab None with
                          | Some d => pair d (tan m)
                          | None => k0
                          end)
                (filter (fun m => negb (isop E g m)) (seq 0 (S r)))).
  Proof. intros r s tab Hwf _ H. apply adjoint_identity_gen; assumption. Qed.
End AdjointIdentity.
