(** Value-level trace of a backward pass: which nodes fired with which adjoint, which
    contributions were delivered, and how both relate to [contribs]. *)

From Coq Require Import List Arith Bool Lia PeanoNat Permutation.
From Corgi Require Import Lib.OptionMonad Model.Engine Proofs.EngineDefs Proofs.EngineBase
     Proofs.Propagate Proofs.EngineInv Proofs.AdjointSpec Proofs.ValueAlg Proofs.SweepBase
     Proofs.SweepChar.
Import ListNotations.

Section Seg.
  Context {P D : Type}.
  Variable E : eops P D.
  Variable g0 : store P D.
  Variable r : nat.
  Hypothesis Hwf : wfg E g0.
  Hypothesis Hbc : bop_contract E g0.
  Hypothesis Hr : r < length g0.

  Definition leafb (m : nat) : bool :=
    match nth_error g0 m with
    | Some nd => match n_children nd with [] => true | _ => false end
    | None => false
    end.

  (** the gradient slot after accumulating [delta] (existing value on the left) *)
  Definition gstore (o : option D) (delta : D) (o' : option D) : Prop :=
    exists ng, oadd E o delta = Some ng /\ o' = Some ng.

  Definition pend (g' : store P D) (FT : list (fired D)) (m : nat) : option D :=
    match lk m FT with Some (d, _) => Some d | None => dlt g' m end.

  Definition grule (gr : nat -> option D) (g' : store P D) (FT : list (fired D)) (m : nat) : Prop :=
    match lk m FT with
    | None => grd g' m = gr m
    | Some (d, k) => if leafb m || k then gstore (gr m) d (grd g' m) else grd g' m = gr m
    end.

  Record Seg (cn : nat -> nat) (dl gr : nat -> option D) (g' : store P D)
         (FT : list (fired D)) (H : list (nat * D)) : Prop := {
    seg_sk : SK g0 g';
    seg_le : forall m, cnt g' m <= cn m;
    seg_owed : forall p, In p H -> 1 <= cn (fst p);
    seg_fired : forall f, In f FT ->
        0 < cn (fnode f) /\ cnt g' (fnode f) = 0 /\ reach g0 r (fnode f) /\
        contribs E g0 (fnode f) (fdel f) <> None;
    seg_nodup : NoDup (map fnode FT);
    seg_all : forall m, 0 < cn m -> cnt g' m = 0 -> In m (map fnode FT);
    seg_acc : forall m, accum E (dl m) (vals m H) = Some (pend g' FT m);
    seg_grad : forall m, grule gr g' FT m }.

  Lemma Seg_refl : forall g, SK g0 g -> Seg (cnt g) (dlt g) (grd g) g [] [].
  Proof.
    intros g HS.
    constructor; [exact HS | intro m; lia | intros p [] | intros f [] | constructor
                  | intros m H1 H2; lia | intro m; reflexivity | intro m; reflexivity].
  Qed.

  Lemma Seg_ext : forall cn cn' dl dl' gr gr' g' FT H,
      (forall m, cn' m = cn m) -> (forall m, dl' m = dl m) -> (forall m, gr' m = gr m) ->
      Seg cn dl gr g' FT H -> Seg cn' dl' gr' g' FT H.
  Proof.
    intros cn cn' dl dl' gr gr' g' FT H Hc Hd Hg [Sa Sb Sc Sd Se Sf Sg Sh].
    constructor; [exact Sa | intro m; rewrite Hc; apply Sb
                  | intros p Hp; rewrite Hc; apply Sc; exact Hp
                  | intros f Hf; rewrite Hc; apply Sd; exact Hf | exact Se
                  | intros m Hm; rewrite Hc in Hm; apply Sf; exact Hm
                  | intro m; rewrite Hd; apply Sg |].
    intro m. specialize (Sh m). unfold grule in *. rewrite Hg. exact Sh.
  Qed.

  Lemma in_fnode_lk : forall (FT : list (fired D)) m,
      In m (map fnode FT) -> exists d k, lk m FT = Some (d, k).
  Proof.
    intros FT m Hin. destruct (lk m FT) as [[d k]|] eqn:Hlk.
    - exists d, k. reflexivity.
    - apply lk_none in Hlk. contradiction.
  Qed.

  Lemma lk_fnode_in : forall (FT : list (fired D)) m d k,
      lk m FT = Some (d, k) -> In m (map fnode FT).
  Proof.
    intros FT m d k Hlk. apply lk_in in Hlk.
    change m with (fnode (m, d, k)). apply in_map. exact Hlk.
  Qed.

  Lemma Seg_trans : forall cn dl gr (g1 g2 : store P D) F1 F2 H1 H2,
      Seg cn dl gr g1 F1 H1 -> Seg (cnt g1) (dlt g1) (grd g1) g2 F2 H2 ->
      Seg cn dl gr g2 (F1 ++ F2) (H1 ++ H2).
  Proof.
    intros cn dl gr g1 g2 F1 F2 H1 H2
           [Sa Sb Sc Sd Se Sf Sg Sh] [Ta Tb Tc Td Te Tf Tg Th].
    assert (Hdisj : forall m, In m (map fnode F1) -> In m (map fnode F2) -> False).
    { intros m Hm1 Hm2. apply in_map_iff in Hm1. destruct Hm1 as (f1 & Hf1 & Hin1).
      apply in_map_iff in Hm2. destruct Hm2 as (f2 & Hf2 & Hin2).
      destruct (Sd f1 Hin1) as (_ & Hz & _). destruct (Td f2 Hin2) as (Hp & _).
      rewrite Hf1 in Hz. rewrite Hf2 in Hp. lia. }
    assert (Hnov : forall m, In m (map fnode F1) -> vals m H2 = []).
    { intros m Hm. apply vals_nil_notin. intros p Hp Heq.
      specialize (Tc p Hp). rewrite Heq in Tc.
      apply in_map_iff in Hm. destruct Hm as (f1 & Hf1 & Hin1).
      destruct (Sd f1 Hin1) as (_ & Hz & _). rewrite Hf1 in Hz. lia. }
    constructor; [exact Ta | intro m; specialize (Sb m); specialize (Tb m); lia | | | | | |].
    { intros p Hp. apply in_app_or in Hp. destruct Hp as [Hp|Hp]; [apply Sc; exact Hp |].
      specialize (Tc p Hp). specialize (Sb (fst p)). lia. }
    { intros f Hf. apply in_app_or in Hf. destruct Hf as [Hf|Hf].
      - destruct (Sd f Hf) as (H1' & H2' & H3' & H4').
        split; [exact H1' |]. split; [| exact (conj H3' H4')]. specialize (Tb (fnode f)). lia.
      - destruct (Td f Hf) as (H1' & H2' & H3' & H4').
        split; [specialize (Sb (fnode f)); lia | exact (conj H2' (conj H3' H4'))]. }
    { rewrite map_app. clear -Se Te Hdisj.
      induction (map fnode F1) as [|x l IH]; simpl.
      - exact Te.
      - inversion Se as [|x' l' Hx Hl]. subst x' l'. constructor.
        + intro Hin. apply in_app_or in Hin. destruct Hin as [Hin|Hin]; [exact (Hx Hin) |].
          apply (Hdisj x); [left; reflexivity | exact Hin].
        + apply IH; [exact Hl |]. intros m Hm1 Hm2. apply (Hdisj m); [right; exact Hm1 | exact Hm2]. }
    { intros m Hcn Hz. rewrite map_app. apply in_or_app.
      destruct (cnt g1 m) as [|k] eqn:Hc1.
      - left. apply Sf; assumption.
      - right. apply Tf; [lia | exact Hz]. }
    { intro m. rewrite vals_app, accum_app, (Sg m). simpl.
      unfold pend. rewrite lk_app. destruct (lk m F1) as [[d k]|] eqn:Hlk.
      - rewrite (Hnov m (lk_fnode_in F1 m d k Hlk)). reflexivity.
      - apply Tg. }
    intro m. specialize (Sh m). specialize (Th m). unfold grule in *. rewrite lk_app.
    destruct (lk m F1) as [[d k]|] eqn:Hlk.
    - assert (Hno : lk m F2 = None).
      { apply lk_none. intro Hin. apply (Hdisj m); [eapply lk_fnode_in; exact Hlk | exact Hin]. }
      rewrite Hno in Th. rewrite Th. exact Sh.
    - destruct (lk m F2) as [[d k]|]; rewrite <- Sh; exact Th.
  Qed.

  Lemma Seg_cons_deliver : forall cn dl dl' gr g2 FT H c d',
      Seg cn dl' gr g2 FT H -> 1 <= cn c ->
      (forall m, m <> c -> dl' m = dl m) -> oadd E (dl c) d' = dl' c -> dl' c <> None ->
      Seg cn dl gr g2 FT ((c, d') :: H).
  Proof.
    intros cn dl dl' gr g2 FT H c d' [Sa Sb Sc Sd Se Sf Sg Sh] Hc Hoth Hadd Hne.
    constructor; [exact Sa | exact Sb | intros p [Hp|Hp]; [subst p; exact Hc | apply Sc; exact Hp]
                  | exact Sd | exact Se | exact Sf | | exact Sh].
    intro m. rewrite vals_cons. destruct (c =? m) eqn:Hcm.
    - apply Nat.eqb_eq in Hcm. subst m. simpl. rewrite Hadd.
      destruct (dl' c) as [z|] eqn:Hz; [| congruence]. simpl. rewrite <- Hz. apply Sg.
    - apply Nat.eqb_neq in Hcm. rewrite <- Hoth by congruence. apply Sg.
  Qed.

  Lemma Seg_dec_base : forall (g g1 : store P D) c,
      SK g0 g1 -> 2 <= cnt g c ->
      (forall m, cnt g1 m = if m =? c then cnt g c - 1 else cnt g m) ->
      (forall m, grd g1 m = grd g m) ->
      Seg (cnt g) (dlt g1) (grd g) g1 [] [].
  Proof.
    intros g g1 c HS H2 Hcnt Hgrd.
    constructor; [exact HS | | intros p [] | intros f [] | constructor | | intro m; reflexivity |].
    - intro m. rewrite Hcnt. destruct (m =? c) eqn:Hm; [apply Nat.eqb_eq in Hm; subst m; lia | lia].
    - intros m Hp Hz. rewrite Hcnt in Hz. destruct (m =? c) eqn:Hm; lia.
    - intro m. unfold grule. simpl. apply Hgrd.
  Qed.

  Definition upd1 (cn : nat -> nat) (c : nat) : nat -> nat :=
    fun m => if m =? c then 1 else cn m.
  Definition updd (dl : nat -> option D) (c : nat) (x : D) : nat -> option D :=
    fun m => if m =? c then Some x else dl m.

  Lemma Seg_body : forall (g1 g2 g' : store P D) id x keep FT H,
      Seg (cnt g1) (dlt g1) (grd g1) g2 FT H ->
      cnt g1 id = 0 -> dlt g1 id = None -> reach g0 r id ->
      contribs E g0 id x <> None ->
      map sk g' = map sk g2 -> (forall m, cnt g' m = cnt g2 m) -> (forall m, dlt g' m = dlt g2 m) ->
      (forall m, m <> id -> grd g' m = grd g2 m) ->
      (if leafb id || keep then gstore (grd g2 id) x (grd g' id) else grd g' id = grd g2 id) ->
      Seg (upd1 (cnt g1) id) (updd (dlt g1) id x) (grd g1) g' ((id, x, keep) :: FT) H.
  Proof.
    intros g1 g2 g' id x keep FT H [Sa Sb Sc Sd Se Sf Sg Sh]
           Hc0 Hd0 Hrid Hcon Hsk Hcnt Hdlt Hgrd Hgid.
    assert (Hnotin : ~ In id (map fnode FT)).
    { intro Hin. apply in_map_iff in Hin. destruct Hin as (f & Hf & Hin).
      destruct (Sd f Hin) as (Hp & _). rewrite Hf in Hp. lia. }
    assert (Hlkid : lk id FT = None) by (apply lk_none; exact Hnotin).
    constructor; [eapply SK_eq; eassumption | | | | simpl; constructor; [exact Hnotin | exact Se] | | |].
    { intro m. rewrite Hcnt. unfold upd1. destruct (m =? id) eqn:Hm.
      - apply Nat.eqb_eq in Hm. subst m. specialize (Sb id). lia.
      - apply Sb. }
    { intros p Hp. specialize (Sc p Hp). unfold upd1. destruct (fst p =? id); lia. }
    { intros f [Hf|Hf].
      - subst f. unfold fnode, fdel. simpl. unfold upd1. rewrite Nat.eqb_refl.
        split; [lia |]. split; [rewrite Hcnt; specialize (Sb id); lia |].
        split; [exact Hrid | exact Hcon].
      - destruct (Sd f Hf) as (H1 & H2 & H3 & H4). unfold upd1.
        split; [destruct (fnode f =? id); lia |].
        split; [rewrite Hcnt; exact H2 | exact (conj H3 H4)]. }
    { intros m Hp Hz. simpl. unfold upd1 in Hp. destruct (m =? id) eqn:Hm.
      - left. apply Nat.eqb_eq in Hm. unfold fnode. simpl. congruence.
      - right. apply Sf; [exact Hp | rewrite <- Hcnt; exact Hz]. }
    { intro m. unfold pend, updd. simpl. unfold fnode at 1. simpl.
      rewrite (Nat.eqb_sym id m). destruct (m =? id) eqn:Hm.
      - apply Nat.eqb_eq in Hm. subst m.
        rewrite vals_nil_notin; [reflexivity |].
        intros p Hp Heq. specialize (Sc p Hp). rewrite Heq in Sc. lia.
      - rewrite Hdlt. apply Sg. }
    intro m. unfold grule. simpl. unfold fnode at 1. simpl.
    rewrite (Nat.eqb_sym id m). destruct (m =? id) eqn:Hm.
    - apply Nat.eqb_eq in Hm. subst m. unfold fdel, fkeep. simpl.
      specialize (Sh id). unfold grule in Sh. rewrite Hlkid in Sh. rewrite <- Sh. exact Hgid.
    - apply Nat.eqb_neq in Hm. specialize (Sh m). unfold grule in Sh.
      rewrite (Hgrd m Hm). exact Sh.
  Qed.

  Definition TE (e : entry) : Prop :=
    exists p nd, reach g0 r p /\ nth_error g0 p = Some nd /\ In e (n_children nd) /\
                 e_tracked e = true.

  Definition Orig (FT : list (fired D)) : Prop :=
    forall f, In f FT -> exists e, TE e /\ e_node e = fnode f /\ fkeep f = e_keep e.

  Definition LogIn (lnew : @trace D) (FT : list (fired D)) : Prop :=
    forall id d, In (id, d) lnew -> exists k, In (id, d, k) FT.

  (** What a part of a pass did, seen from a state with counts [cn], pending deltas [dl] and
      gradients [gr]: it ended in [g'] with the log extended from [lg] to [lg'], fired the nodes
      [F0] (whose keep flags are the caller's) and [FT], and delivered [H]: the contributions
      [own] and those of all the fired nodes. *)
  Inductive Ran (cn : nat -> nat) (dl gr : nat -> option D) (g' : store P D)
            (F0 : list (fired D)) (own : list (nat * D)) (lg lg' : @trace D) : Prop :=
  | Ran_intro : forall FT H lnew,
      Seg cn dl gr g' (F0 ++ FT) H -> Orig FT ->
      Permutation H (own ++ flat_map (cso E g0) (F0 ++ FT)) ->
      lg' = lg ++ lnew -> LogIn lnew (F0 ++ FT) -> Ran cn dl gr g' F0 own lg lg'.

  Definition rec_val (rec : @rec_t P D) (bound : nat) : Prop :=
    forall ga c keep seed lg x g2 lg2,
      c < bound -> SK g0 ga -> reach g0 r c -> cnt ga c = 0 -> dlt ga c = Some x ->
      rec ga c keep seed lg = Some (g2, lg2) ->
      Ran (upd1 (cnt ga) c) (dlt ga) (grd ga) g2 [(c, x, keep)] [] lg lg2.

  Lemma TE_reach : forall e, TE e -> reach g0 r (e_node e).
  Proof. intros e (p & nd & Hp & Hnd & Hin & Ht). eapply reach_step; eassumption. Qed.

  Lemma Ran_refl : forall g lg, SK g0 g -> Ran (cnt g) (dlt g) (grd g) g [] [] lg lg.
  Proof.
    intros g lg HS.
    apply (Ran_intro _ _ _ _ [] [] lg lg [] [] []);
      [apply Seg_refl; exact HS | intros f [] | constructor | symmetry; apply app_nil_r | intros id d []].
  Qed.

  Lemma Ran_trans : forall cn dl gr g1 g2 own1 own2 lg lg1 lg2,
      Ran cn dl gr g1 [] own1 lg lg1 -> Ran (cnt g1) (dlt g1) (grd g1) g2 [] own2 lg1 lg2 ->
      Ran cn dl gr g2 [] (own1 ++ own2) lg lg2.
  Proof.
    intros cn dl gr g1 g2 own1 own2 lg lg1 lg2 [F1 H1 l1 HS1 HO1 HP1 Hl1 HL1] [F2 H2 l2 HS2 HO2 HP2 Hl2 HL2].
    cbn [app] in *.
    apply (Ran_intro _ _ _ _ [] _ lg lg2 (F1 ++ F2) (H1 ++ H2) (l1 ++ l2)); cbn [app].
    - exact (Seg_trans _ _ _ g1 g2 F1 F2 H1 H2 HS1 HS2).
    - intros f Hf. apply in_app_or in Hf. destruct Hf as [Hf|Hf]; [apply HO1 | apply HO2]; exact Hf.
    - rewrite flat_map_app, <- app_assoc.
      eapply Permutation_trans; [apply Permutation_app; [exact HP1 | exact HP2] |].
      rewrite <- app_assoc. apply Permutation_app_head. apply Permutation_app_swap_app.
    - rewrite Hl2, Hl1, app_assoc. reflexivity.
    - intros id d Hin. apply in_app_or in Hin. destruct Hin as [Hin|Hin].
      + destruct (HL1 id d Hin) as (k & Hk). exists k. apply in_or_app. left. exact Hk.
      + destruct (HL2 id d Hin) as (k & Hk). exists k. apply in_or_app. right. exact Hk.
  Qed.

  (** one delivery through the tracked entry [e], with what it set off *)
  Lemma deliver_val : forall rec bound, rec_val rec bound ->
      forall g lg e d g2 lg2,
        SK g0 g -> e_node e < bound -> TE e ->
        deliver E rec (Some (g, lg)) (e, Some d) = Some (g2, lg2) ->
        exists c0 d', nth_error g0 (e_node e) = Some c0 /\ eo_flat E d (n_pay c0) = Some d' /\
                      Ran (cnt g) (dlt g) (grd g) g2 [] [(e_node e, d')] lg lg2.
  Proof.
    intros rec bound Hrec g lg e d g2 lg2 HS Hcb Hte Hd.
    pose proof (TE_reach e Hte) as Hcr. set (c := e_node e) in *.
    apply deliver_inv in Hd.
    destruct Hd as (cn & d' & nw & ga & Hcn & Hd' & Hnw & Hle & Hput & Hres).
    fold c in Hcn, Hput, Hres.
    destruct (deliver_state g c cn nw ga Hcn Hput) as (Hsk & Hcnt & Hdlt & Hgrd).
    pose proof (cnt_nth g c cn Hcn) as Hcc.
    pose proof (dlt_nth g c cn Hcn) as Hdc.
    pose proof (SK_eq g0 g ga Hsk HS) as HSa.
    destruct (SK_nth g0 g c cn HS Hcn) as (c0 & Hc0 & Hpay0 & _).
    exists c0, d'. split; [exact Hc0 |]. split; [rewrite <- Hpay0; exact Hd' |].
    assert (Hcons : forall cn' FT Hs, 1 <= cn' c -> Seg cn' (dlt ga) (grd g) g2 FT Hs ->
               Seg cn' (dlt g) (grd g) g2 FT ((c, d') :: Hs)).
    { intros cn' FT Hs Hc1 HSeg. apply (Seg_cons_deliver cn' (dlt g) (dlt ga)); try assumption.
      - intros m Hm. rewrite Hdlt. apply Nat.eqb_neq in Hm. rewrite Hm. reflexivity.
      - rewrite Hdlt, Nat.eqb_refl, Hdc. exact Hnw.
      - rewrite Hdlt, Nat.eqb_refl. discriminate. }
    destruct (n_count cn =? 1) eqn:H1.
    - apply Nat.eqb_eq in H1.
      assert (Hca0 : cnt ga c = 0) by (rewrite Hcnt, Nat.eqb_refl; lia).
      assert (Hda : dlt ga c = Some nw) by (rewrite Hdlt, Nat.eqb_refl; reflexivity).
      destruct (Hrec ga c (e_keep e) None lg nw g2 lg2 Hcb HSa Hcr Hca0 Hda Hres)
        as [FT Hs l1 HSeg HOr HPerm Hlg HLi].
      apply (Ran_intro _ _ _ _ [] _ lg lg2 ((c, nw, e_keep e) :: FT) ((c, d') :: Hs) l1);
        [| | constructor; exact HPerm | exact Hlg | exact HLi].
      + apply Hcons; [lia |]. eapply Seg_ext; [| | | exact HSeg].
        * intro m. unfold upd1. rewrite Hcnt. destruct (m =? c) eqn:Hm; [| reflexivity].
          apply Nat.eqb_eq in Hm. subst m. lia.
        * intro m. reflexivity.
        * intro m. symmetry. apply Hgrd.
      + intros f [Hf'|Hf']; [| apply HOr; exact Hf'].
        subst f. exists e. split; [exact Hte |]. split; reflexivity.
    - apply Nat.eqb_neq in H1. injection Hres as Hg2 Hl2. subst g2 lg2.
      apply (Ran_intro _ _ _ _ [] _ lg lg [] [(c, d')] []);
        [| intros f [] | reflexivity | symmetry; apply app_nil_r | intros id d0 []].
      apply Hcons; [lia |]. apply (Seg_dec_base g ga c HSa); [lia | exact Hcnt | exact Hgrd].
  Qed.

  Lemma fold_val : forall rec bound, rec_val rec bound ->
      forall ps g lg g' lg',
        SK g0 g ->
        (forall e d, In (e, Some d) ps -> e_node e < bound /\ TE e) ->
        fold_left (deliver E rec) ps (Some (g, lg)) = Some (g', lg') ->
        exists own, cflat E g0 ps = Some own /\ Ran (cnt g) (dlt g) (grd g) g' [] own lg lg'.
  Proof.
    intros rec bound Hrec ps. induction ps as [|[e od] ps IH]; intros g lg g' lg' HS Hps Hf.
    - injection Hf as Hg Hl. subst g' lg'. exists []. split; [reflexivity | apply Ran_refl; exact HS].
    - apply fold_deliver_cons in Hf. destruct Hf as ([g2 lg2] & Hd & Hf).
      assert (Hps' : forall e' d', In (e', Some d') ps -> e_node e' < bound /\ TE e')
        by (intros e' d' Hin; apply (Hps e' d'); right; exact Hin).
      destruct od as [d|].
      + destruct (Hps e d (or_introl eq_refl)) as (Hcb & Hte).
        destruct (deliver_val rec bound Hrec g lg e d g2 lg2 HS Hcb Hte Hd)
          as (c0 & d' & Hc0 & Hd' & HR1).
        assert (HS2 : SK g0 g2) by (destruct HR1 as [F1 H1 l1 HSeg1 _ _ _ _]; exact (seg_sk _ _ _ _ _ _ HSeg1)).
        destruct (IH g2 lg2 g' lg' HS2 Hps' Hf) as (own2 & Hown2 & HR2).
        exists ((e_node e, d') :: own2).
        split; [exact (cflat_some_fwd E g0 e d ps own2 c0 d' Hown2 Hc0 Hd') |].
        exact (Ran_trans _ _ _ g2 g' [(e_node e, d')] own2 lg lg2 lg' HR1 HR2).
      + injection Hd as Hg2 Hl2. subst g2 lg2.
        destruct (IH g lg g' lg' HS Hps' Hf) as (own & Hown & Hrest).
        exists own. split; [rewrite cflat_skip; exact Hown | exact Hrest].
  Qed.

  Lemma finish_grad : forall (g2 : store P D) id keep delta log2 g' log' nd2,
      finish E g2 id keep delta log2 = Some (g', log') -> nth_error g2 id = Some nd2 ->
      if (match n_children nd2 with [] => true | _ => false end) || keep
      then gstore (grd g2 id) delta (grd g' id) else grd g' id = grd g2 id.
  Proof.
    intros g2 id keep delta log2 g' log' nd2 H Hnd2. apply finish_inv in H.
    destruct H as (_ & nd2' & Hnd2' & H). rewrite Hnd2 in Hnd2'. injection Hnd2' as Hnd2'. subst nd2'.
    destruct ((match n_children nd2 with [] => true | _ :: _ => false end) || keep);
      [| subst g'; reflexivity].
    destruct H as (ng & Hng & Hput). exists ng.
    rewrite (grd_nth g2 id nd2 Hnd2). split; [exact Hng |].
    rewrite (put_grd g2 id _ g' id Hput), Nat.eqb_refl. reflexivity.
  Qed.

  Lemma body_val : forall rec bound, rec_val rec bound ->
      forall g1 id keep x lg g' lg',
        id <= bound -> SK g0 g1 -> reach g0 r id -> cnt g1 id = 0 -> dlt g1 id = None ->
        bw_body E rec g1 id keep x lg = Some (g', lg') ->
        Ran (upd1 (cnt g1) id) (updd (dlt g1) id x) (grd g1) g' [(id, x, keep)] [] lg lg'.
  Proof.
    intros rec bound Hrec g1 id keep x lg g' lg' Hidb HS1 Hrid Hc0 Hd0 Hb.
    apply bw_body_inv in Hb. destruct Hb as (nd1 & g2 & lg2 & Hnd1 & Hmid & Hfin).
    destruct (SK_nth g0 g1 id nd1 HS1 Hnd1) as (nd0 & Hnd0 & Hpay & Hch).
    destruct (Hwf id nd0 Hnd0) as (Hchlt & _).
    rewrite Hpay, Hch in Hmid.
    assert (Hmid' : exists own FT H lnew,
               contribs E g0 id x = Some own /\
               Seg (cnt g1) (dlt g1) (grd g1) g2 FT H /\ Orig FT /\
               Permutation H (own ++ flat_map (cso E g0) FT) /\
               lg2 = lg ++ lnew /\ LogIn lnew ((id, x, keep) :: FT)).
    { unfold contribs. rewrite Hnd0. cbn [obind].
      destruct (eo_hasop E (n_pay nd0)).
      - destruct Hmid as (pays & ds & Hpays & Hds & _ & Hfold).
        rewrite (mapM_ext _ (fun e : entry => c <- nth_error g0 (e_node e) ;; Some (n_pay c)))
          in Hpays by (intros e _; apply SK_pay; exact HS1).
        rewrite Hpays. cbn [obind]. rewrite Hds. cbn [obind].
        destruct (Hbc id nd0 pays x ds Hnd0 Hds) as (_ & Hflags).
        destruct (fold_val rec bound Hrec (combine (n_children nd0) ds) g1
                           (lg ++ [(id, x)]) g2 lg2 HS1) as
            (own & Hown & [FT H lnew HSeg HOr HPerm Hlg HLi]); [| exact Hfold |].
        { intros e d Hin. apply in_combine_nth in Hin. destruct Hin as (i & Hei & Hdi).
          assert (Hine : In e (n_children nd0)) by (eapply nth_error_In; exact Hei).
          split; [specialize (Hchlt e Hine); lia |].
          exists id, nd0. split; [exact Hrid |]. split; [exact Hnd0 |]. split; [exact Hine |].
          apply (Hflags i e Hei). exists d. exact Hdi. }
        exists own, FT, H, ((id, x) :: lnew).
        split; [exact Hown |]. split; [exact HSeg |]. split; [exact HOr |]. split; [exact HPerm |].
        split; [rewrite Hlg, <- app_assoc; reflexivity |].
        intros id' d [Hin|Hin].
        + injection Hin as H1 H2. subst id' d. exists keep. left. reflexivity.
        + destruct (HLi id' d Hin) as (k & Hk). exists k. right. exact Hk.
      - destruct Hmid as (_ & Hg2 & Hl2). subst g2 lg2. exists [], [], [], [].
        split; [reflexivity |]. split; [apply Seg_refl; exact HS1 |]. split; [intros f [] |].
        split; [constructor |]. split; [rewrite app_nil_r; reflexivity | intros id' d []]. }
    destruct Hmid' as (own & FT & H & lnew & Hcon & HSeg & HOr & HPerm & Hlg & HLi).
    pose proof (seg_sk _ _ _ _ _ _ HSeg) as HS2.
    pose proof (finish_inv E g2 id keep x lg2 g' lg' Hfin) as (_ & nd2 & Hnd2 & _).
    destruct (SK_nth g0 g2 id nd2 HS2 Hnd2) as (nd0' & Hnd0' & _ & Hch2).
    rewrite Hnd0 in Hnd0'. injection Hnd0' as Hnd0'. subst nd0'.
    pose proof (finish_grad g2 id keep x lg2 g' lg' nd2 Hfin Hnd2) as Hgr.
    rewrite Hch2 in Hgr.
    assert (Hleaf : leafb id = match n_children nd0 with [] => true | _ :: _ => false end)
      by (unfold leafb; rewrite Hnd0; reflexivity).
    rewrite <- Hleaf in Hgr.
    apply finish_state in Hfin. destruct Hfin as (Hl & Hsk & Hcnt & Hdlt & Hgrd). subst lg'.
    apply (Ran_intro _ _ _ _ [(id, x, keep)] [] lg lg2 FT H lnew);
      [eapply Seg_body; try eassumption; rewrite Hcon; discriminate | exact HOr | | exact Hlg | exact HLi].
    simpl. unfold cso at 1. unfold fnode, fdel. simpl. rewrite Hcon. exact HPerm.
  Qed.

  Lemma backward_rec_val : forall f, rec_val (backward E f) f.
  Proof.
    induction f as [|f IHf]; intros ga c keep seed lg x g2 lg2 Hc HS Hrc Hc0 Hdx Hb; [lia |].
    apply backward_S_inv in Hb. destruct Hb as (nd & g1 & delta & Hnd & Hpop & Hb).
    rewrite <- (dlt_nth ga c nd Hnd), Hdx in Hpop. destruct Hpop as (Hdelta & Hput). subst delta.
    destruct (pop_state ga c nd g1 Hnd Hput) as (Hsk & Hcnt & Hdlt & Hgrd).
    destruct (body_val (backward E f) f IHf g1 c keep x lg g2 lg2) as
        [FT H lnew HSeg HOr HPerm Hlg HLi]; try assumption.
    - lia.
    - eapply SK_eq; eassumption.
    - rewrite Hcnt. exact Hc0.
    - rewrite Hdlt, Nat.eqb_refl. reflexivity.
    - apply (Ran_intro _ _ _ _ [(c, x, keep)] [] lg lg2 FT H lnew); try assumption.
      eapply Seg_ext; [| | | exact HSeg].
      + intro m. unfold upd1. rewrite Hcnt. reflexivity.
      + intro m. unfold updd. rewrite Hdlt. destruct (m =? c) eqn:Hm; [| reflexivity].
        apply Nat.eqb_eq in Hm. subst m. exact Hdx.
      + intro m. symmetry. apply Hgrd.
  Qed.
End Seg.
