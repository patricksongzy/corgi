(** [nonscalar] (no rank-0 array in the graph) is preserved by every instruction that does
    not itself create a rank-0 array ([dims_ok]); hence [backward_total_proved] applies to
    the states of program histories. *)

From Coq Require Import List Arith Bool Lia PeanoNat.
From Corgi Require Import Lib.OptionMonad Lib.Idx Lib.Sums Model.Scalar Model.Arr Model.SlicedOp
     Model.Elementwise Model.Linalg Model.Image Model.Ops Model.Engine Model.Program
     Proofs.ArrFacts Proofs.BroadcastDims Proofs.SpecDefs Proofs.SlicedOpSpec Proofs.EwSpec
     Proofs.ReduceSpec Proofs.FlattenSpec Proofs.MatmulSpec Proofs.OpsWf
     Proofs.EngineDefs Proofs.EngineBase Proofs.EngineInv Proofs.SweepFacts Proofs.PassTheorems
     Proofs.StepView Proofs.ProgramFacts
     Proofs.HistoryInv Proofs.FwdCode Proofs.HistoryVC Proofs.NoPanic.
Import ListNotations.

Section NSHistory.
  Context {F : Type} (O : ScalarOps F).

  Local Notation pay := (@pay F).
  Local Notation gnode := (@gnode F).
  Local Notation state := (@state F).
  Local Notation instr := (@instr F).
  Local Notation E := (Program.E O).

  Definition ns (s : state) : Prop := nonscalar (st_nodes s).

  Lemma bmax_rev_nil : forall x y, bmax_rev x y = [] -> x = [].
  Proof. intros [|a x] [|b y] H; simpl in H; try reflexivity; discriminate H. Qed.

  Lemma bmax_nil : forall x y, bmax x y = [] -> x = [].
  Proof.
    intros x y H. unfold bmax in H.
    assert (H1 : bmax_rev (rev x) (rev y) = []).
    { destruct (bmax_rev (rev x) (rev y)) as [|a l]; [reflexivity |].
      simpl in H. destruct (rev l); discriminate H. }
    apply bmax_rev_nil in H1. destruct x as [|a x]; [reflexivity |].
    simpl in H1. destruct (rev x); discriminate H1.
  Qed.

  Lemma fd_ew : forall f (a b r : arr F), element_wise_op O f a b = Some r -> dims r <> [].
  Proof.
    intros f a b r H. destruct (ew_inv O f a b r H) as (_ & Hd & Ha & _).
    rewrite Hd. intro He. apply bmax_nil in He. contradiction.
  Qed.

  Lemma fd_map : forall (g : F -> F) (a r : arr F),
      map_arr g a = Some r -> dims a <> [] -> dims r <> [].
  Proof. intros g a r H Ha. apply map_arr_dims in H. congruence. Qed.

  Lemma fd_sliced_flat : forall (arrays : list (arr F)) op in_dims out_dims k fl r,
      fl <> 0 -> sliced_op O arrays op in_dims out_dims k fl = Some r -> dims r <> [].
  Proof.
    intros arrays op in_dims out_dims k fl r Hfl H. rewrite sliced_op_unfold in H. cbv zeta in H.
    revert H. apply obind_elim. intros _ _ H.
    revert H. apply obind_elim. intros out _ H.
    revert H. apply obind_elim. intros od Hod H.
    apply Nat.eqb_neq in Hfl. rewrite Hfl in Hod.
    revert Hod. apply obind_elim. intros _ _ Hod. injection Hod as Hod.
    apply mk_some in H. destruct H as (_ & _ & ->). cbn [dims]. subst od.
    intro He. apply app_eq_nil in He. destruct He as (_ & He). discriminate He.
  Qed.

  Lemma fd_sum : forall k (a r : arr F), a_sum O k a = Some r -> dims a <> [] -> dims r <> [].
  Proof.
    intros k a r H Ha. unfold a_sum in H. destruct (k =? 0) eqn:Hk.
    - injection H as H. subst r. exact Ha.
    - apply Nat.eqb_neq in Hk. eapply fd_sliced_flat; eassumption.
  Qed.

  Lemma fd_matmul : forall (a : arr F) ta (b : arr F) tb c r,
      a_matmul O a ta b tb c = Some r -> dims r <> [].
  Proof.
    intros a ta b tb c r H. destruct (a_matmul_dims O a ta b tb c r H) as (shp & Hshp & Hd).
    rewrite Hd. unfold matmul_dims in Hshp. cbv zeta in Hshp.
    revert Hshp. apply obind_elim. intros lead _ Hshp.
    revert Hshp. apply obind_elim. intros rows _ Hshp.
    revert Hshp. apply obind_elim. intros cols _ Hshp.
    revert Hshp. apply obind_elim. intros sl _ Hshp.
    injection Hshp as Hshp. subst shp. cbn [ms_out].
    intro He. apply app_eq_nil in He. destruct He as (_ & He).
    destruct (length _ <? 2); discriminate He.
  Qed.

  Lemma fd_unroll : forall (a r : arr F) sr sc fr fc,
      unroll_blocks O a sr sc fr fc = Some r -> dims r <> [].
  Proof.
    intros a r sr sc fr fc H. unfold unroll_blocks in H. cbv zeta in H.
    revert H. apply obind_elim. intros depth _ H.
    revert H. apply obind_elim. intros rows _ H.
    revert H. apply obind_elim. intros cols _ H.
    revert H. apply obind_elim. intros rcount _ H.
    revert H. apply obind_elim. intros ccount _ H.
    apply (sliced_op_dims O) in H. rewrite H.
    intro He. apply app_eq_nil in He. destruct He as (_ & He). discriminate He.
  Qed.

  Lemma fd_expand : forall (a r : arr F) rc cc, expand_conv O a rc cc = Some r -> dims r <> [].
  Proof.
    intros a r rc cc H. unfold expand_conv in H. cbv zeta in H.
    revert H. apply obind_elim. intros fcount _ H.
    revert H. apply obind_elim. intros u1 _ H.
    revert H. apply obind_elim. intros vs _ H.
    revert H. apply obind_elim. intros u2 _ H.
    apply mk_some in H. destruct H as (_ & _ & ->). cbn [dims].
    intro He. apply app_eq_nil in He. destruct He as (_ & He). discriminate He.
  Qed.

  Lemma fd_zip : forall f (a b r : arr F), zip_vals f a b = Some r -> dims a <> [] -> dims r <> [].
  Proof.
    intros f a b r H Ha. unfold zip_vals in H. apply mk_some in H. destruct H as (_ & _ & ->). exact Ha.
  Qed.

  Lemma fd_custom : forall c (args : list (arr F)) r,
      custom_forward O c args = Some r -> (forall a, In a args -> dims a <> []) -> dims r <> [].
  Proof.
    intros c args r H Ha.
    destruct c; destruct args as [|a [|b [|c0 l]]]; simpl in H; try discriminate H;
      (eapply fd_zip; [exact H | apply Ha; left; reflexivity]).
  Qed.

  Lemma nonscalar_app : forall (g : list gnode) nd,
      nonscalar g -> p_dims (n_pay nd) <> [] -> nonscalar (g ++ [nd]).
  Proof.
    intros g nd Hg Hnd id x Hx. destruct (lt_dec id (length g)) as [Hlt|Hge].
    - rewrite nth_error_app1 in Hx by exact Hlt. apply (Hg id x Hx).
    - rewrite nth_error_app2 in Hx by lia. destruct (id - length g) as [|k]; simpl in Hx.
      + injection Hx as Hx. subst x. exact Hnd.
      + destruct k; discriminate Hx.
  Qed.

  Lemma alloc_ns : forall (s : state) a ch bop buf,
      ns s -> dims a <> [] -> ns (fst (alloc s a ch bop buf)).
  Proof. intros s a ch bop buf Hs Ha. unfold ns, alloc. simpl. apply nonscalar_app; assumption. Qed.

  Lemma alloc_if_ns : forall (s : state) a t ch code,
      ns s -> dims a <> [] -> ns (fst (alloc_if s a t ch code)).
  Proof. intros s a t ch code Hs Ha. unfold alloc_if. destruct t; apply alloc_ns; assumption. Qed.

  Lemma h_arr_ns : forall (s : state) h a, ns s -> h_arr s h = Some a -> dims a <> [].
  Proof.
    intros s h a Hs H. apply h_arr_inv in H. destruct H as (nd & Hnd & ->).
    unfold h_node in Hnd. apply (Hs _ nd Hnd).
  Qed.

  Lemma ext_ns_back : forall s s' : state, ext s s' -> ns s' -> ns s.
  Proof.
    intros s s' (extra & ->) H id nd Hnd. apply (H id nd). simpl.
    rewrite nth_error_app1; [exact Hnd |]. eapply Propagate.nth_lt. exact Hnd.
  Qed.

  (** [nonscalar] reads payloads only *)
  Lemma ns_sk : forall g g' : list gnode, map sk g' = map sk g -> nonscalar g -> nonscalar g'.
  Proof.
    intros g g' H Hg id nd' Hnd'.
    destruct (map_eq_nth sk g' g id nd' H Hnd') as (nd & Hnd & Heq). injection Heq as Hp _.
    rewrite <- Hp. exact (Hg id nd Hnd).
  Qed.

  Lemma unary_ns : forall (s : state) h fwd code r,
      (forall a c, fwd a = Some c -> dims a <> [] -> dims c <> []) ->
      ns s -> unary s h fwd code = Some r -> ns (fst r).
  Proof.
    intros s h fwd code r Hf Hs H. apply unary_eq in H. destruct H as (a & c & Ha & Hc & ->).
    apply alloc_if_ns; [exact Hs |]. apply (Hf a c Hc). eapply h_arr_ns; eassumption.
  Qed.

  Lemma binary_ns : forall (s : state) ha hb fwd code r,
      (forall a b c, fwd a b = Some c -> dims c <> []) ->
      ns s -> binary s ha hb fwd code = Some r -> ns (fst r).
  Proof.
    intros s ha hb fwd code r Hf Hs H. apply binary_eq in H. destruct H as (a & b & c & _ & _ & Hc & ->).
    apply alloc_if_ns; [exact Hs |]. exact (Hf a b c Hc).
  Qed.

  Lemma op_sum_ns : forall (s : state) k h r, ns s -> op_sum O s k h = Some r -> ns (fst r).
  Proof.
    intros s k h r Hs H. unfold op_sum in H. destruct (k =? 0).
    - injection H as H. subst r. exact Hs.
    - revert H. apply obind_elim. intros a _ H.
      eapply unary_ns; [| exact Hs | exact H]. intros a0 c. apply fd_sum.
  Qed.

  Lemma op_reshape_ns : forall (s : state) d h r,
      d <> [] -> ns s -> op_reshape s d h = Some r -> ns (fst r).
  Proof.
    intros s d h r Hd Hs H. apply reshape_eq in H. destruct H as (nd & c & _ & Hc & ->).
    apply a_reshape_spec in Hc. destruct Hc as (_ & _ & ->).
    destruct (e_tracked h); apply alloc_ns; assumption.
  Qed.

  Lemma op_matmul_ns : forall (s : state) ta tb ha hb hc r,
      ns s -> op_matmul O s ta tb ha hb hc = Some r -> ns (fst r).
  Proof.
    intros s ta tb ha hb hc r Hs H. apply matmul_eq in H.
    destruct H as (a & b & c & v & _ & _ & _ & Hv & ->). apply fd_matmul in Hv.
    destruct (mm_tracked ha hb hc); [destruct hc as [h|]|]; try (apply alloc_ns; assumption).
    pose proof (alloc_ns s (zeros1 O) [] None None Hs) as H1.
    destruct (alloc s (zeros1 O) [] None None) as [s1 h3]. apply alloc_ns; [|exact Hv].
    apply H1. discriminate.
  Qed.

  Lemma op_unroll_ns : forall (s : state) h sr sc fr fc r,
      ns s -> op_unroll O s h sr sc fr fc = Some r -> ns (fst r).
  Proof.
    intros s h sr sc fr fc r Hs H. apply unroll_eq in H.
    destruct H as (a & v & d & rw & cl & _ & Hv & ->).
    apply alloc_if_ns; [exact Hs | eapply fd_unroll; exact Hv].
  Qed.

  Lemma op_expand_ns : forall (s : state) h rc cc r,
      ns s -> op_expand O s h rc cc = Some r -> ns (fst r).
  Proof.
    intros s h rc cc r Hs H. apply expand_eq in H. destruct H as (a & v & d & _ & Hv & ->).
    apply alloc_if_ns; [exact Hs | eapply fd_expand; exact Hv].
  Qed.

  Lemma op_custom_ns : forall (s : state) c hs r, ns s -> op_custom O s c hs = Some r -> ns (fst r).
  Proof.
    intros s c hs r Hs H. unfold op_custom in H.
    revert H. apply obind_elim. intros args Hargs H.
    revert H. apply obind_elim. intros v Hv H. injection H as H. subst r.
    apply alloc_ns; [exact Hs |]. apply (fd_custom c args v Hv).
    intros a Ha. clear -Hargs Ha Hs. revert args Hargs Ha.
    induction hs as [|h hs IH]; intros args Hargs Ha; simpl in Hargs.
    - injection Hargs as Hargs. subst args. destruct Ha.
    - revert Hargs. apply obind_elim. intros x Hx Hargs.
      revert Hargs. apply obind_elim. intros xs Hxs Hargs. injection Hargs as Hargs.
      subst args. destruct Ha as [Ha|Ha]; [subst x; eapply h_arr_ns; eassumption | apply (IH xs Hxs Ha)].
  Qed.

  Ltac un H Hs := eapply unary_ns; [intros ? ?; apply fd_map | exact Hs | exact H].
  Ltac bi H Hs := eapply binary_ns; [intros ? ? ?; apply fd_ew | exact Hs | exact H].

  Lemma op_conv_ns : forall (s : state) sr sc hi hf r, ns s -> op_conv O s sr sc hi hf = Some r -> ns (fst r).
  Proof.
    intros s sr sc hi hf r Hs H. apply conv_eq in H.
    destruct H as (fr & fc & d & rc & cc & s1 & hu & s2 & hm & s3 & hcv & H1 & Hd & H2 & H3 & H).
    apply (op_expand_ns s3 hcv rc cc r); [|exact H].
    apply (op_matmul_ns s2 false true hu hm None (s3, hcv)); [|exact H3].
    apply (op_reshape_ns s1 d hf (s2, hm) Hd); [|exact H2].
    exact (op_unroll_ns s hi sr sc fr fc (s1, hu) Hs H1).
  Qed.

  Theorem apply_op_ns : forall (s : state) k hs r,
      (forall d, k = OReshape d -> d <> []) ->
      ns s -> apply_op O s k hs = Some r -> ns (fst r).
  Proof.
    intros s k hs r Hk Hs H. apply apply_op_cases in H.
    destruct H as [k x fwd code Hu H | k x y fwd code Hb H | x y H | k x H | d x H | ta tb x y H
                   | ta tb x y z H | sr sc x y H | x H | alpha x y H | c hs H].
    - eapply unary_ns; [|exact Hs|exact H]. destruct Hu; intros a c0; apply fd_map.
    - eapply binary_ns; [|exact Hs|exact H]. destruct Hb; intros a b c0; apply fd_ew.
    - unfold op_sub in H. revert H. apply obind_elim. intros [s1 hn] Hr H.
      assert (H1 : ns s1) by (change s1 with (fst (s1, hn)); un Hr Hs). bi H H1.
    - eapply op_sum_ns; eassumption.
    - eapply op_reshape_ns; [apply (Hk d eq_refl) | exact Hs | exact H].
    - eapply op_matmul_ns; eassumption.
    - eapply op_matmul_ns; eassumption.
    - eapply op_conv_ns; eassumption.
    - unfold op_softmax in H.
      revert H. apply obind_elim. intros [s1 he] Hr1 H.
      revert H. apply obind_elim. intros [s2 hs'] Hr2 H.
      assert (H1 : ns s1) by (change s1 with (fst (s1, he)); un Hr1 Hs).
      assert (H2 : ns s2) by (change s2 with (fst (s2, hs')); eapply op_sum_ns; eassumption).
      bi H H2.
    - unfold op_axpy in H. revert H. apply obind_elim. intros [s1 hs'] Hr H.
      assert (H1 : ns s1) by (change s1 with (fst (s1, hs')); un Hr Hs). bi H H1.
    - eapply op_custom_ns; eassumption.
  Qed.

  Lemma apply_act_ns : forall (s : state) a h r, ns s -> apply_act O s a h = Some r -> ns (fst r).
  Proof.
    intros s a h r Hs H. destruct a; simpl in H.
    - injection H as H. subst r. exact Hs.
    - un H Hs.
    - un H Hs.
    - apply (apply_op_ns s OSoftmax [h] r); [intros d Hd; discriminate Hd | exact Hs | exact H].
  Qed.

  Lemma layer_forward_ns : forall (s : state) l h r, ns s -> layer_forward O s l h = Some r -> ns (fst r).
  Proof.
    intros s l h r Hs H. unfold layer_forward in H. destruct (l_conv l) as [[sr sc0]|].
    - revert H. apply obind_elim. intros [s1 hc] Hr1 H.
      revert H. apply obind_elim. intros [s2 h2] Hr2 H.
      assert (H1 : ns s1) by (change s1 with (fst (s1, hc)); eapply op_conv_ns; eassumption).
      assert (H2 : ns s2) by (change s2 with (fst (s2, h2)); bi Hr2 H1).
      eapply apply_act_ns; eassumption.
    - revert H. apply obind_elim. intros [s1 h1] Hr1 H.
      assert (H1 : ns s1) by (change s1 with (fst (s1, h1)); eapply op_matmul_ns; eassumption).
      eapply apply_act_ns; eassumption.
  Qed.

  Lemma fold_layers_ns : forall ls (s : state) h s1 out,
      ns s ->
      fold_left (fun (acc : option (state * handle)) (l : layer) =>
                   st <- acc ;; let '(s', h') := st in layer_forward O s' l h')
                ls (Some (s, h)) = Some (s1, out) -> ns s1.
  Proof.
    intros ls s h s1 out Hs H.
    refine (fold_opt_inv (fun a a' : state * handle => ns (fst a) -> ns (fst a')) _ _ _ _ _ (s, h) (s1, out) H Hs);
      [auto|auto|].
    intros [sa ha] l [sb hb] _ Hl Ha. exact (layer_forward_ns sa l ha (sb, hb) Ha Hl).
  Qed.

  Lemma cost_apply_ns : forall (s : state) c ho ht r, ns s -> cost_apply O s c ho ht = Some r -> ns (fst r).
  Proof.
    intros s c ho ht r Hs H. unfold cost_apply in H.
    revert H. apply obind_elim. intros o _ H. destruct c.
    - revert H. apply obind_elim. intros [s1 d] Hr1 H.
      revert H. apply obind_elim. intros [s2 p] Hr2 H.
      assert (H1 : ns s1).
      { change s1 with (fst (s1, d)).
        apply (apply_op_ns s OSub [ht; ho] _); [intros d0 Hd; discriminate Hd | exact Hs | exact Hr1]. }
      assert (H2 : ns s2) by (change s2 with (fst (s2, p)); un Hr2 H1).
      un H H2.
    - revert H. apply obind_elim. intros batch _ H.
      revert H. apply obind_elim. intros [s1 nt] Hr1 H.
      revert H. apply obind_elim. intros [s2 lo] Hr2 H.
      revert H. apply obind_elim. intros [s3 m] Hr3 H.
      assert (H1 : ns s1) by (change s1 with (fst (s1, nt)); un Hr1 Hs).
      assert (H2 : ns s2) by (change s2 with (fst (s2, lo)); un Hr2 H1).
      assert (H3 : ns s3) by (change s3 with (fst (s3, m)); bi Hr3 H2).
      un H H3.
  Qed.

  Lemma two_allocs_ns : forall (s s1 s2 : state) (a b : arr F) h1 h2,
      ns s -> dims a <> [] -> dims b <> [] ->
      alloc s a [] None None = (s1, h1) -> alloc s1 b [] None None = (s2, h2) -> ns s2.
  Proof.
    intros s s1 s2 a b h1 h2 Hs Ha Hb H1 H2.
    change s2 with (fst (s2, h2)). rewrite <- H2. apply alloc_ns; [| exact Hb].
    change s1 with (fst (s1, h1)). rewrite <- H1. apply alloc_ns; assumption.
  Qed.

  Lemma make_layer_ns : forall (s : state) l s' ly, ns s -> make_layer s l = Some (s', ly) -> ns s'.
  Proof.
    intros s l s' ly Hs H. destruct l; unfold make_layer in H.
    - revert H. apply obind_elim. intros wa Hwa H.
      revert H. apply obind_elim. intros ba Hba H.
      apply mk_some in Hwa. destruct Hwa as (_ & _ & Hwa). apply mk_some in Hba. destruct Hba as (_ & _ & Hba).
      destruct (alloc s wa [] None None) as [s1 hw] eqn:H1.
      destruct (alloc s1 ba [] None None) as [s2 hb] eqn:H2.
      injection H as H _. subst s'.
      apply (two_allocs_ns s s1 s2 wa ba hw hb Hs); [subst wa; discriminate | subst ba; discriminate | exact H1 | exact H2].
    - revert H. apply obind_elim. intros fa Hfa H.
      revert H. apply obind_elim. intros ba Hba H.
      apply mk_some in Hfa. destruct Hfa as (_ & _ & Hfa). apply mk_some in Hba. destruct Hba as (_ & _ & Hba).
      destruct (alloc s fa [] None None) as [s1 hw] eqn:H1.
      destruct (alloc s1 ba [] None None) as [s2 hb] eqn:H2.
      injection H as H _. subst s'.
      apply (two_allocs_ns s s1 s2 fa ba hw hb Hs); [subst fa; discriminate | subst ba; discriminate | exact H1 | exact H2].
  Qed.

  Lemma make_layers_ns : forall ls (s : state) acc s1 layers,
      ns s ->
      fold_left (fun (acc : option (state * list layer)) (l : layer_spec) =>
                   st <- acc ;; let '(s', out) := st in
                   r <- make_layer s' l ;; let '(s'', ly) := r in Some (s'', out ++ [ly]))
                ls (Some (s, acc)) = Some (s1, layers) -> ns s1.
  Proof.
    intros ls s acc s1 layers Hs H.
    refine (fold_opt_inv (fun a a' : state * list layer => ns (fst a) -> ns (fst a')) _ _ _ _ _
                         (s, acc) (s1, layers) H Hs); [auto|auto|].
    intros [sa la] l [sb lb] _ Hl Ha. revert Hl. apply obind_elim. intros [s2 ly] Hm Hl.
    injection Hl as <- _. exact (make_layer_ns sa l s2 ly Ha Hm).
  Qed.

  Lemma backward_ns : forall (s : state) r keep seed res,
      ns s -> run_backward E (st_nodes s) r keep seed = Some res -> ns (with_nodes s (fst res)).
  Proof.
    intros s r keep seed [g' log] Hs Hrun. unfold ns. cbn [st_nodes with_nodes fst].
    exact (ns_sk _ _ (run_backward_sk E _ _ _ _ _ _ Hrun) Hs).
  Qed.

  Lemma clear_grad_ns : forall (s : state) h s', ns s -> Program.clear_grad s h = Some s' -> ns s'.
  Proof. intros s h s' Hs H. exact (ns_sk _ _ (clear_grad_sk s h s' H) Hs). Qed.

  Lemma gd_update_ns : forall (s : state) lr params s2 out,
      ns s -> gd_update O s lr params = Some (s2, out) -> ns s2.
  Proof.
    intros s lr params s2 out Hs H. unfold gd_update in H. cbv zeta in H.
    revert H. apply obind_elim. intros pv _ H.
    revert H. apply obind_elim. intros pg _ H.
    revert H. apply obind_elim. intros s1 H1 H.
    revert H. apply obind_elim. intros [[s3 buf3] out3] H2 H. injection H as <- <-.
    assert (Hs1 : ns s1).
    { refine (fold_opt_inv (fun a a' : state => ns a -> ns a') _ _ _ _ _ s s1 H1 Hs); [auto|auto|].
      intros a h a' _ Hc Ha. exact (clear_grad_ns a h a' Ha Hc). }
    refine (fold_opt_inv (fun a a' : state * list F * list handle => ns (fst (fst a)) -> ns (fst (fst a')))
                         _ _ _ _ _ (s1, _, []) (s3, buf3, out3) H2 Hs1); [auto|auto|].
    intros [[sa ba] oa] [h fr] [[sc bc] oc] _ Hst Ha. cbn [fst snd] in *. destruct fr.
    - injection Hst as <- _ _. exact Ha.
    - revert Hst. apply obind_elim. intros a Harr Hst.
      revert Hst. apply obind_elim. intros u _ Hst.
      revert Hst. apply obind_elim. intros na Hna Hst.
      apply mk_some in Hna. destruct Hna as (_ & _ & ->).
      pose proof (alloc_ns sa {| dims := dims a; vals := firstn (length (vals a)) ba |} [] None None Ha) as Hal.
      destruct (alloc sa {| dims := dims a; vals := firstn (length (vals a)) ba |} [] None None) as [s'' h'].
      injection Hst as <- _ _. apply Hal. cbn [dims]. exact (h_arr_ns sa h a Ha Harr).
  Qed.

  (** the instruction does not itself create a rank-0 array *)
  Definition dims_ok (i : instr) : Prop :=
    match i with
    | ILeaf d _ _ => d <> []
    | IZeros d => d <> []
    | IOp (OReshape d) _ => d <> []
    | _ => True
    end.

  Lemma new_leaf_ns : forall (s : state) i a t o,
      store_good (st_nodes s) -> ns s -> dims_ok i -> new_leaf O s i = Some (a, t, o) -> dims a <> [].
  Proof.
    intros s i a t o Hg Hs Hok H.
    destruct i; try discriminate H; cbn [new_leaf dims_ok] in *;
      apply obind_some in H; destruct H as (y & Hy & H).
    - injection H as <- _ _. apply mk_some in Hy. destruct Hy as (_ & _ & ->). exact Hok.
    - injection H as <- _ _. unfold zeros in Hy. apply mk_some in Hy. destruct Hy as (_ & _ & ->). exact Hok.
    - injection H as <- _ _. unfold from_flat in Hy. apply mk_some in Hy. destruct Hy as (_ & _ & ->).
      discriminate.
    - revert H. apply obind_elim. intros a' Ha H. injection H as <- _ _.
      unfold from_arrays in Ha. destruct y as [|first rest]; [discriminate Ha |].
      revert Ha. apply obind_elim. intros _ _ Ha.
      apply mk_some in Ha. destruct Ha as (_ & _ & ->). discriminate.
    - revert H. apply obind_elim. intros g Hgr H. injection H as <- _ _.
      unfold grad_of in Hgr. destruct (h_node s y) as [nd|] eqn:Hnd; [|discriminate Hgr].
      destruct (h_node_good s y nd Hg Hnd) as [(_ & _ & _ & _ & _ & Hgok) _].
      destruct (Hgok g Hgr) as [_ Hdg]. rewrite Hdg. unfold h_node in Hnd. exact (Hs _ nd Hnd).
  Qed.

  Theorem step_ns : forall (s0 s' : state) i o,
      HistoryInv.good s0 -> ns s0 -> dims_ok i -> Program.step O s0 i = Some (s', o) -> ns s'.
  Proof.
    intros s0 s' i o Hgd0 Hs0 Hok H. apply step_cases in H. destruct H as (s1 & slot & C & ->).
    set (s := with_tag s0 (length (st_pool s0))) in *.
    assert (Hg : store_good (st_nodes s)) by exact (proj1 Hgd0).
    assert (Hs : ns s) by exact Hs0.
    change (ns s1).
    destruct C as [i a t o Hl | i o Hq | h x Hx | i h v o s1 Hr Hs1 | k args hs s1 h a Hhs Hop Ha
                   | h seed x sd r Hx Hsd Hr | h x s1 Hx Hs1 | lr hs params s1 out s2 Hp Hgu Hs2
                   | ls c lr s1 layers Hm | h x s1 out a Hx Hm Ha | h x s1 loss Hx Hm | s1 Hm].
    - apply alloc_ns; [exact Hs|]. exact (new_leaf_ns s i a t o Hg Hs Hok Hl).
    - exact Hs.
    - exact Hs.
    - unfold ns. rewrite (set_var_nodes _ _ _ _ Hs1). exact Hs.
    - apply (apply_op_ns s k hs (s1, h)); [|exact Hs|exact Hop]. intros d ->. exact Hok.
    - exact (backward_ns s _ _ _ r Hs Hr).
    - exact (clear_grad_ns s x s1 Hs Hs1).
    - unfold ns. rewrite (set_vars_nodes _ _ _ Hs2). exact (gd_update_ns s lr params s1 out Hs Hgu).
    - exact (make_layers_ns ls s [] s1 layers Hs Hm).
    - unfold model_forward in Hm. revert Hm. apply obind_elim. intros [s2 out2] Hfold Hm.
      injection Hm as <- <-. exact (fold_layers_ns _ s x s2 out2 Hs Hfold).
    - unfold model_backward in Hm.
      revert Hm. apply obind_elim. intros output _ Hm.
      revert Hm. apply obind_elim. intros [s2 err] Hcost Hm.
      revert Hm. apply obind_elim. intros res Hrun Hm.
      revert Hm. apply obind_elim. intros ea _ Hm. injection Hm as <- _.
      exact (backward_ns s2 _ _ _ res (cost_apply_ns s _ _ _ (s2, err) Hs Hcost) Hrun).
    - unfold model_update in Hm. revert Hm. apply obind_elim. intros [s2 hs] Hgu Hm.
      injection Hm as <-. exact (gd_update_ns s _ _ s2 hs Hs Hgu).
  Qed.

  Fixpoint all_dims_ok (p : list instr) : Prop :=
    match p with [] => True | i :: p' => dims_ok i /\ all_dims_ok p' end.

  Theorem reaches_ns : forall (s0 : state) p s,
      HistoryInv.good s0 -> ns s0 -> all_dims_ok p -> reaches O s0 p s -> ns s.
  Proof.
    intros s0 p s Hgd Hs Hok H. induction H as [s0 p | s0 i p s1 o s Hseed Hstep Hre IH].
    - exact Hs.
    - destruct Hok as (Hi & Hp). apply IH; [| | exact Hp].
      + eapply step_good; eassumption.
      + eapply step_ns; eassumption.
  Qed.

  (** a backward pass of a program history never panics inside the engine: in any state
      reached by a program that creates no rank-0 array, on a graph whose closures are in
      the proved set, [run_backward] with a well-shaped seed succeeds *)
  Theorem history_backward_total : forall (R : is_cring O) p (s : state) r keep seed,
      reachable_state O p s -> all_dims_ok p ->
      graph_total_proved (st_nodes s) ->
      r < length (st_nodes s) ->
      (forall sd nd, seed = Some sd -> nth_error (st_nodes s) r = Some nd -> grad_ok (n_pay nd) sd) ->
      run_backward E (st_nodes s) r keep seed <> None.
  Proof.
    intros R p s r keep seed Hre Hok Hgp Hr Hseed.
    destruct (run_good2 O p s Hre) as ((Hg & _) & Hvc).
    apply (backward_total_proved O R); try assumption.
    apply (reaches_ns (init_state O) p s (good_init O)); [| exact Hok | exact Hre].
    intros id nd Hnd. destruct id; discriminate Hnd.
  Qed.
End NSHistory.

Print Assumptions step_ns.
Print Assumptions history_backward_total.

