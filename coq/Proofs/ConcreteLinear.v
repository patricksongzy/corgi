(** (C17, concrete) the closures, [flatten_to] and the accumulation of the concrete array
    engine commute with the linear combination [acomb alpha beta]; hence a pass of the real
    engine is linear in its seed.

    The workhorse is [sliced_op_lin]: [sliced_op] runs the same control flow whatever the
    VALUES of its operands are (offsets and bounds depend on dimensions and lengths only),
    so three runs on [x], [y] and [acomb x y] proceed in lockstep. *)

From Coq Require Import List Arith Bool Lia PeanoNat Ring_theory Ring.
From Corgi Require Import Lib.OptionMonad Lib.Sums Model.Scalar Model.Arr Model.SlicedOp
     Model.Elementwise Model.Linalg Model.Image Model.Ops Model.Engine Model.Program
     Proofs.ArrFacts Proofs.SlicedOpSpec Proofs.EngineDefs Proofs.EngineBase Proofs.AdjointSpec
     Proofs.SweepFacts Proofs.OptimSpec.
Import ListNotations.

(** * Lists *)

Section Map2.
  Context {A : Type}.
  Variable f : A -> A -> A.

  Lemma map2_len : forall a b : list A, length (map2 f a b) = Nat.min (length a) (length b).
  Proof.
    induction a as [|x a IH]; intros [|y b]; simpl; try reflexivity. rewrite IH. reflexivity.
  Qed.

  Lemma map2_firstn : forall n (a b : list A),
      firstn n (map2 f a b) = map2 f (firstn n a) (firstn n b).
  Proof.
    induction n as [|n IH]; intros a b; [reflexivity |].
    destruct a as [|x a], b as [|y b]; simpl; try reflexivity.
    rewrite IH. reflexivity.
  Qed.

  Lemma map2_skipn : forall n (a b : list A),
      length a = length b -> skipn n (map2 f a b) = map2 f (skipn n a) (skipn n b).
  Proof.
    induction n as [|n IH]; intros [|x a] [|y b] H; simpl in *; try reflexivity; try discriminate H.
    apply IH. lia.
  Qed.

  Lemma map2_app : forall a1 a2 b1 b2 : list A,
      length a1 = length b1 -> map2 f (a1 ++ a2) (b1 ++ b2) = map2 f a1 b1 ++ map2 f a2 b2.
  Proof.
    induction a1 as [|x a1 IH]; intros a2 [|y b1] b2 H; simpl in *; try reflexivity;
      try discriminate H.
    rewrite IH by lia. reflexivity.
  Qed.

  Lemma map2_repeat : forall z n, map2 f (repeat z n) (repeat z n) = repeat (f z z) n.
  Proof. intros z n. induction n as [|n IH]; simpl; [reflexivity | rewrite IH; reflexivity]. Qed.

  Lemma map2_nth_error : forall (a b : list A) i,
      nth_error (map2 f a b) i =
      match nth_error a i, nth_error b i with
      | Some u, Some v => Some (f u v)
      | _, _ => None
      end.
  Proof.
    induction a as [|x a IH]; intros [|y b] [|i]; simpl; try reflexivity.
    - destruct (nth_error a i); reflexivity.
    - apply IH.
  Qed.

  Lemma map2_const : forall (u v : A) (a b : list A),
      map2 f (map (fun _ => u) a) (map (fun _ => v) b) = map (fun _ => f u v) (map2 f a b).
  Proof.
    intros u v. induction a as [|x a IH]; intros [|y b]; simpl; try reflexivity.
    rewrite IH. reflexivity.
  Qed.

  Lemma slice_map2 : forall off len (a b sa sb : list A),
      length a = length b ->
      slice off len a = Some sa -> slice off len b = Some sb ->
      slice off len (map2 f a b) = Some (map2 f sa sb) /\ length sa = length sb.
  Proof.
    intros off len a b sa sb Hl Ha Hb. unfold slice in *.
    rewrite map2_len, <- Hl, Nat.min_id.
    destruct (off + len <=? length a) eqn:Hle; [| discriminate Ha].
    rewrite <- Hl, Hle in Hb. injection Ha as Ha. injection Hb as Hb. subst sa sb.
    apply Nat.leb_le in Hle. split.
    - rewrite (map2_skipn off a b Hl), map2_firstn. reflexivity.
    - rewrite !firstn_length, !skipn_length. lia.
  Qed.

  Lemma splice_map2 : forall off (na nb a b : list A),
      length a = length b -> length na = length nb ->
      splice off (map2 f na nb) (map2 f a b) = map2 f (splice off na a) (splice off nb b).
  Proof.
    intros off na nb a b Hl Hn. unfold splice.
    rewrite map2_len, <- Hn, Nat.min_id.
    rewrite map2_firstn, (map2_skipn _ a b Hl).
    rewrite map2_app by (rewrite !firstn_length; lia).
    rewrite map2_app by exact Hn. reflexivity.
  Qed.

  Lemma splice_length : forall off (new l : list A), length (splice off new l)
      = Nat.min off (length l) + length new + (length l - (off + length new)).
  Proof.
    intros off new l. unfold splice. rewrite !app_length, firstn_length, skipn_length. lia.
  Qed.
End Map2.

Section Linear.
  Context {F : Type} (O : ScalarOps F) (R : is_cring O).
  Variable alpha beta : F.

  Let Rth : ring_theory (f0 O) (f1 O) (fadd O) (fmul O) (fsub O) (fneg O) (@eq F) := R.
  Add Ring cring_lin : Rth.

  Local Notation "0" := (f0 O).
  Local Notation "x + y" := (fadd O x y).
  Local Notation "x * y" := (fmul O x y).

  (** the scalar combination *)
  Definition lc (u v : F) : F := alpha * u + beta * v.
  Definition lcomb (a b : list F) : list F := map2 lc a b.

  (** [alpha * x + beta * y], element by element *)
  Definition acomb (x y : arr F) : arr F := {| dims := dims x; vals := lcomb (vals x) (vals y) |}.

  (** equal dimensions and equally many values *)
  Definition ok (x y : arr F) : Prop := dims x = dims y /\ length (vals x) = length (vals y).

  Lemma lc_0 : lc 0 0 = 0.
  Proof. unfold lc. ring. Qed.

  Lemma lcomb_length : forall a b, length a = length b -> length (lcomb a b) = length a.
  Proof. intros a b H. unfold lcomb. rewrite map2_len, <- H. apply Nat.min_id. Qed.

  Lemma ok_acomb : forall x y, ok x y -> ok x (acomb x y).
  Proof. intros x y (Hd & Hl). split; [reflexivity |]. simpl. symmetry. apply lcomb_length. exact Hl. Qed.

  Lemma acomb_wf : forall x y, wf x -> ok x y -> wf (acomb x y).
  Proof.
    intros x y (H1 & H2) (Hd & Hl). split; simpl; [exact H1 |]. rewrite lcomb_length by exact Hl. exact H2.
  Qed.

  Lemma lcomb_map : forall (g : F -> F) a b,
      (forall u v, g (lc u v) = lc (g u) (g v)) -> map g (lcomb a b) = lcomb (map g a) (map g b).
  Proof.
    intros g a. unfold lcomb. induction a as [|x a IH]; intros [|y b] Hg; simpl; try reflexivity.
    rewrite Hg. f_equal. apply IH. exact Hg.
  Qed.

  Lemma vsum_lc : forall {A} (a b : A -> F) (l : list A),
      vsum O (map (fun j => lc (a j) (b j)) l) = lc (vsum O (map a l)) (vsum O (map b l)).
  Proof.
    intros A a b l. induction l as [|j l IH]; simpl map.
    - rewrite !(vsum_nil O). symmetry. apply lc_0.
    - rewrite !(vsum_cons O R), IH. unfold lc. ring.
  Qed.

  Lemma nth_lcomb : forall a b j, length a = length b -> j < length a ->
      nth j (lcomb a b) 0 = lc (nth j a 0) (nth j b 0).
  Proof.
    induction a as [|x a IH]; intros [|y b] j Hl Hj; simpl in *; try lia.
    destruct j as [|j]; [reflexivity |]. apply IH; lia.
  Qed.

  (** * [sliced_op] is linear in the operands that vary *)

  (** an operand is either the same in the three runs, or varies linearly *)
  Definition relA (m : bool) (a b c : arr F) : Prop :=
    if m then dims b = dims a /\ dims c = dims a /\ length (vals a) = length (vals b) /\
              vals c = lcomb (vals a) (vals b)
    else b = a /\ c = a.

  Definition relS (m : bool) (a b c : list F) : Prop :=
    if m then length a = length b /\ c = lcomb a b else b = a /\ c = a.

  Inductive F3m {A} (Rm : bool -> A -> A -> A -> Prop)
    : list bool -> list A -> list A -> list A -> Prop :=
  | F3m_nil : F3m Rm [] [] [] []
  | F3m_cons : forall m ms a b c la lb lc0,
      Rm m a b c -> F3m Rm ms la lb lc0 -> F3m Rm (m :: ms) (a :: la) (b :: lb) (c :: lc0).

  (** a slice operation that is linear in the current output slice and the varying inputs *)
  Definition sop_lin (ms : list bool) (op : @sop F) : Prop :=
    forall cx cy sx sy sz nx ny,
      length cx = length cy -> F3m relS ms sx sy sz ->
      op cx sx = Some nx -> op cy sy = Some ny ->
      op (lcomb cx cy) sz = Some (lcomb nx ny) /\ length nx = length ny.

  Lemma mapM_rel : forall (fs : arr F -> option (list F)) ms Ax Ay Az sx sy,
      (forall m a b c ra rb, relA m a b c -> fs a = Some ra -> fs b = Some rb ->
                             exists rc, fs c = Some rc /\ relS m ra rb rc) ->
      F3m relA ms Ax Ay Az ->
      mapM fs Ax = Some sx -> mapM fs Ay = Some sy ->
      exists sz, mapM fs Az = Some sz /\ F3m relS ms sx sy sz.
  Proof.
    intros fs ms Ax Ay Az sx sy Hfs HA. revert sx sy.
    induction HA as [|m ms a b c la lb lc0 Hr HA IH]; intros sx sy Hx Hy; simpl in *.
    - injection Hx as Hx. injection Hy as Hy. subst sx sy. exists []. split; [reflexivity | constructor].
    - revert Hx. apply obind_elim. intros ra Hra Hx.
      revert Hx. apply obind_elim. intros rx Hrx Hx. injection Hx as Hx. subst sx.
      revert Hy. apply obind_elim. intros rb Hrb Hy.
      revert Hy. apply obind_elim. intros ry Hry Hy. injection Hy as Hy. subst sy.
      destruct (Hfs m a b c ra rb Hr Hra Hrb) as (rc & Hrc & Hrel).
      destruct (IH rx ry Hrx Hry) as (rz & Hrz & Hrelz).
      exists (rc :: rz). rewrite Hrc. simpl. rewrite Hrz. simpl.
      split; [reflexivity | constructor; assumption].
  Qed.

  Lemma slice_rel : forall off g m a b c ra rb,
      relA m a b c ->
      slice off g (vals a) = Some ra -> slice off g (vals b) = Some rb ->
      exists rc, slice off g (vals c) = Some rc /\ relS m ra rb rc.
  Proof.
    intros off g m a b c ra rb Hr Ha Hb. destruct m; simpl in Hr |- *.
    - destruct Hr as (_ & _ & Hl & Hv). rewrite Hv.
      destruct (slice_map2 lc off g _ _ ra rb Hl Ha Hb) as (Hs & Hlen).
      exists (lcomb ra rb). split; [exact Hs |]. split; [exact Hlen | reflexivity].
    - destruct Hr as (Hb' & Hc'). subst b c. exists ra. split; [exact Ha |].
      split; [congruence | reflexivity].
  Qed.

  Lemma relA_dims : forall m a b c, relA m a b c -> dims b = dims a /\ dims c = dims a.
  Proof.
    intros m a b c H. destruct m; simpl in H.
    - tauto.
    - destruct H as (H1 & H2). subst b c. split; reflexivity.
  Qed.

  Lemma operand_slice_rel : forall k lcn idx m a b c ra rb,
      relA m a b c ->
      operand_slice k lcn idx a = Some ra -> operand_slice k lcn idx b = Some rb ->
      exists rc, operand_slice k lcn idx c = Some rc /\ relS m ra rb rc.
  Proof.
    intros k lcn idx m a b c ra rb Hr Ha Hb. unfold operand_slice, group_length in *.
    destruct (relA_dims m a b c Hr) as (Hdb & Hdc). rewrite Hdb in Hb. rewrite Hdc.
    eapply slice_rel; eassumption.
  Qed.

  Lemma sliced_loop_lin : forall op ms Ax Ay Az k lcn lead out_dims ogl,
      sop_lin ms op -> F3m relA ms Ax Ay Az ->
      forall n idx ox oy rx ry,
        length ox = length oy ->
        sliced_loop op Ax k lcn lead out_dims ogl n idx ox = Some rx ->
        sliced_loop op Ay k lcn lead out_dims ogl n idx oy = Some ry ->
        sliced_loop op Az k lcn lead out_dims ogl n idx (lcomb ox oy) = Some (lcomb rx ry) /\
        length rx = length ry.
  Proof.
    intros op ms Ax Ay Az k lcn lead out_dims ogl Hop HA.
    induction n as [|n IH]; intros idx ox oy rx ry Hl Hx Hy; simpl in *.
    - injection Hx as Hx. injection Hy as Hy. subst rx ry. split; [reflexivity | exact Hl].
    - revert Hx. apply obind_elim. intros sx Hsx Hx.
      revert Hx. apply obind_elim. intros cx Hcx Hx.
      revert Hx. apply obind_elim. intros nx Hnx Hx.
      revert Hx. apply obind_elim. intros ux Hux Hx.
      revert Hy. apply obind_elim. intros sy Hsy Hy.
      revert Hy. apply obind_elim. intros cy Hcy Hy.
      revert Hy. apply obind_elim. intros ny Hny Hy.
      revert Hy. apply obind_elim. intros uy Huy Hy.
      destruct (mapM_rel (operand_slice k lcn idx) ms Ax Ay Az sx sy) as (sz & Hsz & Hrel);
        try assumption.
      { intros m a b c ra rb. apply operand_slice_rel. }
      destruct (slice_map2 lc _ _ ox oy cx cy Hl Hcx Hcy) as (Hcz & Hlc).
      destruct (Hop cx cy sx sy sz nx ny Hlc Hrel Hnx Hny) as (Hnz & Hln).
      apply guard_some in Hux. apply Nat.eqb_eq in Hux.
      apply guard_some in Huy. apply Nat.eqb_eq in Huy.
      unfold lcomb in *.
      rewrite Hsz. cbn [obind]. rewrite Hcz. cbn [obind]. rewrite Hnz. cbn [obind].
      rewrite map2_len, <- Hln, Nat.min_id, Hux, Nat.eqb_refl. cbn [guard obind].
      rewrite (splice_map2 lc _ nx ny ox oy Hl Hln).
      apply (IH _ _ _ rx ry); [| exact Hx | exact Hy].
      rewrite !splice_length. lia.
  Qed.

  Lemma forallb_valid_rel : forall ms Ax Ay Az k in_dims,
      F3m relA ms Ax Ay Az ->
      forallb (sliced_valid k in_dims) Az = forallb (sliced_valid k in_dims) Ax.
  Proof.
    intros ms Ax Ay Az k in_dims HA. induction HA as [|m ms a b c la lb lc0 Hr HA IH]; simpl.
    - reflexivity.
    - rewrite IH. f_equal. unfold sliced_valid.
      destruct (relA_dims m a b c Hr) as (_ & Hdc). rewrite Hdc. reflexivity.
  Qed.

  Lemma mk_lin : forall d vx vy dx dy,
      length vx = length vy -> mk d vx = Some dx -> mk d vy = Some dy ->
      mk d (lcomb vx vy) = Some (acomb dx dy) /\ ok dx dy.
  Proof.
    intros d vx vy dx dy Hl Hx Hy. unfold mk in *.
    revert Hx. apply obind_elim. intros u1 Hu1 Hx.
    revert Hx. apply obind_elim. intros u2 Hu2 Hx. injection Hx as Hx. subst dx.
    revert Hy. apply obind_elim. intros w1 Hw1 Hy.
    revert Hy. apply obind_elim. intros w2 Hw2 Hy. injection Hy as Hy. subst dy.
    rewrite Hu1. cbn [obind]. rewrite (lcomb_length vx vy Hl), Hu2. cbn [obind].
    split; [reflexivity |]. split; [reflexivity | exact Hl].
  Qed.

  (** the main lemma: the run on the combined operands is the combination of the runs *)
  Theorem sliced_op_lin : forall op ms Ax Ay Az in_dims out_dims k fl rx ry,
      sop_lin ms op -> F3m relA ms Ax Ay Az ->
      sliced_op O Ax op in_dims out_dims k fl = Some rx ->
      sliced_op O Ay op in_dims out_dims k fl = Some ry ->
      sliced_op O Az op in_dims out_dims k fl = Some (acomb rx ry) /\ ok rx ry.
  Proof.
    intros op ms Ax Ay Az in_dims out_dims k fl rx ry Hop HA Hx Hy.
    rewrite sliced_op_unfold in *. cbv zeta in *.
    rewrite (forallb_valid_rel ms Ax Ay Az k in_dims HA).
    revert Hx. apply obind_elim. intros ux Hux Hx.
    revert Hx. apply obind_elim. intros ox Hox Hx.
    revert Hx. apply obind_elim. intros dx Hdx Hx.
    revert Hy. apply obind_elim. intros uy Huy Hy.
    revert Hy. apply obind_elim. intros oy Hoy Hy.
    revert Hy. apply obind_elim. intros dy Hdy Hy.
    assert (Hdd : dy = dx) by congruence. subst dy.
    rewrite Hux. cbn [obind].
    destruct (sliced_loop_lin op ms Ax Ay Az k _ _ out_dims _ Hop HA _ _ _ _ ox oy eq_refl Hox Hoy)
      as (Hz & Hl).
    unfold lcomb at 1 in Hz. rewrite map2_repeat, lc_0 in Hz. rewrite Hz, Hdx. cbn [obind].
    apply mk_lin; assumption.
  Qed.

  (** * The slice operations of the engine are linear *)

  Lemma lc_add : forall u v a b, lc u v + lc a b = lc (u + a) (v + b).
  Proof. intros. unfold lc. ring. Qed.

  Lemma F3m_1 : forall m (sx sy sz : list (list F)),
      F3m relS [m] sx sy sz -> exists a b c, sx = [a] /\ sy = [b] /\ sz = [c] /\ relS m a b c.
  Proof.
    intros m sx sy sz H. inversion H as [|m' ms a b c la lb lc0 Hr Ht]. subst.
    inversion Ht. subst. exists a, b, c. repeat split. exact Hr.
  Qed.

  Lemma F3m_2 : forall m1 m2 (sx sy sz : list (list F)),
      F3m relS [m1; m2] sx sy sz ->
      exists a1 b1 c1 a2 b2 c2, sx = [a1; a2] /\ sy = [b1; b2] /\ sz = [c1; c2] /\
                                relS m1 a1 b1 c1 /\ relS m2 a2 b2 c2.
  Proof.
    intros m1 m2 sx sy sz H. inversion H as [|m' ms a b c la lb lc0 Hr Ht]. subst.
    apply F3m_1 in Ht. destruct Ht as (a2 & b2 & c2 & -> & -> & -> & Hr2).
    exists a, b, c, a2, b2, c2. repeat split; assumption.
  Qed.

  Lemma F3m_3 : forall m1 m2 m3 (sx sy sz : list (list F)),
      F3m relS [m1; m2; m3] sx sy sz ->
      exists a1 b1 c1 a2 b2 c2 a3 b3 c3,
        sx = [a1; a2; a3] /\ sy = [b1; b2; b3] /\ sz = [c1; c2; c3] /\
        relS m1 a1 b1 c1 /\ relS m2 a2 b2 c2 /\ relS m3 a3 b3 c3.
  Proof.
    intros m1 m2 m3 sx sy sz H. inversion H as [|m' ms a b c la lb lc0 Hr Ht]. subst.
    apply F3m_2 in Ht. destruct Ht as (a2 & b2 & c2 & a3 & b3 & c3 & -> & -> & -> & Hr2 & Hr3).
    exists a, b, c, a2, b2, c2, a3, b3, c3. repeat split; assumption.
  Qed.

  (** [relS], element by element *)
  Definition relF (m : bool) (u v w : F) : Prop := if m then w = lc u v else v = u /\ w = u.

  Lemma relS_nth : forall m a b c i u v,
      relS m a b c -> nth_error a i = Some u -> nth_error b i = Some v ->
      exists w, nth_error c i = Some w /\ relF m u v w.
  Proof.
    intros m a b c i u v H Hu Hv. destruct m; simpl in H |- *.
    - destruct H as (_ & ->). exists (lc u v). unfold lcomb. rewrite map2_nth_error, Hu, Hv.
      split; reflexivity.
    - destruct H as (-> & ->). exists u. split; [exact Hu|]. split; [congruence|reflexivity].
  Qed.

  (** [f] takes the combination in the operands that vary to the combination of the results *)
  Definition bilin (f : F -> F -> F) (m1 m2 : bool) : Prop :=
    forall a1 a2 a3 b1 b2 b3, relF m1 a1 a2 a3 -> relF m2 b1 b2 b3 -> f a3 b3 = lc (f a1 b1) (f a2 b2).

  Lemma mul_lin_r : forall u v w, u * lc v w = lc (u * v) (u * w).
  Proof. intros. unfold lc. ring. Qed.
  Lemma mul_lin_l : forall u v w, lc v w * u = lc (v * u) (w * u).
  Proof. intros. unfold lc. ring. Qed.

  Lemma bilin_r : forall f, (forall u v w, f u (lc v w) = lc (f u v) (f u w)) -> bilin f false true.
  Proof. intros f H a1 a2 a3 b1 b2 b3 (-> & ->) ->. apply H. Qed.

  Lemma bilin_l : forall f, (forall u v w, f (lc v w) u = lc (f v u) (f w u)) -> bilin f true false.
  Proof. intros f H a1 a2 a3 b1 b2 b3 -> (-> & ->). apply H. Qed.

  Lemma map_combine_lcomb : forall (hx hy hz : nat -> F),
      (forall i, hz i = lc (hx i) (hy i)) ->
      forall cx cy st, length cx = length cy ->
        map (fun p : nat * F => snd p + hz (fst p)) (combine (seq st (length cx)) (lcomb cx cy))
        = lcomb (map (fun p : nat * F => snd p + hx (fst p)) (combine (seq st (length cx)) cx))
                (map (fun p : nat * F => snd p + hy (fst p)) (combine (seq st (length cy)) cy)).
  Proof.
    intros hx hy hz Hh. unfold lcomb.
    induction cx as [|u cx IH]; intros [|v cy] st Hl; simpl in *; try reflexivity; try discriminate Hl.
    rewrite Hh, lc_add. f_equal. apply IH. lia.
  Qed.

  Lemma strided_lcomb : forall i stride sx sy,
      length sx = length sy ->
      vsum O (strided O i stride (lcomb sx sy))
      = lc (vsum O (strided O i stride sx)) (vsum O (strided O i stride sy)).
  Proof.
    intros i stride sx sy Hl. unfold strided.
    rewrite (lcomb_length sx sy Hl), <- Hl.
    set (L := filter (fun j => (i <=? j) && ((j - i) mod stride =? 0)) (seq 0 (length sx))).
    rewrite <- (vsum_lc (fun j => nth j sx 0) (fun j => nth j sy 0) L).
    f_equal. apply map_ext_in. intros j Hj. unfold L in Hj. apply filter_In in Hj.
    destruct Hj as (Hj & _). apply in_seq in Hj. apply nth_lcomb; [exact Hl | lia].
  Qed.

  Lemma flatten_sop_lin : sop_lin [true] (flatten_sop O).
  Proof.
    intros cx cy sx sy sz nx ny Hl Hrel Hx Hy.
    apply F3m_1 in Hrel. destruct Hrel as (a & b & c & -> & -> & -> & (Hab & ->)).
    unfold flatten_sop in *. injection Hx as Hx. injection Hy as Hy. subst nx ny.
    split.
    - f_equal. rewrite (lcomb_length cx cy Hl).
      rewrite (map_combine_lcomb (fun i => vsum O (strided O i (length cx) a))
                                 (fun i => vsum O (strided O i (length cx) b))
                                 (fun i => vsum O (strided O i (length cx) (lcomb a b))));
        [| intro i; apply strided_lcomb; exact Hab | exact Hl].
      rewrite <- Hl. reflexivity.
    - rewrite !map_length, !combine_length, !seq_length. lia.
  Qed.

  Ltac inv_ob H x Hx := apply obind_some in H; destruct H as (x & Hx & H).

  Lemma mapM_lin : forall (fx fy fz : nat -> option F) l nx ny,
      (forall i u v, fx i = Some u -> fy i = Some v -> fz i = Some (lc u v)) ->
      mapM fx l = Some nx -> mapM fy l = Some ny ->
      mapM fz l = Some (lcomb nx ny) /\ length nx = length ny.
  Proof.
    intros fx fy fz l. induction l as [|i l IH]; intros nx ny Hf Hx Hy; simpl in *.
    - injection Hx as Hx. injection Hy as Hy. subst nx ny. split; reflexivity.
    - inv_ob Hx u Hu. inv_ob Hx rx Hrx. injection Hx as Hx. subst nx.
      inv_ob Hy v Hv. inv_ob Hy ry Hry. injection Hy as Hy. subst ny.
      destruct (IH rx ry Hf Hrx Hry) as (Hz & Hlen).
      rewrite (Hf i u v Hu Hv). simpl. rewrite Hz. simpl. split; [reflexivity | lia].
  Qed.

  (** an element-wise operation, in whichever operands vary *)
  Lemma ew_sop_lin : forall (f : F -> F -> F) la lb m1 m2,
      bilin f m1 m2 -> sop_lin [m1; m2] (ew_sop f la lb).
  Proof.
    intros f la lb m1 m2 Hf cx cy sx sy sz nx ny Hl Hrel Hx Hy.
    apply F3m_2 in Hrel.
    destruct Hrel as (a1 & b1 & c1 & a2 & b2 & c2 & -> & -> & -> & R1 & R2).
    unfold ew_sop in *. rewrite (lcomb_length cx cy Hl). rewrite <- Hl in Hy.
    apply (mapM_lin _ _ _ _ nx ny) with (2 := Hx) (3 := Hy).
    intros i u v Hu Hv.
    inv_ob Hu x0 Hx0. inv_ob Hu y0 Hy0. injection Hu as Hu. subst u.
    inv_ob Hv x1 Hx1. inv_ob Hv y1 Hy1. injection Hv as Hv. subst v.
    destruct (relS_nth _ _ _ _ _ _ _ R1 Hx0 Hx1) as (x2 & Hx2 & Rx).
    destruct (relS_nth _ _ _ _ _ _ _ R2 Hy0 Hy1) as (y2 & Hy2 & Ry).
    rewrite Hx2, Hy2. cbn [obind]. f_equal. apply Hf; assumption.
  Qed.

  Lemma fill_sop_lin : sop_lin [true] (fill_sop (F:=F)).
  Proof.
    intros cx cy sx sy sz nx ny Hl Hrel Hx Hy.
    apply F3m_1 in Hrel. destruct Hrel as (a & b & c & -> & -> & -> & (Hab & ->)).
    unfold fill_sop in *.
    inv_ob Hx u Hu. injection Hx as Hx. subst nx.
    inv_ob Hy v Hv. injection Hy as Hy. subst ny.
    unfold lcomb. rewrite map2_nth_error, Hu, Hv. simpl. rewrite map2_const.
    split; [reflexivity |]. rewrite !map_length. exact Hl.
  Qed.

  (** * Array operations *)

  Lemma ok_sym : forall x y, ok x y -> ok y x.
  Proof. intros x y (H1 & H2). split; symmetry; assumption. Qed.

  Lemma relA_var : forall x y, ok x y -> relA true x y (acomb x y).
  Proof. intros x y (Hd & Hl). simpl. repeat split; [symmetry; exact Hd | exact Hl]. Qed.

  Lemma relA_fix : forall c, relA false c c c.
  Proof. intro c. split; reflexivity. Qed.

  (** [L] commutes with the combination *)
  Definition lin1 (L : arr F -> option (arr F)) : Prop :=
    forall x y dx dy, ok x y -> L x = Some dx -> L y = Some dy ->
                      L (acomb x y) = Some (acomb dx dy) /\ ok dx dy.

  Lemma lin1_const : forall {A} (e : option A) (L : A -> arr F -> option (arr F)),
      (forall c, lin1 (L c)) -> lin1 (fun x => c <- e ;; L c x).
  Proof.
    intros A e L H x y dx dy Hok Hx Hy. destruct e as [c|]; [|discriminate Hx].
    exact (H c x y dx dy Hok Hx Hy).
  Qed.

  Lemma map_arr_lin : forall g : F -> F, (forall u v, g (lc u v) = lc (g u) (g v)) -> lin1 (map_arr g).
  Proof.
    intros g Hg x y dx dy (Hd & Hl) Hx Hy. unfold map_arr in *. cbn [dims vals acomb].
    rewrite (lcomb_map g _ _ Hg). rewrite <- Hd in Hy.
    apply (mk_lin _ _ _ dx dy); [rewrite !map_length; exact Hl | exact Hx | exact Hy].
  Qed.

  Lemma ew_lin : forall (f : F -> F -> F) m1 m2 a1 a2 a3 b1 b2 b3 dx dy,
      bilin f m1 m2 -> relA m1 a1 a2 a3 -> relA m2 b1 b2 b3 ->
      element_wise_op O f a1 b1 = Some dx -> element_wise_op O f a2 b2 = Some dy ->
      element_wise_op O f a3 b3 = Some (acomb dx dy) /\ ok dx dy.
  Proof.
    intros f m1 m2 a1 a2 a3 b1 b2 b3 dx dy Hf Ra Rb Hx Hy. unfold element_wise_op in *.
    destruct (relA_dims _ _ _ _ Ra) as (Ea2 & Ea3). destruct (relA_dims _ _ _ _ Rb) as (Eb2 & Eb3).
    rewrite Ea2, Eb2 in Hy. rewrite Ea3, Eb3.
    inv_ob Hx d Hdd. inv_ob Hx la Hla. inv_ob Hx lb Hlb.
    rewrite Hdd, Hla, Hlb in Hy |- *. cbn [obind] in Hy |- *.
    apply (sliced_op_lin (ew_sop f la lb) [m1; m2] [a1; b1] [a2; b2] [a3; b3]);
      [apply ew_sop_lin; exact Hf | | exact Hx | exact Hy].
    constructor; [exact Ra |]. constructor; [exact Rb | constructor].
  Qed.

  Lemma a_mul_lin_r : forall c, lin1 (a_mul O c).
  Proof.
    intros c x y dx dy Hok. apply (ew_lin _ false true); [exact (bilin_r _ mul_lin_r)|apply relA_fix|].
    apply relA_var, Hok.
  Qed.

  Lemma a_mul_lin_l : forall c, lin1 (fun x => a_mul O x c).
  Proof.
    intros c x y dx dy Hok. apply (ew_lin _ true false); [exact (bilin_l _ mul_lin_l)| |apply relA_fix].
    apply relA_var, Hok.
  Qed.

  Lemma a_div_lin_l : (forall u v w, fdiv O (lc v w) u = lc (fdiv O v u) (fdiv O w u)) ->
                      forall c, lin1 (fun x => a_div O x c).
  Proof.
    intros Hdiv c x y dx dy Hok. apply (ew_lin _ true false); [exact (bilin_l _ Hdiv)| |apply relA_fix].
    apply relA_var, Hok.
  Qed.

  Lemma a_scale_lin : forall s, lin1 (a_scale O s).
  Proof. intros s. apply map_arr_lin. intros u v. apply mul_lin_l. Qed.

  Lemma a_reshape_lin : forall d, lin1 (a_reshape d).
  Proof. intros d x y dx dy (_ & Hl). unfold a_reshape. cbn [vals acomb]. apply mk_lin. exact Hl. Qed.

  (** [flatten_to] commutes with the combination *)
  Theorem flatten_to_lin : forall x y t x' y', ok x y ->
      flatten_to O x t = Some x' -> flatten_to O y t = Some y' ->
      flatten_to O (acomb x y) t = Some (acomb x' y') /\ ok x' y'.
  Proof.
    intros x y t x' y' Hok Hx Hy. pose proof Hok as (Hd & Hl).
    unfold flatten_to in *. cbn [dims acomb]. rewrite <- Hd in Hy.
    destruct (dims_eqb (dims x) t).
    - injection Hx as Hx. injection Hy as Hy. subst x' y'. split; [reflexivity | exact Hok].
    - inv_ob Hx fx Hfx. inv_ob Hy fy Hfy.
      assert (Hfl : (if length (dims x) - length t =? 0%nat then Some (acomb x y)
                     else sliced_op O [acomb x y] (flatten_sop O) (dims x)
                                    (skipn (length (dims x) - length t) (dims x))
                                    (length (dims x)) 0) = Some (acomb fx fy) /\ ok fx fy).
      { destruct (length (dims x) - length t =? 0%nat).
        - injection Hfx as Hfx. injection Hfy as Hfy. subst fx fy. split; [reflexivity | exact Hok].
        - apply (sliced_op_lin (flatten_sop O) [true] [x] [y] [acomb x y]);
            [exact flatten_sop_lin | | exact Hfx | exact Hfy].
          constructor; [apply relA_var; exact Hok | constructor]. }
      destruct Hfl as (Hfz & Hokf). rewrite Hfz. cbn [obind dims acomb].
      pose proof Hokf as (Hdf & _). rewrite <- Hdf in Hy.
      destruct (dims_eqb (dims fx) t).
      + injection Hx as Hx. injection Hy as Hy. subst x' y'. split; [reflexivity | exact Hokf].
      + apply (sliced_op_lin (flatten_sop O) [true] [fx] [fy] [acomb fx fy]);
          [exact flatten_sop_lin | | exact Hx | exact Hy].
        constructor; [apply relA_var; exact Hokf | constructor].
  Qed.

  (** ** matrix product, rolling and expanding *)

  Lemma vsum_lcomb : forall a b, length a = length b ->
      vsum O (lcomb a b) = lc (vsum O a) (vsum O b).
  Proof.
    unfold lcomb. induction a as [|u a IH]; intros [|v b] Hl; simpl in *; try discriminate Hl.
    - rewrite (vsum_nil O). symmetry. apply lc_0.
    - rewrite !(vsum_cons O R), IH by lia. apply lc_add.
  Qed.

  Lemma set_nth_lcomb : forall i vx vy (ox oy ox' oy' : list F),
      length ox = length oy ->
      set_nth i vx ox = Some ox' -> set_nth i vy oy = Some oy' ->
      set_nth i (lc vx vy) (lcomb ox oy) = Some (lcomb ox' oy') /\ length ox' = length oy'.
  Proof.
    intros i vx vy ox oy ox' oy' Hl Hx Hy. unfold set_nth in *.
    rewrite (lcomb_length ox oy Hl). rewrite <- Hl in Hy.
    destruct (i <? length ox) eqn:Hi; [| discriminate Hx].
    injection Hx as Hx. injection Hy as Hy. subst ox' oy'. apply Nat.ltb_lt in Hi. split.
    - f_equal. unfold lcomb. rewrite map2_firstn, (map2_skipn lc _ ox oy Hl).
      rewrite map2_app by (rewrite !firstn_length; lia). reflexivity.
    - assert (Hi' : i < length oy) by lia.
      etransitivity; [exact (set_nth_length ox i vx Hi) |].
      symmetry. etransitivity; [exact (set_nth_length oy i vy Hi') | symmetry; exact Hl].
  Qed.

  Lemma matmul_slice_lin : forall ma mb rows cols sl ta tb cx cy sax say saz sbx sby sbz nx ny,
      bilin (fmul O) ma mb -> length cx = length cy ->
      relS ma sax say saz -> relS mb sbx sby sbz ->
      matmul_slice O rows cols sl ta tb cx sax sbx = Some nx ->
      matmul_slice O rows cols sl ta tb cy say sby = Some ny ->
      matmul_slice O rows cols sl ta tb (lcomb cx cy) saz sbz = Some (lcomb nx ny) /\
      length nx = length ny.
  Proof.
    intros ma mb rows cols sl ta tb cx cy sax say saz sbx sby sbz nx ny Hf Hlc Ra Rb Hx Hy.
    unfold matmul_slice in *.
    apply (mapM_lin _ _ _ _ nx ny) with (2 := Hx) (3 := Hy).
    intros p u v Hu Hv. cbv zeta in *.
    inv_ob Hu tx Htx. inv_ob Hu o1 Ho1. injection Hu as Hu. subst u.
    inv_ob Hv ty Hty. inv_ob Hv o2 Ho2. injection Hv as Hv. subst v.
    assert (Hin : mapM (fun k =>
                x <- nth_error saz (if ta then (k * rows + p / cols)%nat else (p / cols * sl + k)%nat) ;;
                y <- nth_error sbz (if tb then (p mod cols * sl + k)%nat else (k * cols + p mod cols)%nat) ;;
                Some (x * y)) (seq 0 sl) = Some (lcomb tx ty) /\ length tx = length ty).
    { refine (mapM_lin _ _ _ _ tx ty _ Htx Hty). intros k a b Ha Hb.
      inv_ob Ha x1 Hx1. inv_ob Ha y1 Hy1. injection Ha as Ha. subst a.
      inv_ob Hb x2 Hx2. inv_ob Hb y2 Hy2. injection Hb as Hb. subst b.
      destruct (relS_nth _ _ _ _ _ _ _ Ra Hx1 Hx2) as (x3 & Hx3 & Rx).
      destruct (relS_nth _ _ _ _ _ _ _ Rb Hy1 Hy2) as (y3 & Hy3 & Ry).
      rewrite Hx3, Hy3. cbn [obind]. f_equal. apply Hf; assumption. }
    destruct Hin as (Htz & Hlt).
    rewrite Htz. cbn [obind]. unfold lcomb at 1. rewrite map2_nth_error, Ho1, Ho2. cbn [obind].
    rewrite (vsum_lcomb tx ty Hlt), lc_add. reflexivity.
  Qed.

  Lemma matmul_sop_lin : forall ma mb rows cols sl ta tb,
      bilin (fmul O) ma mb -> sop_lin [ma; mb; false] (matmul_sop O false rows cols sl ta tb).
  Proof.
    intros ma mb rows cols sl ta tb Hf cx cy sx sy sz nx ny Hl Hrel Hx Hy.
    apply F3m_3 in Hrel.
    destruct Hrel as (a1 & b1 & c1 & a2 & b2 & c2 & a3 & b3 & c3 & -> & -> & -> & Ra & Rb & _).
    unfold matmul_sop in *. eapply matmul_slice_lin; eassumption.
  Qed.

  Lemma a_matmul_lin : forall ma mb ta tb a1 a2 a3 b1 b2 b3 dx dy,
      bilin (fmul O) ma mb -> relA ma a1 a2 a3 -> relA mb b1 b2 b3 ->
      a_matmul O a1 ta b1 tb None = Some dx -> a_matmul O a2 ta b2 tb None = Some dy ->
      a_matmul O a3 ta b3 tb None = Some (acomb dx dy) /\ ok dx dy.
  Proof.
    intros ma mb ta tb a1 a2 a3 b1 b2 b3 dx dy Hf Ra Rb Hx Hy. unfold a_matmul in *.
    destruct (relA_dims _ _ _ _ Ra) as (Ea2 & Ea3). destruct (relA_dims _ _ _ _ Rb) as (Eb2 & Eb3).
    rewrite Ea2, Eb2 in Hy. rewrite Ea3, Eb3.
    inv_ob Hx shp Hshp. inv_ob Hx u Hu.
    rewrite Hshp in Hy |- *. cbn [obind] in Hy |- *.
    apply (sliced_op_lin _ [ma; mb; false] [a1; b1; zeros1 O] [a2; b2; zeros1 O] [a3; b3; zeros1 O]);
      [apply matmul_sop_lin; exact Hf | | exact Hx | exact Hy].
    constructor; [exact Ra |]. constructor; [exact Rb |]. constructor; [apply relA_fix | constructor].
  Qed.

  Lemma a_matmul_lin_l : forall c ta tb, lin1 (fun x => a_matmul O x ta c tb None).
  Proof.
    intros c ta tb x y dx dy Hok. apply (a_matmul_lin true false); [exact (bilin_l _ mul_lin_l)| |apply relA_fix].
    apply relA_var, Hok.
  Qed.

  Lemma a_matmul_lin_r : forall c ta tb, lin1 (fun x => a_matmul O c ta x tb None).
  Proof.
    intros c ta tb x y dx dy Hok. apply (a_matmul_lin false true); [exact (bilin_r _ mul_lin_r)|apply relA_fix|].
    apply relA_var, Hok.
  Qed.

  (** the summing roll (derivative of unrolling) *)
  Lemma roll_sop_lin : forall count depth rows cols sr sc0 fr fc ccount,
      sop_lin [true] (roll_sop O true count depth rows cols sr sc0 fr fc ccount).
  Proof.
    intros count depth rows cols sr sc0 fr fc ccount cx cy sx sy sz nx ny Hl Hrel Hx Hy.
    apply F3m_1 in Hrel. destruct Hrel as (a & b & c & -> & -> & -> & (Hab & ->)).
    unfold roll_sop in *. cbv zeta in *.
    revert cx cy nx ny Hl Hx Hy.
    induction (seq 0 (count * (fr * fc * depth))) as [|ii l IH]; intros cx cy nx ny Hl Hx Hy.
    - simpl in *. injection Hx as Hx. injection Hy as Hy. subst nx ny. split; [reflexivity | exact Hl].
    - simpl in Hx, Hy |- *.
      match type of Hx with fold_left ?f l ?accx = _ =>
        destruct accx as [ox|] eqn:Hox;
          [| rewrite fold_left_none in Hx by (intro b0; reflexivity); discriminate Hx] end.
      match type of Hy with fold_left ?f l ?accy = _ =>
        destruct accy as [oy|] eqn:Hoy;
          [| rewrite fold_left_none in Hy by (intro b0; reflexivity); discriminate Hy] end.
      inv_ob Hox x1 Hx1. inv_ob Hox o1 Ho1.
      inv_ob Hoy x2 Hx2. inv_ob Hoy o2 Ho2.
      destruct (set_nth_lcomb _ _ _ cx cy ox oy Hl Hox Hoy) as (Hsz & Hlo).
      unfold lcomb at 2 3. rewrite !map2_nth_error, Hx1, Hx2, Ho1, Ho2. cbn [obind].
      rewrite <- lc_add in Hsz. fold (lcomb cx cy). rewrite lc_add. rewrite lc_add in Hsz.
      rewrite Hsz. apply (IH ox oy nx ny Hlo Hx Hy).
  Qed.

  Lemma roll_blocks_lin : forall depth rows cols sr sc0 fr fc,
      lin1 (fun x => roll_blocks O true x depth rows cols sr sc0 fr fc).
  Proof.
    intros depth rows cols sr sc0 fr fc x y dx dy Hok Hx Hy. pose proof Hok as (Hd & _).
    unfold roll_blocks in *. cbn [dims acomb]. rewrite <- Hd in Hy.
    inv_ob Hx count Hcount. inv_ob Hx ccount Hcc.
    rewrite Hcount, Hcc in Hy |- *. cbn [obind] in Hy |- *.
    apply (sliced_op_lin _ [true] [x] [y] [acomb x y]);
      [apply roll_sop_lin | | exact Hx | exact Hy].
    constructor; [apply relA_var; exact Hok | constructor].
  Qed.

  (** the inverse permutation of [expand_conv] *)
  Lemma expand_fold_lin : forall fcount stride (vx vy : list F) l ox oy rx ry,
      length vx = length vy -> length ox = length oy ->
      fold_left (fun acc di => out <- acc ;; v <- nth_error vx di ;;
                               set_nth (expand_index fcount stride di) v out) l (Some ox) = Some rx ->
      fold_left (fun acc di => out <- acc ;; v <- nth_error vy di ;;
                               set_nth (expand_index fcount stride di) v out) l (Some oy) = Some ry ->
      fold_left (fun acc di => out <- acc ;; v <- nth_error (lcomb vx vy) di ;;
                               set_nth (expand_index fcount stride di) v out) l
                (Some (lcomb ox oy)) = Some (lcomb rx ry) /\ length rx = length ry.
  Proof.
    intros fcount stride vx vy l. induction l as [|di l IH]; intros ox oy rx ry Hlv Hlo Hx Hy.
    - simpl in *. injection Hx as Hx. injection Hy as Hy. subst rx ry. split; [reflexivity | exact Hlo].
    - simpl in Hx, Hy |- *.
      match type of Hx with fold_left ?f l ?accx = _ =>
        destruct accx as [ox'|] eqn:Hox;
          [| rewrite fold_left_none in Hx by (intro b0; reflexivity); discriminate Hx] end.
      match type of Hy with fold_left ?f l ?accy = _ =>
        destruct accy as [oy'|] eqn:Hoy;
          [| rewrite fold_left_none in Hy by (intro b0; reflexivity); discriminate Hy] end.
      inv_ob Hox v1 Hv1. inv_ob Hoy v2 Hv2.
      destruct (set_nth_lcomb _ _ _ ox oy ox' oy' Hlo Hox Hoy) as (Hsz & Hlo').
      unfold lcomb at 2. rewrite map2_nth_error, Hv1, Hv2. cbn [obind].
      fold (lcomb ox oy). rewrite Hsz. apply (IH ox' oy' rx ry Hlv Hlo' Hx Hy).
  Qed.

  Lemma mul_values_lin_l : forall vx vy c, length vx = length vy ->
      mul_values O (lcomb vx vy) c = lcomb (mul_values O vx c) (mul_values O vy c).
  Proof.
    unfold mul_values, lcomb.
    induction vx as [|u vx IH]; intros [|v vy] [|w c] Hl; simpl in *; try reflexivity;
      try discriminate Hl.
    rewrite mul_lin_l. f_equal. apply IH. lia.
  Qed.

  Lemma mul_values_lin_r : forall c vx vy, length vx = length vy ->
      mul_values O c (lcomb vx vy) = lcomb (mul_values O c vx) (mul_values O c vy).
  Proof.
    unfold mul_values, lcomb.
    induction c as [|w c IH]; intros [|u vx] [|v vy] Hl; simpl in *; try reflexivity;
      try discriminate Hl.
    rewrite mul_lin_r. f_equal. apply IH. lia.
  Qed.

  Lemma mul_values_len : forall a b : list F, length (mul_values O a b) = Nat.min (length a) (length b).
  Proof. intros a b. unfold mul_values. rewrite map_length, combine_length. reflexivity. Qed.

  Lemma mk_mul_values_lin_l : forall d c, lin1 (fun x => mk d (mul_values O (vals x) c)).
  Proof.
    intros d c x y dx dy (_ & Hl) Hx Hy. cbn [vals acomb]. rewrite (mul_values_lin_l _ _ c Hl).
    apply mk_lin; [rewrite !mul_values_len, Hl; reflexivity|exact Hx|exact Hy].
  Qed.

  Lemma mk_mul_values_lin_r : forall d c, lin1 (fun x => mk d (mul_values O c (vals x))).
  Proof.
    intros d c x y dx dy (_ & Hl) Hx Hy. cbn [vals acomb]. rewrite (mul_values_lin_r c _ _ Hl).
    apply mk_lin; [rewrite !mul_values_len, Hl; reflexivity|exact Hx|exact Hy].
  Qed.

  Lemma zip_mul_lin_r : forall c, lin1 (zip_vals (fmul O) c).
  Proof. intros c. exact (mk_mul_values_lin_r (dims c) (vals c)). Qed.

  Lemma fill_lin : forall target d k, lin1 (fun x => sliced_op O [x] fill_sop target d k 0).
  Proof.
    intros target d k x y dx dy Hok Hx Hy.
    apply (sliced_op_lin (fill_sop (F:=F)) [true] [x] [y] [acomb x y] target d k 0 dx dy fill_sop_lin);
      [|exact Hx|exact Hy].
    constructor; [apply relA_var; exact Hok | constructor].
  Qed.

  (** * The closures are linear in the output adjoint *)

  Local Notation comb_opt := (comb_opt acomb).
  Local Notation map2o := (map2o acomb).

  (** slot lists that are position-wise [ok] *)
  Definition OKL (lx ly : list (option (arr F))) : Prop :=
    forall i a b, nth_error lx i = Some (Some a) -> nth_error ly i = Some (Some b) -> ok a b.

  Definition bop_linear (code : bop_code F) : Prop :=
    forall cs t x y dx dy,
      ok x y -> run_bop O code cs t x = Some dx -> run_bop O code cs t y = Some dy ->
      run_bop O code cs t (acomb x y) = Some (map2o dx dy) /\ OKL dx dy.

  Definition OKO (ox oy : option (arr F)) : Prop :=
    forall a b, ox = Some a -> oy = Some b -> ok a b.

  (** Three runs, on [x], on [y] and on their combination, of three computations: when
      the first two succeed the third does and the results are in [S].  The rules below
      follow the structure of a closure; [lin1 L] is the case of one array result. *)
  Definition L3 {T} (S : T -> T -> T -> Prop) (f g h : arr F -> option T) : Prop :=
    forall x y rx ry, ok x y -> f x = Some rx -> g y = Some ry ->
                      exists rz, h (acomb x y) = Some rz /\ S rx ry rz.

  Definition la (a b c : arr F) : Prop := c = acomb a b /\ ok a b.
  Definition lo (a b c : option (arr F)) : Prop := c = comb_opt a b /\ OKO a b.
  Definition ll (a b c : list (option (arr F))) : Prop := c = map2o a b /\ OKL a b.

  Lemma lin1_L3 : forall L, lin1 L -> L3 la L L L.
  Proof.
    intros L H x y rx ry Hok Hx Hy. destruct (H x y rx ry Hok Hx Hy) as (Hz & Hk).
    exists (acomb rx ry). split; [exact Hz|split; [reflexivity|exact Hk]].
  Qed.

  Lemma L3_bop : forall code,
      (forall cs t, L3 ll (run_bop O code cs t) (run_bop O code cs t) (run_bop O code cs t)) ->
      bop_linear code.
  Proof.
    intros code H cs t x y dx dy Hok Hx Hy.
    destruct (H cs t x y dx dy Hok Hx Hy) as (dz & Hz & -> & Hk). split; assumption.
  Qed.

  Lemma L3_none : forall {T} (S : T -> T -> T -> Prop) g h, L3 S (fun _ => None) g h.
  Proof. intros T S g h x y rx ry _ Hx. discriminate Hx. Qed.

  Lemma L3_bind : forall {A T} (Q : A -> A -> A -> Prop) (S : T -> T -> T -> Prop) f g h kf kg kh,
      L3 Q f g h ->
      (forall a b c, Q a b c -> L3 S (kf a) (kg b) (kh c)) ->
      L3 S (fun x => r <- f x ;; kf r x) (fun x => r <- g x ;; kg r x) (fun x => r <- h x ;; kh r x).
  Proof.
    intros A T Q S f g h kf kg kh H K x y rx ry Hok Hx Hy.
    inv_ob Hx a Ha. inv_ob Hy b Hb.
    destruct (H x y a b Hok Ha Hb) as (c & Hc & Hr). rewrite Hc. cbn [obind].
    apply (K a b c Hr x y rx ry Hok Hx Hy).
  Qed.

  (** a step that does not read the adjoint *)
  Lemma L3_const : forall {A T} (S : T -> T -> T -> Prop) (e : option A) kf kg kh,
      (forall a, L3 S (kf a) (kg a) (kh a)) ->
      L3 S (fun x => r <- e ;; kf r x) (fun x => r <- e ;; kg r x) (fun x => r <- e ;; kh r x).
  Proof.
    intros A T S e kf kg kh K x y rx ry Hok Hx Hy. destruct e as [a|]; [|discriminate Hx].
    apply (K a x y rx ry Hok Hx Hy).
  Qed.

  Lemma L3_pure : forall {T} (S : T -> T -> T -> Prop) pf pg ph,
      (forall x y, ok x y -> S (pf x) (pg y) (ph (acomb x y))) ->
      L3 S (fun x => Some (pf x)) (fun x => Some (pg x)) (fun x => Some (ph x)).
  Proof.
    intros T S pf pg ph H x y rx ry Hok Hx Hy. injection Hx as <-. injection Hy as <-.
    exists (ph (acomb x y)). split; [reflexivity|apply H, Hok].
  Qed.

  Lemma L3_when : forall b L, lin1 L ->
      L3 lo (fun x => when b (L x)) (fun x => when b (L x)) (fun x => when b (L x)).
  Proof.
    intros b L H x y dx dy Hok Hx Hy. unfold when in *. destruct b.
    - inv_ob Hx u Hu. injection Hx as <-. inv_ob Hy v Hv. injection Hy as <-.
      destruct (H x y u v Hok Hu Hv) as (Hz & Hk). rewrite Hz. cbn [obind].
      eexists. split; [reflexivity|]. split; [reflexivity|].
      intros a b Ha Hb. injection Ha as <-. injection Hb as <-. exact Hk.
    - injection Hx as <-. injection Hy as <-. exists None. split; [reflexivity|].
      split; [reflexivity|]. intros a b Ha. discriminate Ha.
  Qed.

  Lemma lo_some : forall a b c, la a b c -> lo (Some a) (Some b) (Some c).
  Proof.
    intros a b c (-> & Hk). split; [reflexivity|]. intros u v Hu Hv.
    injection Hu as <-. injection Hv as <-. exact Hk.
  Qed.

  Lemma lo_flag : forall (b : bool) x y, ok x y ->
      lo (if b then Some x else None) (if b then Some y else None) (if b then Some (acomb x y) else None).
  Proof.
    intros [|] x y Hok; [apply lo_some; split; [reflexivity|exact Hok]|].
    split; [reflexivity|]. intros a b Ha. discriminate Ha.
  Qed.

  Lemma ll_nil : ll [] [] [].
  Proof. split; [reflexivity|]. intros i a b H. destruct i; discriminate H. Qed.

  Lemma ll_cons : forall a b c la0 lb0 lc0, lo a b c -> ll la0 lb0 lc0 -> ll (a :: la0) (b :: lb0) (c :: lc0).
  Proof.
    intros a b c la0 lb0 lc0 (-> & Hk) (-> & Hl). split; [reflexivity|].
    intros [|i] u v Hu Hv; simpl in Hu, Hv.
    - injection Hu as Hu. injection Hv as Hv. exact (Hk u v Hu Hv).
    - exact (Hl i u v Hu Hv).
  Qed.

  Lemma L3_ret : forall {T} (S : T -> T -> T -> Prop) a b c,
      S a b c -> L3 S (fun _ => Some a) (fun _ => Some b) (fun _ => Some c).
  Proof. intros T S a b c H. apply L3_pure. intros x y _. exact H. Qed.

  Lemma L3_ret_slot : forall a b c,
      la a b c -> L3 ll (fun _ => Some [Some a]) (fun _ => Some [Some b]) (fun _ => Some [Some c]).
  Proof. intros a b c H. apply L3_ret, ll_cons; [apply lo_some, H|apply ll_nil]. Qed.

  (** the common ending [r <- L x ;; Some [Some r]] *)
  Lemma L3_slot : forall L, lin1 L ->
      L3 ll (fun x => r <- L x ;; Some [Some r]) (fun x => r <- L x ;; Some [Some r])
            (fun x => r <- L x ;; Some [Some r]).
  Proof.
    intros L H. apply (L3_bind la); [apply lin1_L3, H|]. intros a b c Hr.
    apply L3_ret_slot, Hr.
  Qed.

  (** a step on intermediate values that are already combined *)
  Lemma L3_la_consts : forall ex ey ez,
      (forall dx dy, ex = Some dx -> ey = Some dy -> ez = Some (acomb dx dy) /\ ok dx dy) ->
      L3 la (fun _ => ex) (fun _ => ey) (fun _ => ez).
  Proof.
    intros ex ey ez H x y dx dy _ Hx Hy. destruct (H dx dy Hx Hy) as (Hz & Hk).
    exists (acomb dx dy). split; [exact Hz|split; [reflexivity|exact Hk]].
  Qed.

  Definition lv (a b c : list F) : Prop := c = lcomb a b /\ length a = length b.

  Lemma expand_back_L3 : forall fcount stride m n,
      L3 lv (fun x => fold_left (fun acc di => out <- acc ;; v <- nth_error (vals x) di ;;
                                               set_nth (expand_index fcount stride di) v out)
                                (seq 0 m) (Some (repeat 0 n)))
            (fun x => fold_left (fun acc di => out <- acc ;; v <- nth_error (vals x) di ;;
                                               set_nth (expand_index fcount stride di) v out)
                                (seq 0 m) (Some (repeat 0 n)))
            (fun x => fold_left (fun acc di => out <- acc ;; v <- nth_error (vals x) di ;;
                                               set_nth (expand_index fcount stride di) v out)
                                (seq 0 m) (Some (repeat 0 n))).
  Proof.
    intros fcount stride m n x y vx vy (_ & Hlv) Hvx Hvy. cbn [vals acomb].
    destruct (expand_fold_lin fcount stride (vals x) (vals y) _ _ _ vx vy Hlv eq_refl Hvx Hvy)
      as (Hz & Hlr).
    unfold lcomb at 2 in Hz. rewrite map2_repeat, lc_0 in Hz.
    exists (lcomb vx vy). split; [exact Hz|split; [reflexivity|exact Hlr]].
  Qed.

  Definition linear_proved (code : bop_code F) : bool :=
    match code with
    | BDiv => false
    | _ => true
    end.

  (** every closure is linear in the adjoint; division needs the scalar division to be
      linear in the numerator *)
  Lemma closures_linear : forall code,
      (linear_proved code = false ->
       forall u v w, fdiv O (lc v w) u = lc (fdiv O v u) (fdiv O w u)) ->
      bop_linear code.
  Proof.
    intros code Hdiv. apply L3_bop. intros cs t.
    destruct code as [| | | |s| |e| |cached|k target| |ta tb|depth rows cols sr sc0 fr fc
                      |fcount stride| |cached|[| |]];
      destruct cs as [|c0 [|c1 [|c2 [|c3 cs]]]]; try apply L3_none; unfold run_bop.
    - (* BAdd *)
      apply L3_pure. intros x y Hok.
      apply ll_cons; [apply lo_flag, Hok|]. apply ll_cons; [apply lo_flag, Hok|apply ll_nil].
    - (* BMul *)
      apply (L3_bind lo); [apply L3_when, a_mul_lin_r|]. intros d0 d0' d0'' H0.
      apply (L3_bind lo); [apply L3_when, a_mul_lin_r|]. intros d1 d1' d1'' H1.
      apply L3_ret, ll_cons; [exact H0|]. apply ll_cons; [exact H1|apply ll_nil].
    - (* BDiv *)
      apply (L3_bind lo); [apply L3_when, a_div_lin_l, Hdiv; reflexivity|]. intros d0 d0' d0'' H0.
      apply (L3_bind lo).
      { apply (L3_when _ (fun x => n <- a_neg O c0 ;; p <- a_powf O (two O) c1 ;; q <- a_div O n p ;;
                                   a_mul O q x)).
        apply lin1_const. intros n. apply lin1_const. intros p. apply lin1_const. intros q.
        apply a_mul_lin_r. }
      intros d1 d1' d1'' H1.
      apply L3_ret, ll_cons; [exact H0|]. apply ll_cons; [exact H1|apply ll_nil].
    - (* BNeg *) apply L3_slot, a_scale_lin.
    - (* BScale *) apply L3_slot, a_scale_lin.
    - (* BRecip *)
      apply L3_const. intros r. apply L3_const. intros p. apply L3_const. intros n.
      apply L3_slot, a_mul_lin_r.
    - (* BPowf *)
      apply L3_const. intros p. apply L3_const. intros s. apply L3_slot, a_mul_lin_r.
    - (* BLn *)
      apply L3_const. intros r. apply (L3_slot (fun x => a_mul O x r)), a_mul_lin_l.
    - (* BExp *) apply (L3_slot (fun x => mk (dims c0) (mul_values O (vals x) cached))), mk_mul_values_lin_l.
    - (* BSum *)
      apply (L3_bind la); [apply lin1_L3, a_reshape_lin|]. intros x' y' z' (-> & Hk).
      apply (L3_bind la).
      { apply L3_la_consts. intros dx dy. exact (fill_lin target (dims c0) k x' y' dx dy Hk). }
      intros d d' d'' Hd.
      apply L3_ret_slot, Hd.
    - (* BReshape *)
      apply (L3_bind lo); [apply L3_when, a_reshape_lin|]. intros d d' d'' Hd.
      apply L3_ret, ll_cons; [exact Hd|apply ll_nil].
    - (* BMatmul *)
      cbv zeta.
      set (is_dot := (length (dims c0) <? 2) && (length (dims c1) <? 2) && negb ta && negb tb).
      apply (L3_bind lo).
      { apply (L3_when _ (fun x => if is_dot then a_mul O c1 x
                                   else if ta then a_matmul O c1 tb x true None
                                        else a_matmul O x false c1 (negb tb) None)).
        destruct is_dot; [apply a_mul_lin_r|]. destruct ta; [apply a_matmul_lin_r|apply a_matmul_lin_l]. }
      intros d0 d0' d0'' H0.
      apply (L3_bind lo).
      { apply (L3_when _ (fun x => if is_dot then a_mul O c0 x
                                   else if tb then a_matmul O x true c0 ta None
                                        else a_matmul O c0 (negb ta) x false None)).
        destruct is_dot; [apply a_mul_lin_r|]. destruct tb; [apply a_matmul_lin_l|apply a_matmul_lin_r]. }
      intros d1 d1' d1'' H1.
      apply L3_pure. intros x y Hok. apply ll_cons; [exact H0|]. apply ll_cons; [exact H1|].
      apply ll_cons; [apply lo_flag, Hok|apply ll_nil].
    - (* BUnroll *)
      apply (L3_bind lo).
      { apply (L3_when _ (fun x => roll_blocks O true x depth rows cols sr sc0 fr fc)), roll_blocks_lin. }
      intros d d' d'' Hd. apply L3_ret, ll_cons; [exact Hd|apply ll_nil].
    - (* BExpand *)
      cbv zeta. apply L3_const. intros _.
      apply (L3_bind lv); [apply expand_back_L3|]. intros vx vy vz (-> & Hl).
      apply (L3_bind la); [apply L3_la_consts; intros dx dy; exact (mk_lin _ _ _ dx dy Hl)|].
      intros d d' d'' Hd.
      apply L3_ret_slot, Hd.
    - (* BRelu *)
      apply L3_const. intros der. apply L3_slot, a_mul_lin_r.
    - (* BSigmoid *)
      apply (L3_slot (fun x => mk (dims c0) (mul_values O (map (fun v => v * fsub O (f1 O) v) cached) (vals x)))),
        mk_mul_values_lin_r.
    - (* CMul *)
      apply (L3_bind lo); [apply L3_when, zip_mul_lin_r|]. intros d0 d0' d0'' H0.
      apply (L3_bind lo); [apply L3_when, zip_mul_lin_r|]. intros d1 d1' d1'' H1.
      apply L3_ret, ll_cons; [exact H0|]. apply ll_cons; [exact H1|apply ll_nil].
    - (* CAff *)
      apply (L3_bind lo); [apply L3_when, a_scale_lin|]. intros d1 d1' d1'' H1.
      apply L3_pure. intros x y Hok. apply ll_cons; [apply lo_flag, Hok|]. apply ll_cons; [exact H1|apply ll_nil].
    - (* CSq *)
      apply (L3_bind lo).
      { apply (L3_when _ (fun x => s <- a_scale O (two O) c0 ;; zip_vals (fmul O) s x)).
        apply lin1_const. intros s. apply zip_mul_lin_r. }
      intros d d' d'' Hd. apply L3_ret, ll_cons; [exact Hd|apply ll_nil].
  Qed.

  Theorem linear_proved_linear : forall code, linear_proved code = true -> bop_linear code.
  Proof. intros code H. apply closures_linear. rewrite H. discriminate. Qed.

  (** with a scalar division that is linear in the numerator, every closure is linear *)
  Theorem all_linear :
    (forall u v w, fdiv O (lc v w) u = lc (fdiv O v u) (fdiv O w u)) ->
    forall code, bop_linear code.
  Proof. intros Hdiv code. apply closures_linear. intros _. exact Hdiv. Qed.
End Linear.

Print Assumptions sliced_op_lin.
Print Assumptions flatten_to_lin.
Print Assumptions linear_proved_linear.
Print Assumptions all_linear.
