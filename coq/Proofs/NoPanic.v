(** The existence direction: a backward pass on a sound, value-consistent graph with a
    well-shaped seed never panics.

    Part 1 (abstract engine): [guarded_total] -- the totality theorem of EngineInv.v
    ([root_total], over a predicate on nodes) read for the values that actually occur:
    deltas acceptable for their node, as [EnginePred.VInv] keeps them.
    Part 2 (arrays): the closures of Model/Ops.v are total on such values. *)

From Coq Require Import List Arith Bool Lia PeanoNat.
From Corgi Require Import Lib.OptionMonad Model.Engine Proofs.EngineDefs Proofs.EngineBase
     Proofs.Propagate Proofs.EngineInv Proofs.EnginePred.
Import ListNotations.

Section Guarded.
  Context {P D : Type}.
  Variable E : eops P D.

  Variable pok : P -> Prop.
  Variable wfd : D -> Prop.
  Variable okd : P -> D -> Prop.

  (** preservation on successful calls (as in EnginePred.v) *)
  Hypothesis okd_wfd : forall p x, okd p x -> wfd x.
  Hypothesis H_ones : forall p, pok p -> okd p (eo_ones E p).
  Hypothesis H_bop : forall p pays saved x ds i d,
      wfd x -> eo_bop E p pays saved x = Some ds -> nth_error ds i = Some (Some d) -> wfd d.
  Hypothesis H_flat : forall d p d', wfd d -> eo_flat E d p = Some d' -> okd p d'.
  Hypothesis H_add : forall p x y z, okd p x -> okd p y -> eo_add E x y = Some z -> okd p z.

  Variable g0 : store P D.
  Variable r : nat.
  Hypothesis Hwf : wfg E g0.
  Hypothesis Hbc : bop_contract E g0.
  Hypothesis Hr : r < length g0.

  (** totality on acceptable values only *)
  Hypothesis T_add : forall p x y, pok p -> okd p x -> okd p y -> eo_add E x y <> None.
  Hypothesis T_bop : forall id nd pays delta,
      nth_error g0 id = Some nd -> eo_hasop E (n_pay nd) = true ->
      mapM (fun e : entry => c <- nth_error g0 (e_node e) ;; Some (n_pay c)) (n_children nd)
      = Some pays ->
      okd (n_pay nd) delta ->
      exists ds, eo_bop E (n_pay nd) pays (map e_tracked (n_children nd)) delta = Some ds /\
        forall i e d c, nth_error (n_children nd) i = Some e -> nth_error ds i = Some (Some d) ->
                        nth_error g0 (e_node e) = Some c -> eo_flat E d (n_pay c) <> None.

  Local Notation VInv := (VInv pok okd).

  (** accumulating an acceptable value onto an acceptable slot succeeds *)
  Lemma oadd_total : forall p (o : option D) d,
      pok p -> (forall x, o = Some x -> okd p x) -> okd p d ->
      exists z, match o with Some x => eo_add E x d | None => Some d end = Some z /\ okd p z.
  Proof.
    intros p [x|] d Hp Ho Hd; [| exists d; split; [reflexivity | exact Hd]].
    destruct (eo_add E x d) as [z|] eqn:Hz; [| destruct (T_add p x d Hp (Ho x eq_refl) Hd Hz)].
    exists z. split; [reflexivity | exact (H_add p x d z (Ho x eq_refl) Hd Hz)].
  Qed.

  (** a pass on a clean store whose values are acceptable never panics *)
  Theorem guarded_total : forall keep seed,
      clean g0 -> VInv g0 ->
      (forall s nd, seed = Some s -> nth_error g0 r = Some nd -> okd (n_pay nd) s) ->
      run_backward E g0 r keep seed <> None.
  Proof.
    intros keep seed Hclean HV Hseed.
    destruct (root_state E g0 r Hwf Hclean Hr) as (g1 & Hprop & Hnc & Hreach & HF & Hd1).
    destruct (nth_error g0 r) as [nd|] eqn:Hnd; [| apply nth_error_None in Hnd; lia].
    rewrite (run_backward_root E g0 r keep seed nd Hclean Hnd), Hprop. cbn [obind].
    destruct (root_total E g0 r Hwf Hbc Hr (nok pok okd) okd
                         (fun p d => wfd d /\ eo_flat E d p <> None))
      with (g1 := g1) (keep := keep)
           (delta := match seed with Some s => s | None => eo_ones E (n_pay nd) end)
      as (g' & log' & Hres & _); try assumption; try apply Hd1.
    - intros x d (Hp & Hdl & Hgr) Hd. split; [| apply Hdl; exact Hd].
      split; [exact Hp |]. split; [intros y Hy; discriminate Hy | exact Hgr].
    - intros c d (Hp & Hdl & Hgr) (Hwd & Hfl).
      destruct (eo_flat E d (n_pay c)) as [d'|] eqn:Hd'; [| destruct (Hfl eq_refl)].
      destruct (oadd_total (n_pay c) (n_delta c) d' Hp Hdl (H_flat d _ d' Hwd Hd'))
        as (nw & Hnw & Hok).
      exists d', nw. split; [reflexivity |]. split; [exact Hnw |]. intro k.
      split; [exact Hp |]. split; [| exact Hgr]. intros y Hy. injection Hy as Hy. subst y. exact Hok.
    - intros x delta (Hp & Hdl & Hgr) Hok.
      destruct (oadd_total (n_pay x) (n_grad x) delta Hp Hgr Hok) as (ng & Hng & Hokng).
      exists ng. split; [exact Hng |]. split; [exact Hp |]. split; [exact Hdl |].
      intros y Hy. injection Hy as Hy. subst y. exact Hokng.
    - intros id x pays delta Hx Hop Hpays Hok.
      destruct (T_bop id x pays delta Hx Hop Hpays Hok) as (ds & Hds & Hfl).
      exists ds. split; [exact Hds |]. intros i e d c Hei Hdi Hc. split.
      + eapply H_bop; [eapply okd_wfd; exact Hok | exact Hds | exact Hdi].
      + apply (Hfl i e d c Hei Hdi Hc).
    - eapply VInv_nc; eassumption.
    - intros nd0 Hnd0. rewrite Hnd in Hnd0. injection Hnd0 as Hnd0. subst nd0.
      destruct (HV r nd Hnd) as (Hpok & _ & _).
      destruct seed as [s|]; [apply (Hseed s nd eq_refl eq_refl) | apply H_ones; exact Hpok].
    - rewrite Hres. discriminate.
  Qed.
End Guarded.

(** * Part 2: the array engine *)

From Corgi Require Import Lib.IdxDefs Lib.Idx Lib.Sums Model.Scalar Model.Arr Model.SlicedOp Model.Elementwise
     Model.Linalg Model.Image Model.Ops Model.Program
     Proofs.ArrFacts Proofs.BroadcastDims Proofs.SpecDefs Proofs.SlicedOpSpec Proofs.EwSpec
     Proofs.ReduceSpec Proofs.FlattenSpec Proofs.MatmulSpec Proofs.ConvSpec Proofs.OpsWf Proofs.HistoryInv Proofs.DualLift
     Proofs.LocalAdjoint Proofs.FwdCode.

Section Concrete.
  Context {F : Type} (O : ScalarOps F) (R : is_cring O).

  Local Notation pay := (@pay F).
  Local Notation gnode := (@gnode F).
  Local Notation E := (Program.E O).

  (** no rank-0 array in the graph (two rank-0 arrays cannot be added) *)
  Definition nonscalar (g : list gnode) : Prop :=
    forall id nd, nth_error g id = Some nd -> p_dims (n_pay nd) <> [].

  (** the closure [code] of a node with value [v] and children values [cs] is total: on
      every delta of the node's shape it returns deltas that flatten to its children *)
  Definition closure_total (code : bop_code F) (cs : list (arr F)) (v : arr F)
             (flags : list bool) : Prop :=
    forall delta, wf delta -> dims delta = dims v ->
      exists ds, run_bop O code cs flags delta = Some ds /\
        forall i c d, nth_error cs i = Some c -> nth_error ds i = Some (Some d) ->
                      flatten_to O d (dims c) <> None.

  Definition closures_total (g : list gnode) : Prop :=
    forall id nd code, nth_error g id = Some nd -> p_bop (n_pay nd) = Some code ->
      closure_total code (cvals g (n_children nd)) (pay_arr (n_pay nd))
                    (map e_tracked (n_children nd)).

  Lemma mapM_pays_cvals : forall (g : list gnode) es pays,
      mapM (fun e : entry => c <- nth_error g (e_node e) ;; Some (n_pay c)) es = Some pays ->
      map pay_arr pays = cvals g es.
  Proof.
    intros g es. induction es as [|e es IH]; intros pays H; simpl in H.
    - injection H as H. subst pays. reflexivity.
    - revert H. apply obind_elim. intros p Hp H.
      revert H. apply obind_elim. intros ps Hps H. injection H as H. subst pays.
      revert Hp. apply obind_elim. intros c Hc Hp. injection Hp as Hp. subst p.
      simpl. unfold nval at 1. unfold Program.gnode in *. rewrite Hc. f_equal. apply IH. exact Hps.
  Qed.

  (** the general statement: sound store, no rank-0 node, every closure total *)
  Theorem backward_total_gen : forall (g : list gnode) r keep seed,
      store_good g -> nonscalar g -> closures_total g -> r < length g ->
      (forall sd nd, seed = Some sd -> nth_error g r = Some nd -> grad_ok (n_pay nd) sd) ->
      run_backward E g r keep seed <> None.
  Proof.
    intros g r keep seed Hg Hns Hct Hr Hseed.
    apply (guarded_total E (fun p : pay => wf (pay_arr p) /\ p_dims p <> []) (@wf F) grad_ok).
    - intros p x [Hw _]. exact Hw.
    - intros p [Hp _]. apply (wf_ones O). exact Hp.
    - intros p pays saved x ds i d Hx Hds Hi. simpl in Hds.
      revert Hds. apply obind_elim. intros code _ Hds.
      apply (run_bop_wf O code _ _ x ds Hx Hds i d Hi).
    - intros d p d' Hd Hfl. simpl in Hfl. apply (flatten_to_shape O d d' _ Hd Hfl).
    - intros p x y z [Hwx Hdx] [Hwy Hdy] Hz. simpl in Hz.
      destruct (a_add_same O x y z) as [Hwz Hdz]; [congruence | exact Hz |].
      split; [exact Hwz | congruence].
    - exact (store_good_wfg O g Hg).
    - exact (store_good_contract O g Hg).
    - exact Hr.
    - intros p x y [_ Hne] [Hwx Hdx] [Hwy Hdy]. simpl.
      destruct (a_add_same_dims O x y Hwx Hwy) as (c & Hc & _); [congruence | congruence |].
      rewrite Hc. discriminate.
    - intros id nd pays delta Hnd Hop Hpays [Hwd Hdd].
      simpl in Hop. destruct (p_bop (n_pay nd)) as [code|] eqn:Hcode; [| discriminate Hop].
      destruct (Hct id nd code Hnd Hcode delta Hwd) as (ds & Hds & Hfl); [exact Hdd |].
      exists ds. split.
      + simpl. rewrite Hcode. cbn [obind]. rewrite (mapM_pays_cvals g _ pays Hpays). exact Hds.
      + intros i e d c He Hd Hc. simpl.
        apply (Hfl i (pay_arr (n_pay c)) d); [| exact Hd].
        unfold cvals. rewrite nth_error_map, He. simpl. unfold nval.
        unfold Program.gnode in *. rewrite Hc. reflexivity.
    - exact (store_good_clean g Hg).
    - intros id nd Hnd. destruct (Hg id nd Hnd) as (_ & _ & _ & Hd & Hw & Hgr).
      split; [split; [exact Hw | apply (Hns id nd Hnd)] |].
      split; [intros x Hx; rewrite Hd in Hx; discriminate Hx | exact Hgr].
    - exact Hseed.
  Qed.

  (** * Totality of the closures *)

  (** side conditions beyond what the forward success gives: the user operations of the
      harness are used on equal dimensions; [sum(k)] within the rank *)
  Definition closure_side (code : bop_code F) (cs : list (arr F)) (v : arr F) : Prop :=
    match code with
    | BCustom CMul | BCustom CAff => dims (nth 0 cs dummy_arr) = dims (nth 1 cs dummy_arr)
    | BSum k _ => k <= length (dims (nth 0 cs dummy_arr))
    | BMatmul ta tb =>
      ((2 <= length (dims (nth 0 cs dummy_arr)) /\ 2 <= length (dims (nth 1 cs dummy_arr))) \/
       (length (dims (nth 0 cs dummy_arr)) = 1 /\ length (dims (nth 1 cs dummy_arr)) = 1 /\
        ta = false /\ tb = false)) /\
      sub_lead (dims (nth 2 cs dummy_arr)) (dims v)
    | _ => True
    end.

  Definition node_facts (code : bop_code F) (cs : list (arr F)) (v : arr F) : Prop :=
    length cs = arity code /\ Forall (@wf F) cs /\ Forall (fun c : arr F => dims c <> []) cs /\
    wf v /\ dims v <> [] /\ code_fits code cs v /\ closure_side code cs v /\
    (fwd_of_code O (fun s => s) code (dims v) cs = Some v \/ matmul_nobias O code cs v).

  (** ** array operations that are defined *)

  Lemma ew_inv : forall (f : F -> F -> F) (a b v : arr F),
      element_wise_op O f a b = Some v ->
      bcompat (dims a) (dims b) /\ dims v = bmax (dims a) (dims b) /\
      dims a <> [] /\ dims b <> [].
  Proof.
    intros f a b v H. unfold element_wise_op in H.
    revert H. apply obind_elim. intros d Hd H.
    revert H. apply obind_elim. intros la Hla H.
    revert H. apply obind_elim. intros lb Hlb H.
    apply element_wise_dimensions_spec in Hd. destruct Hd as (Hc & ->).
    apply (sliced_op_shape O) in H. destruct H as (_ & Hdv).
    split; [exact Hc |]. split; [exact Hdv |]. split.
    - intro He. rewrite He in Hla. discriminate Hla.
    - intro He. rewrite He in Hlb. discriminate Hlb.
  Qed.

  Lemma sub_lead_nonempty : forall a x : list nat, sub_lead a x -> a <> [] -> x <> [].
  Proof. intros [|? ?] x (Hl & _) Ha E; [congruence | rewrite E in Hl; inversion Hl]. Qed.

  (** an operand whose dimensions lie below those of [x] combines with [x], on either
      side, into an array of the dimensions of [x] *)
  Lemma ew_below : forall (f : F -> F -> F) (a x : arr F),
      wf a -> wf x -> dims a <> [] -> sub_lead (dims a) (dims x) ->
      (exists r, element_wise_op O f a x = Some r /\ wf r /\ dims r = dims x) /\
      (exists r, element_wise_op O f x a = Some r /\ wf r /\ dims r = dims x).
  Proof.
    intros f a x Ha Hx Hna Hsub.
    destruct (sub_lead_bmax (dims a) (dims x) (proj1 Hx) Hsub) as (Hc & Hm).
    pose proof (sub_lead_nonempty _ _ Hsub Hna) as Hnx.
    split.
    - destruct (element_wise_op_spec O f a x Ha Hx Hna Hnx Hc) as (r & Hr & Hwr & Hdr & _).
      exists r. rewrite Hm in Hdr. auto.
    - destruct (element_wise_op_spec O f x a Hx Ha Hnx Hna) as (r & Hr & Hwr & Hdr & _);
        [apply bcompat_sym; exact Hc |].
      exists r. rewrite bmax_sym, Hm in Hdr. auto.
  Qed.

  Lemma mul_same : forall (a b : arr F),
      wf a -> wf b -> dims a = dims b -> dims a <> [] ->
      exists r, a_mul O a b = Some r /\ wf r /\ dims r = dims b.
  Proof.
    intros a b Ha Hb E Hn.
    apply (ew_below (fmul O) a b Ha Hb Hn). rewrite E. apply sub_lead_refl.
  Qed.

  Lemma map_arr_total : forall (g : F -> F) (a : arr F),
      wf a -> exists c, map_arr g a = Some c /\ wf c /\ dims c = dims a.
  Proof.
    intros g a Ha. exists (map_result g a).
    split; [apply map_arr_closed; exact Ha |]. split; [apply map_result_wf; exact Ha | reflexivity].
  Qed.

  Lemma mk_same : forall (c : arr F) (vs : list F),
      wf c -> length vs = length (vals c) ->
      mk (dims c) vs = Some {| dims := dims c; vals := vs |}.
  Proof.
    intros c vs (Hp & Hl) Hvs. apply mk_some. split; [exact Hp |]. split; [congruence | reflexivity].
  Qed.

  (** ** what the facts about a node give for each arity *)

  Lemma facts_fwd : forall code cs v,
      node_facts code cs v -> arity code <> 3 ->
      fwd_of_code O (fun s => s) code (dims v) cs = Some v.
  Proof.
    intros code cs v (_ & _ & _ & _ & _ & _ & _ & [H | H]) Ha; [exact H |].
    destruct code; try destruct H. exfalso. apply Ha. reflexivity.
  Qed.

  Lemma facts_child : forall code cs v c,
      node_facts code cs v -> In c cs -> wf c /\ dims c <> [].
  Proof.
    intros code cs v c (_ & Hwf & Hns & _) Hc.
    split; [exact (proj1 (Forall_forall _ _) Hwf c Hc) | exact (proj1 (Forall_forall _ _) Hns c Hc)].
  Qed.

  Lemma facts1 : forall code cs v,
      node_facts code cs v -> arity code = 1 ->
      exists c0, cs = [c0] /\ wf c0 /\ dims c0 <> [] /\
                 fwd_of_code O (fun s => s) code (dims v) [c0] = Some v.
  Proof.
    intros code cs v Hf Ha. pose proof (facts_fwd code cs v Hf) as Hfwd.
    pose proof (fun c => facts_child code cs v c Hf) as Hch.
    destruct Hf as (Hlen & _). rewrite Ha in Hlen, Hfwd.
    destruct cs as [|c0 [|? ?]]; try discriminate Hlen. exists c0.
    split; [reflexivity |]. split; [apply Hch; simpl; tauto |]. split; [apply Hch; simpl; tauto |].
    apply Hfwd. discriminate.
  Qed.

  Lemma facts2 : forall code cs v,
      node_facts code cs v -> arity code = 2 ->
      exists c0 c1, cs = [c0; c1] /\ wf c0 /\ wf c1 /\ dims c0 <> [] /\ dims c1 <> [] /\
                    fwd_of_code O (fun s => s) code (dims v) [c0; c1] = Some v.
  Proof.
    intros code cs v Hf Ha. pose proof (facts_fwd code cs v Hf) as Hfwd.
    pose proof (fun c => facts_child code cs v c Hf) as Hch.
    destruct Hf as (Hlen & _). rewrite Ha in Hlen, Hfwd.
    destruct cs as [|c0 [|c1 [|? ?]]]; try discriminate Hlen. exists c0, c1.
    split; [reflexivity |]. do 4 (split; [apply Hch; simpl; tauto |]).
    apply Hfwd. discriminate.
  Qed.

  (** ** deltas that flatten to their children *)

  Lemma flat_same : forall (d c : arr F), dims d = dims c -> flatten_to O d (dims c) <> None.
  Proof. intros d c H. rewrite <- H, (flatten_to_same O d). discriminate. Qed.

  Lemma flat_sub : forall (d c : arr F),
      wf d -> wf c -> dims c <> [] -> sub_lead (dims c) (dims d) ->
      flatten_to O d (dims c) <> None.
  Proof.
    intros d c Hd [Hc _] Hne Hsub.
    destruct (flatten_to_flat O R d (dims c) Hd Hne Hc) as (r & Hr & _).
    - apply sub_target_sub_lead. exact Hsub.
    - rewrite Hr. discriminate.
  Qed.

  Definition slot_ok (c : arr F) (o : option (arr F)) : Prop :=
    forall d, o = Some d -> flatten_to O d (dims c) <> None.

  Lemma slot_if : forall (b : bool) (c x : arr F),
      flatten_to O x (dims c) <> None -> slot_ok c (if b then Some x else None).
  Proof. intros b c x H d Hd. destruct b; [injection Hd as <-; exact H | discriminate Hd]. Qed.

  Definition delivers (cs : list (arr F)) (os : list (option (arr F))) : Prop :=
    forall i c d, nth_error cs i = Some c -> nth_error os i = Some (Some d) ->
                  flatten_to O d (dims c) <> None.

  Lemma slots : forall cs os, Forall2 slot_ok cs os -> delivers cs os.
  Proof.
    induction 1 as [|c0 o0 cs os H0 _ IH]; intros [|i] c d Hc Hd; try discriminate Hc.
    - injection Hc as <-. injection Hd as ->. apply H0. reflexivity.
    - exact (IH i c d Hc Hd).
  Qed.

  (** the computation [X] of one slot succeeds with a delta for the child [c] *)
  Definition gives (c : arr F) (X : option (arr F)) : Prop :=
    exists r, X = Some r /\ flatten_to O r (dims c) <> None.

  Lemma gives_same : forall (c : arr F) X,
      (exists r, X = Some r /\ dims r = dims c) -> gives c X.
  Proof. intros c X (r & Hr & Hd). exists r. split; [exact Hr | apply flat_same; exact Hd]. Qed.

  (** a result of the dimensions of the delta [x] serves every operand below them *)
  Lemma gives_below : forall (c x : arr F) X,
      (exists r, X = Some r /\ wf r /\ dims r = dims x) ->
      wf c -> dims c <> [] -> sub_lead (dims c) (dims x) -> gives c X.
  Proof.
    intros c x X (r & Hr & Hwr & Hdr) Hc Hn Hsub. exists r. split; [exact Hr |].
    apply flat_sub; try assumption. rewrite Hdr. exact Hsub.
  Qed.

  Lemma when_gives : forall (b : bool) c X,
      gives c X -> exists o, when b X = Some o /\ slot_ok c o.
  Proof.
    intros b c X (r & -> & Hr). exists (if b then Some r else None).
    split; [destruct b; reflexivity | apply slot_if; exact Hr].
  Qed.

  (** the shapes of [run_bop]'s results *)
  Lemma total1 : forall code c0 v flags,
      (forall x, wf x -> dims x = dims v ->
                 exists r, run_bop O code [c0] flags x = Some [Some r] /\ dims r = dims c0) ->
      closure_total code [c0] v flags.
  Proof.
    intros code c0 v flags H x Hwx Hdx. destruct (H x Hwx Hdx) as (r & Hr & Hd).
    exists [Some r]. split; [exact Hr |]. apply slots.
    constructor; [apply (slot_if true), flat_same; exact Hd | constructor].
  Qed.

  Lemma total1w : forall (b : bool) c0 X,
      gives c0 X -> exists ds, (d <- when b X ;; Some [d]) = Some ds /\ delivers [c0] ds.
  Proof.
    intros b c0 X G. destruct (when_gives b c0 X G) as (o & -> & S0).
    eexists. split; [reflexivity |]. apply slots. constructor; [exact S0 | constructor].
  Qed.

  Lemma total2w : forall (b0 b1 : bool) c0 c1 X0 X1,
      gives c0 X0 -> gives c1 X1 ->
      exists ds, (d0 <- when b0 X0 ;; d1 <- when b1 X1 ;; Some [d0; d1]) = Some ds /\
                 delivers [c0; c1] ds.
  Proof.
    intros b0 b1 c0 c1 X0 X1 G0 G1.
    destruct (when_gives b0 c0 X0 G0) as (o0 & -> & S0).
    destruct (when_gives b1 c1 X1 G1) as (o1 & -> & S1).
    eexists. split; [reflexivity |]. apply slots.
    constructor; [exact S0 |]. constructor; [exact S1 | constructor].
  Qed.

  Lemma total3w : forall (b0 b1 : bool) c0 c1 c2 X0 X1 o2,
      gives c0 X0 -> gives c1 X1 -> slot_ok c2 o2 ->
      exists ds, (d0 <- when b0 X0 ;; d1 <- when b1 X1 ;; Some [d0; d1; o2]) = Some ds /\
                 delivers [c0; c1; c2] ds.
  Proof.
    intros b0 b1 c0 c1 c2 X0 X1 o2 G0 G1 S2.
    destruct (when_gives b0 c0 X0 G0) as (o0 & -> & S0).
    destruct (when_gives b1 c1 X1 G1) as (o1 & -> & S1).
    eexists. split; [reflexivity |]. apply slots.
    constructor; [exact S0 |]. constructor; [exact S1 |]. constructor; [exact S2 | constructor].
  Qed.

  (** ** the binary broadcasting closures *)

  Lemma facts_bcast : forall code (f : F -> F -> F) cs v,
      node_facts code cs v -> arity code = 2 ->
      (forall d a b, fwd_of_code O (fun s => s) code d [a; b] = element_wise_op O f a b) ->
      exists c0 c1, cs = [c0; c1] /\ wf c0 /\ wf c1 /\ dims c0 <> [] /\ dims c1 <> [] /\
                    bcompat (dims c0) (dims c1) /\ dims v = bmax (dims c0) (dims c1) /\
                    sub_lead (dims c0) (dims v) /\ sub_lead (dims c1) (dims v).
  Proof.
    intros code f cs v Hf Ha Hcode.
    destruct (facts2 code cs v Hf Ha) as (c0 & c1 & -> & Hw0 & Hw1 & Hn0 & Hn1 & Hfwd).
    rewrite Hcode in Hfwd. destruct (ew_inv f c0 c1 v Hfwd) as (Hc & Hdv & _).
    exists c0, c1. split; [reflexivity |]. do 6 (split; [assumption |]). rewrite Hdv.
    split; [apply bmax_sub_lead_l | apply bmax_sub_lead_r]; try exact Hc; [apply Hw0 | apply Hw1].
  Qed.

  Lemma total_BAdd : forall cs v flags, node_facts BAdd cs v -> closure_total BAdd cs v flags.
  Proof.
    intros cs v flags Hf x Hwx Hdx.
    destruct (facts_bcast BAdd (fadd O) cs v Hf eq_refl (fun _ _ _ => eq_refl))
      as (c0 & c1 & -> & Hw0 & Hw1 & Hn0 & Hn1 & _ & _ & Hs0 & Hs1).
    rewrite <- Hdx in Hs0, Hs1.
    eexists. split; [reflexivity |]. apply slots.
    constructor; [apply slot_if, flat_sub; assumption |].
    constructor; [apply slot_if, flat_sub; assumption | constructor].
  Qed.

  Lemma total_BMul : forall cs v flags, node_facts BMul cs v -> closure_total BMul cs v flags.
  Proof.
    intros cs v flags Hf x Hwx Hdx.
    destruct (facts_bcast BMul (fmul O) cs v Hf eq_refl (fun _ _ _ => eq_refl))
      as (c0 & c1 & -> & Hw0 & Hw1 & Hn0 & Hn1 & _ & _ & Hs0 & Hs1).
    rewrite <- Hdx in Hs0, Hs1. cbn [run_bop]. apply total2w.
    - apply (gives_below c0 x); try assumption. apply (ew_below (fmul O) c1 x Hw1 Hwx Hn1 Hs1).
    - apply (gives_below c1 x); try assumption. apply (ew_below (fmul O) c0 x Hw0 Hwx Hn0 Hs0).
  Qed.

  Lemma total_BDiv : forall cs v flags, node_facts BDiv cs v -> closure_total BDiv cs v flags.
  Proof.
    intros cs v flags Hf x Hwx Hdx.
    destruct (facts_bcast BDiv (fdiv O) cs v Hf eq_refl (fun _ _ _ => eq_refl))
      as (c0 & c1 & -> & Hw0 & Hw1 & Hn0 & Hn1 & Hc & Hdv & Hs0 & Hs1).
    rewrite <- Hdx in Hdv, Hs0, Hs1. cbn [run_bop]. apply total2w.
    - (* x / c1 *)
      apply (gives_below c0 x); try assumption. apply (ew_below (fdiv O) c1 x Hw1 Hwx Hn1 Hs1).
    - (* (-c0 / c1^2) * x, the quotient having the dimensions of x *)
      destruct (map_arr_total (fun y => fmul O y (m1 O)) c0 Hw0) as (n & Hn & Hwn & Hdn).
      destruct (map_arr_total (fun y => fpow O y (two O)) c1 Hw1) as (p & Hp & Hwp & Hdp).
      destruct (element_wise_op_spec O (fdiv O) n p Hwn Hwp) as (q & Hq & Hwq & Hdq & _);
        [congruence | congruence | rewrite Hdn, Hdp; exact Hc |].
      rewrite Hdn, Hdp, <- Hdv in Hdq.
      apply (gives_below c1 x); try assumption.
      unfold a_neg, a_scale, a_powf. rewrite Hn. cbn [obind]. rewrite Hp. cbn [obind].
      unfold a_div. rewrite Hq. apply (mul_same q x Hwq Hwx Hdq).
      rewrite Hdq. exact (sub_lead_nonempty _ _ Hs0 Hn0).
  Qed.

  (** ** the unary closures whose delta has the dimensions of the operand *)

  Lemma total_BScale : forall s cs v flags,
      node_facts (BScale s) cs v -> closure_total (BScale s) cs v flags.
  Proof.
    intros s cs v flags Hf. destruct (facts1 _ _ _ Hf eq_refl) as (c0 & -> & Hw0 & Hn0 & Hfwd).
    apply map_arr_dims in Hfwd. apply total1. intros x Hwx Hdx.
    destruct (map_arr_total (fun y => fmul O y s) x Hwx) as (r & Hr & _ & Hdr).
    exists r. split; [| congruence]. cbn [run_bop]. unfold a_scale. rewrite Hr. reflexivity.
  Qed.

  (** negation is scaling by [-1], in the forward pass and in the closure *)
  Lemma total_BNeg : forall cs v flags, node_facts BNeg cs v -> closure_total BNeg cs v flags.
  Proof. intros cs v flags. exact (total_BScale (m1 O) cs v flags). Qed.

  Lemma total_BRecip : forall cs v flags, node_facts BRecip cs v -> closure_total BRecip cs v flags.
  Proof.
    intros cs v flags Hf. destruct (facts1 _ _ _ Hf eq_refl) as (c0 & -> & Hw0 & Hn0 & Hfwd).
    apply map_arr_dims in Hfwd. apply total1. intros x Hwx Hdx.
    destruct (map_arr_total (fun y => fdiv O (f1 O) y) c0 Hw0) as (r & Hr & Hwr & Hdr).
    destruct (map_arr_total (fun y => fpow O y (two O)) r Hwr) as (p & Hp & Hwp & Hdp).
    destruct (map_arr_total (fun y => fmul O y (m1 O)) p Hwp) as (n & Hn & Hwn & Hdn).
    destruct (mul_same n x Hwn Hwx) as (d & Hd & _ & Hdd); [congruence | congruence |].
    exists d. split; [| congruence].
    cbn [run_bop]. unfold a_reciprocal, a_powf, a_neg, a_scale.
    rewrite Hr. cbn [obind]. rewrite Hp. cbn [obind]. rewrite Hn. cbn [obind]. rewrite Hd. reflexivity.
  Qed.

  Lemma total_BPowf : forall e cs v flags,
      node_facts (BPowf e) cs v -> closure_total (BPowf e) cs v flags.
  Proof.
    intros e cs v flags Hf. destruct (facts1 _ _ _ Hf eq_refl) as (c0 & -> & Hw0 & Hn0 & Hfwd).
    apply map_arr_dims in Hfwd. apply total1. intros x Hwx Hdx.
    destruct (map_arr_total (fun y => fpow O y (fsub O e (f1 O))) c0 Hw0) as (p & Hp & Hwp & Hdp).
    destruct (map_arr_total (fun y => fmul O y e) p Hwp) as (s & Hs & Hws & Hds).
    destruct (mul_same s x Hws Hwx) as (d & Hd & _ & Hdd); [congruence | congruence |].
    exists d. split; [| congruence].
    cbn [run_bop]. unfold a_powf, a_scale.
    rewrite Hp. cbn [obind]. rewrite Hs. cbn [obind]. rewrite Hd. reflexivity.
  Qed.

  Lemma total_BLn : forall cs v flags, node_facts BLn cs v -> closure_total BLn cs v flags.
  Proof.
    intros cs v flags Hf. destruct (facts1 _ _ _ Hf eq_refl) as (c0 & -> & Hw0 & Hn0 & Hfwd).
    apply map_arr_dims in Hfwd. apply total1. intros x Hwx Hdx.
    destruct (map_arr_total (fun y => fdiv O (f1 O) y) c0 Hw0) as (r & Hr & Hwr & Hdr).
    destruct (mul_same x r Hwx Hwr) as (d & Hd & _ & Hdd); [congruence | congruence |].
    exists d. split; [| congruence].
    cbn [run_bop]. unfold a_reciprocal. rewrite Hr. cbn [obind]. rewrite Hd. reflexivity.
  Qed.

  Lemma total_BRelu : forall cs v flags, node_facts BRelu cs v -> closure_total BRelu cs v flags.
  Proof.
    intros cs v flags Hf. destruct (facts1 _ _ _ Hf eq_refl) as (c0 & -> & Hw0 & Hn0 & Hfwd).
    apply map_arr_dims in Hfwd. apply total1. intros x Hwx Hdx.
    destruct (map_arr_total (fun y => if fgt0 O y then f1 O else f0 O) c0 Hw0)
      as (der & Hder & Hwder & Hdder).
    destruct (mul_same der x Hwder Hwx) as (d & Hd & _ & Hdd); [congruence | congruence |].
    exists d. split; [| congruence].
    cbn [run_bop]. rewrite Hder. cbn [obind]. rewrite Hd. reflexivity.
  Qed.

  (** [exp] and [sigmoid] multiply the values of the delta with cached values of the result *)
  Lemma mk_mul_values : forall (c : arr F) (xs ys : list F),
      wf c -> length xs = length (vals c) -> length ys = length (vals c) ->
      mk (dims c) (mul_values O xs ys) = Some {| dims := dims c; vals := mul_values O xs ys |}.
  Proof.
    intros c xs ys Hc Hx Hy. apply mk_same; [exact Hc |].
    unfold mul_values. rewrite map_length, combine_length, Hx, Hy. apply Nat.min_id.
  Qed.

  Lemma total_BExp : forall cached cs v flags,
      node_facts (BExp cached) cs v -> closure_total (BExp cached) cs v flags.
  Proof.
    intros cached cs v flags Hf. destruct (facts1 _ _ _ Hf eq_refl) as (c0 & -> & Hw0 & _ & Hfwd).
    apply map_arr_dims in Hfwd. destruct Hf as (_ & _ & _ & Hwv & _ & Hfit & _).
    cbn [code_fits] in Hfit. subst cached.
    apply total1. intros x Hwx Hdx. cbn [run_bop]. rewrite (mk_mul_values c0 _ _ Hw0).
    - eexists. split; reflexivity.
    - apply wf_same_length; congruence.
    - apply wf_same_length; assumption.
  Qed.

  Lemma total_BSigmoid : forall cached cs v flags,
      node_facts (BSigmoid cached) cs v -> closure_total (BSigmoid cached) cs v flags.
  Proof.
    intros cached cs v flags Hf. destruct (facts1 _ _ _ Hf eq_refl) as (c0 & -> & Hw0 & _ & Hfwd).
    apply map_arr_dims in Hfwd. destruct Hf as (_ & _ & _ & Hwv & _ & Hfit & _).
    cbn [code_fits] in Hfit. subst cached.
    apply total1. intros x Hwx Hdx. cbn [run_bop]. rewrite (mk_mul_values c0 _ _ Hw0).
    - eexists. split; reflexivity.
    - rewrite map_length. apply wf_same_length; assumption.
    - apply wf_same_length; congruence.
  Qed.

  Lemma total_BReshape : forall cs v flags,
      node_facts BReshape cs v -> closure_total BReshape cs v flags.
  Proof.
    intros cs v flags Hf. destruct (facts1 _ _ _ Hf eq_refl) as (c0 & -> & Hw0 & _ & Hfwd).
    apply a_reshape_spec in Hfwd. destruct Hfwd as (_ & Hprod & _).
    intros x (_ & Hlx) Hdx. cbn [run_bop]. apply total1w.
    apply gives_same. eexists. split; [apply (mk_same c0 _ Hw0); congruence | reflexivity].
  Qed.

  (** ** the user operations of the harness (on equal dimensions) *)

  Lemma zip_inv : forall (f : F -> F -> F) (a b v : arr F),
      zip_vals f a b = Some v -> dims v = dims a.
  Proof.
    intros f a b v H. unfold zip_vals in H. apply mk_some in H. destruct H as (_ & _ & ->). reflexivity.
  Qed.

  Lemma zip_total : forall (f : F -> F -> F) (a b : arr F),
      wf a -> wf b -> dims b = dims a ->
      exists r, zip_vals f a b = Some r /\ dims r = dims a.
  Proof.
    intros f a b Ha Hb E. eexists. split.
    - apply (mk_same a _ Ha).
      rewrite map_length, combine_length, (wf_same_length b a Hb Ha E). apply Nat.min_id.
    - reflexivity.
  Qed.

  Lemma total_BCustom : forall cu cs v flags,
      node_facts (BCustom cu) cs v -> closure_total (BCustom cu) cs v flags.
  Proof.
    intros cu cs v flags Hf x Hwx Hdx. destruct cu.
    - (* CMul *)
      destruct (facts2 _ _ _ Hf eq_refl) as (c0 & c1 & -> & Hw0 & Hw1 & _ & _ & Hfwd).
      apply zip_inv in Hfwd. destruct Hf as (_ & _ & _ & _ & _ & _ & Hside & _).
      cbn [closure_side nth] in Hside.
      cbn [run_bop]. apply total2w.
      + apply gives_same. rewrite Hside. apply (zip_total (fmul O) c1 x Hw1 Hwx). congruence.
      + apply gives_same. rewrite <- Hside. apply (zip_total (fmul O) c0 x Hw0 Hwx). congruence.
    - (* CAff *)
      destruct (facts2 _ _ _ Hf eq_refl) as (c0 & c1 & -> & Hw0 & Hw1 & _ & _ & Hfwd).
      apply zip_inv in Hfwd. destruct Hf as (_ & _ & _ & _ & _ & _ & Hside & _).
      cbn [closure_side nth] in Hside.
      destruct (map_arr_total (fun y => fmul O y (two O)) x Hwx) as (r & Hr & _ & Hdr).
      cbn [run_bop].
      destruct (when_gives (flag flags 1) c1 (a_scale O (two O) x)) as (o1 & -> & S1).
      { apply gives_same. exists r. split; [exact Hr | congruence]. }
      eexists. split; [reflexivity |]. apply slots.
      constructor; [apply slot_if, flat_same; congruence |]. constructor; [exact S1 | constructor].
    - (* CSq *)
      destruct (facts1 _ _ _ Hf eq_refl) as (c0 & -> & Hw0 & _ & Hfwd). apply zip_inv in Hfwd.
      destruct (map_arr_total (fun y => fmul O y (two O)) c0 Hw0) as (s & Hs & Hws & Hds).
      destruct (zip_total (fmul O) s x Hws Hwx) as (r & Hr & Hdr); [congruence |].
      cbn [run_bop]. apply total1w, gives_same. exists r. split; [| congruence].
      unfold a_scale. rewrite Hs. exact Hr.
  Qed.

  (** ** [sum(k)], [1 <= k <= rank] *)

  Lemma total_BSum : forall k target cs v flags,
      node_facts (BSum k target) cs v -> closure_total (BSum k target) cs v flags.
  Proof.
    intros k target cs v flags Hf. destruct (facts1 _ _ _ Hf eq_refl) as (c0 & -> & Hw0 & _ & Hfwd).
    destruct Hf as (_ & _ & _ & _ & _ & (Hk0 & ->) & Hk & _). cbn [closure_side nth] in Hk. cbn [nth].
    cbn [fwd_of_code] in Hfwd. rewrite (a_sum_closed O k c0 Hw0) in Hfwd by lia. injection Hfwd as <-.
    apply total1. intros x Hwx Hdx. unfold sum_result in Hdx. cbn [dims] in Hdx. unfold sum_target.
    set (lead := firstn (length (dims c0) - k) (dims c0)) in *.
    set (trail := skipn (length (dims c0) - k) (dims c0)).
    assert (E0 : dims c0 = lead ++ trail) by (symmetry; apply firstn_skipn).
    pose proof (proj1 Hw0) as Hp0. rewrite E0 in Hp0. apply Forall_app in Hp0. destruct Hp0 as (Hpl & Hpt).
    (* the delta with [k] dimensions 1 in place of the last one; each of its blocks is a
       single value, which fills a block of the result *)
    set (x' := {| dims := lead ++ repeat 1 k; vals := vals x |}).
    assert (Hx' : a_reshape (lead ++ repeat 1 k) x = Some x').
    { apply a_reshape_spec. split; [| split; [| reflexivity]].
      - apply Forall_app. split; [exact Hpl |]. apply Forall_forall.
        intros y Hy. apply repeat_spec in Hy. lia.
      - rewrite prod_app, prod_repeat_1, <- (proj2 Hwx), Hdx, prod_app. reflexivity. }
    destruct (a_reshape_wf _ _ _ Hx') as (Hwx' & _).
    destruct (sliced_single_total O x' (fill_sop (F:=F)) lead (repeat 1 k) trail Hwx' eq_refl Hpt)
      as (u & Hu & Hdu).
    - intros s Hs. rewrite prod_repeat_1 in Hs. destruct s as [|y [|? ?]]; try discriminate Hs.
      eexists. split; [reflexivity |]. rewrite map_length. apply repeat_length.
    - rewrite repeat_length, <- E0 in Hu.
      exists u. split; [| congruence]. cbn [run_bop]. rewrite Hx'. cbn [obind]. rewrite Hu. reflexivity.
  Qed.

  (** ** matrix product *)

  (** a product whose dimensions lie over those of [c] (the leading ones by broadcasting) *)
  Lemma matmul_flat : forall (a b c : arr F) ta tb la ar ac lb br bc lc r q,
      wf a -> wf b -> wf c -> dims c <> [] ->
      dims a = la ++ [ar; ac] -> dims b = lb ++ [br; bc] ->
      mm_inner_a ta ar ac = mm_inner_b tb br bc -> bcompat la lb ->
      sub_lead lc (bmax la lb) ->
      dims c = lc ++ [r; q] -> r = mm_rows ta ar ac -> q = mm_cols tb br bc ->
      gives c (a_matmul O a ta b tb None).
  Proof.
    intros a b c ta tb la ar ac lb br bc lc r q Ha Hb Hc Hnc Ea Eb Hin Hcomp Hsub Ec -> ->.
    destruct (matmul_spec_nobias O a ta b tb la ar ac lb br bc Ha Hb Ea Eb Hin Hcomp)
      as (p & Hp & Hwp & Hdp & _).
    exists p. split; [exact Hp |]. apply flat_sub; try assumption.
    rewrite Hdp, Ec. apply sub_lead_app. exact Hsub.
  Qed.

  Lemma wf_snoc2_lead : forall (a : arr F) l x y,
      wf a -> dims a = l ++ [x; y] -> Forall (fun v => 1 <= v) l.
  Proof.
    intros a l x y (Hp & _) E. rewrite E in Hp. apply Forall_app in Hp. tauto.
  Qed.

  (** With [v = op(c0) op(c1)] of dimensions [L ++ [R; C]], each delta is a product of
      [delta] and the other operand; which one is transposed depends on the flags, and the
      inner dimensions agree because those of the forward product did. *)
  Lemma matmul_rank2_slots : forall ta tb (c0 c1 v delta : arr F) cb,
      wf c0 -> wf c1 -> wf delta -> dims c0 <> [] -> dims c1 <> [] ->
      2 <= length (dims c0) -> 2 <= length (dims c1) ->
      a_matmul O c0 ta c1 tb cb = Some v -> dims delta = dims v ->
      gives c0 (if ta then a_matmul O c1 tb delta true None
                else a_matmul O delta false c1 (negb tb) None) /\
      gives c1 (if tb then a_matmul O delta true c0 ta None
                else a_matmul O c0 (negb ta) delta false None).
  Proof.
    intros ta tb c0 c1 v delta cb Hw0 Hw1 Hwd Hn0 Hn1 Hr0 Hr1 Hfw Hdd.
    destruct (snoc2_of_rank _ Hr0) as (la & ar & ac & Ea).
    destruct (snoc2_of_rank _ Hr1) as (lb & br & bc & Eb).
    destruct (matmul_fwd_inv O c0 ta c1 tb cb v la ar ac lb br bc Ea Eb Hfw) as (Hin & Hc & Hdv).
    rewrite Hdv in Hdd. set (L := bmax la lb) in *.
    pose proof (wf_snoc2_lead c0 la ar ac Hw0 Ea) as Hpla.
    pose proof (wf_snoc2_lead c1 lb br bc Hw1 Eb) as Hplb.
    assert (HpL : Forall (fun x => 1 <= x) L) by (apply bmax_pos; assumption).
    assert (HsubA : sub_lead la L) by (apply bmax_sub_lead_l; assumption).
    assert (HsubB : sub_lead lb L) by (apply bmax_sub_lead_r; assumption).
    destruct (sub_lead_bmax la L HpL HsubA) as (HcA & HmA).
    destruct (sub_lead_bmax lb L HpL HsubB) as (HcB & HmB).
    split.
    - destruct ta.
      + apply (matmul_flat c1 delta c0 tb true lb br bc L _ _ la ar ac Hw1 Hwd Hw0 Hn0 Eb Hdd
                           eq_refl HcB); [rewrite HmB; exact HsubA | exact Ea | exact Hin | reflexivity].
      + apply (matmul_flat delta c1 c0 false (negb tb) L _ _ lb br bc la ar ac Hwd Hw1 Hw0 Hn0 Hdd Eb).
        * destruct tb; reflexivity.
        * apply bcompat_sym. exact HcB.
        * rewrite bmax_sym, HmB. exact HsubA.
        * exact Ea.
        * reflexivity.
        * destruct tb; exact Hin.
    - destruct tb.
      + apply (matmul_flat delta c0 c1 true ta L _ _ la ar ac lb br bc Hwd Hw0 Hw1 Hn1 Hdd Ea eq_refl).
        * apply bcompat_sym. exact HcA.
        * rewrite bmax_sym, HmA. exact HsubB.
        * exact Eb.
        * reflexivity.
        * symmetry. exact Hin.
      + apply (matmul_flat c0 delta c1 (negb ta) false la ar ac L _ _ lb br bc Hw0 Hwd Hw1 Hn1 Ea Hdd).
        * destruct ta; reflexivity.
        * exact HcA.
        * rewrite HmA. exact HsubB.
        * exact Eb.
        * destruct ta; symmetry; exact Hin.
        * reflexivity.
  Qed.

  (** the dot product of two vectors (the branch of defect D13): [delta] has dimensions
      [[1]] and scales each operand *)
  Lemma matmul_dot_slots : forall (c0 c1 v delta : arr F) cb,
      wf c0 -> wf c1 -> wf delta ->
      length (dims c0) = 1 -> length (dims c1) = 1 ->
      a_matmul O c0 false c1 false cb = Some v -> dims delta = dims v ->
      gives c0 (a_mul O c1 delta) /\ gives c1 (a_mul O c0 delta).
  Proof.
    intros c0 c1 v delta cb Hw0 Hw1 Hwd H0 H1 Hfw Hdd.
    destruct (a_matmul_dims O c0 false c1 false cb v Hfw) as (shp & Hshp & Hdv).
    destruct (dims c0) as [|n [|? ?]] eqn:E0; try discriminate H0.
    destruct (dims c1) as [|m [|? ?]] eqn:E1; try discriminate H1.
    rewrite matmul_dims_dot in Hshp.
    destruct (n =? m) eqn:Hnm; [| discriminate Hshp]. apply Nat.eqb_eq in Hnm. subst m.
    injection Hshp as <-. cbn [ms_out] in Hdv. rewrite Hdv in Hdd.
    assert (G : forall c c' : arr F, wf c -> dims c = [n] -> dims c' = [n] ->
                                     gives c' (a_mul O c delta)).
    { intros c c' Hwc Ec Ec'. apply gives_same.
      destruct (ew_below (fmul O) delta c Hwd Hwc) as (_ & r & Hr & _ & Hdr).
      - rewrite Hdd. discriminate.
      - rewrite Hdd, Ec. split; [apply le_n | repeat constructor].
      - exists r. split; [exact Hr | congruence]. }
    split; [exact (G c1 c0 Hw1 E1 E0) | exact (G c0 c1 Hw0 E0 E1)].
  Qed.

  Lemma facts_matmul : forall ta tb cs v,
      node_facts (BMatmul ta tb) cs v ->
      exists c0 c1 c2 cb, cs = [c0; c1; c2] /\ sub_lead (dims c2) (dims v) /\
                          a_matmul O c0 ta c1 tb cb = Some v.
  Proof.
    intros ta tb cs v (Hlen & _ & _ & _ & _ & _ & (_ & Hsub2) & Hfwd).
    destruct cs as [|c0 [|c1 [|c2 [|? ?]]]]; try discriminate Hlen.
    exists c0, c1, c2. destruct Hfwd as [H | (_ & H)]; [cbn [fwd_of_code] in H |]; eauto.
  Qed.

  Lemma total_BMatmul : forall ta tb cs v flags,
      node_facts (BMatmul ta tb) cs v -> closure_total (BMatmul ta tb) cs v flags.
  Proof.
    intros ta tb cs v flags Hf delta Hwd Hdd.
    destruct (facts_matmul ta tb cs v Hf) as (c0 & c1 & c2 & cb & -> & Hsub2 & Hfw).
    destruct (facts_child _ _ _ c0 Hf) as (Hw0 & Hn0); [simpl; tauto |].
    destruct (facts_child _ _ _ c1 Hf) as (Hw1 & Hn1); [simpl; tauto |].
    destruct (facts_child _ _ _ c2 Hf) as (Hw2 & Hn2); [simpl; tauto |].
    destruct Hf as (_ & _ & _ & _ & _ & _ & (Hrank & _) & _). cbn [nth] in Hrank.
    assert (S2 : slot_ok c2 (if flag flags 2 then Some delta else None)).
    { apply slot_if, flat_sub; try assumption. rewrite Hdd. exact Hsub2. }
    cbn [run_bop]. cbv zeta.
    destruct Hrank as [(H0 & H1) | (H0 & H1 & -> & ->)].
    - rewrite (proj2 (Nat.ltb_ge _ _) H0). cbn [andb].
      destruct (matmul_rank2_slots ta tb c0 c1 v delta cb) as (G0 & G1); try assumption.
      apply total3w; assumption.
    - rewrite H0, H1. cbn [Nat.ltb Nat.leb andb negb].
      destruct (matmul_dot_slots c0 c1 v delta cb) as (G0 & G1); try assumption.
      apply total3w; assumption.
  Qed.

  (** ** convolution: expanding and rolling *)

  Lemma total_BExpand : forall fcount stride cs v flags,
      node_facts (BExpand fcount stride) cs v -> closure_total (BExpand fcount stride) cs v flags.
  Proof.
    intros fcount stride cs v flags Hf.
    destruct (facts1 _ _ _ Hf eq_refl) as (c0 & -> & Hw0 & _ & Hfwd).
    destruct Hf as (_ & _ & _ & Hwv & _ & (Hfc & Hst) & _). cbn [nth] in Hfc.
    cbn [fwd_of_code] in Hfwd. unfold expand_conv in Hfwd. cbv zeta in Hfwd.
    rewrite Hfc, <- Hst in Hfwd. cbn [obind] in Hfwd.
    revert Hfwd. apply obind_elim. intros u1 Hu1 Hfwd.
    revert Hfwd. apply obind_elim. intros vs Hvs Hfwd.
    revert Hfwd. apply obind_elim. intros u2 Hu2 Hfwd.
    apply mk_some in Hfwd. destruct Hfwd as (_ & _ & Hv).
    apply guard_some, Nat.leb_le in Hu2.
    pose proof (mapM_length _ _ _ Hvs) as Hlvs. rewrite seq_length in Hlvs.
    set (n := length (vals c0)) in *. set (il := stride * fcount) in *.
    set (m := (n + il - 1) / il * il) in *.
    pose proof (proj2 Hw0) as Hn. fold n in Hn.
    assert (Hlv : length (vals v) = n).
    { rewrite Hv. cbn [vals]. rewrite app_length, repeat_length. lia. }
    apply total1. intros delta (_ & Hld) Hdd. rewrite Hdd, (proj2 Hwv), Hlv in Hld.
    (* the forward pass read [vals c0] at every [expand_index di] *)
    destruct (fold_total (fun out di => x <- nth_error (vals delta) di ;;
                                        set_nth (expand_index fcount stride di) x out)
                         (fun out => length out = n) (seq 0 m)
                         (repeat (f0 O) n)) as (r & Hr & Hlr).
    - apply repeat_length.
    - intros out di Hdi Hlo. apply in_seq in Hdi. destruct Hdi as (_ & Hdi). cbn [Nat.add] in Hdi.
      destruct (mapM_nth_error _ _ vs di di Hvs) as (y & Hy & _).
      { rewrite nth_error_nth' with (d := 0) by (rewrite seq_length; exact Hdi).
        rewrite seq_nth by exact Hdi. reflexivity. }
      assert (Hei : expand_index fcount stride di < length out).
      { rewrite Hlo. apply nth_error_Some. rewrite Hy. discriminate. }
      assert (Hdx : nth_error (vals delta) di <> None).
      { apply nth_error_Some. rewrite <- Hld. apply Nat.lt_le_trans with m; [exact Hdi |].
        rewrite <- Hlvs. exact Hu2. }
      destruct (nth_error (vals delta) di) as [x|]; [| congruence].
      destruct (set_nth_total _ x out Hei) as (out' & Ho' & Hl').
      exists out'. split; [exact Ho' | congruence].
    - cbn [run_bop]. cbv zeta. rewrite Hn. fold il m. rewrite Hu1. cbn [obind]. rewrite Hr. cbn [obind].
      rewrite (mk_same c0 r Hw0 Hlr). eexists. split; reflexivity.
  Qed.

  Lemma total_BUnroll : forall depth rows cols sr sc0 fr fc cs v flags,
      node_facts (BUnroll depth rows cols sr sc0 fr fc) cs v ->
      closure_total (BUnroll depth rows cols sr sc0 fr fc) cs v flags.
  Proof.
    intros depth rows cols sr sc0 fr fc cs v flags Hf.
    destruct (facts1 _ _ _ Hf eq_refl) as (c0 & -> & Hw0 & _ & Hfwd).
    destruct Hf as (_ & _ & _ & Hwv & _ & (Hd3 & Hd2 & Hd1) & _). cbn [nth] in Hd3, Hd2, Hd1.
    pose proof (dims_last3 (dims c0) depth rows cols Hd3 Hd2 Hd1) as E0.
    set (lead := firstn (length (dims c0) - 3) (dims c0)) in *.
    (* the forward pass succeeded, so the strides and the filter fit the image *)
    cbn [fwd_of_code] in Hfwd. unfold unroll_blocks in Hfwd. cbv zeta in Hfwd.
    rewrite Hd3, Hd2, Hd1 in Hfwd. cbn [obind] in Hfwd.
    revert Hfwd. apply obind_elim. intros rcount Hrc Hfwd.
    revert Hfwd. apply obind_elim. intros ccount Hcc Hfwd.
    apply stride_count_inv in Hrc. destruct Hrc as (Hfr & Hsr & ->).
    apply stride_count_inv in Hcc. destruct Hcc as (Hfc & Hsc & ->).
    apply (sliced_op_dims O) in Hfwd. fold lead in Hfwd.
    destruct Hw0 as (Hp0 & _). rewrite E0 in Hp0. apply Forall_app in Hp0. destruct Hp0 as (_ & Hp3).
    inversion_clear Hp3 as [|? ? Hdep Hp2]. inversion_clear Hp2 as [|? ? Hrows Hp1].
    apply Forall_inv in Hp1.
    destruct Hwv as (Hpv & _). rewrite Hfwd in Hpv. apply Forall_app in Hpv. destruct Hpv as (_ & Hpv).
    apply Forall_inv_tail, Forall_inv in Hpv.
    assert (Hfr1 : 1 <= fr) by (clear - Hpv; nia). assert (Hfc1 : 1 <= fc) by (clear - Hpv; nia).
    intros delta Hwd Hdd. rewrite Hfwd in Hdd.
    destruct (roll_blocks_total O true delta lead depth rows cols sr sc0 fr fc) as (r & Hr & Hdr);
      try assumption.
    cbn [run_bop]. apply total1w, gives_same. exists r. split; [exact Hr | congruence].
  Qed.

  (** * The proved set *)

  Definition total_proved (code : bop_code F) : bool := true.

  Theorem closure_total_proved : forall code cs v flags,
      total_proved code = true -> node_facts code cs v -> closure_total code cs v flags.
  Proof.
    intros code cs v flags H Hf. destruct code; try discriminate H.
    - apply total_BAdd; exact Hf.
    - apply total_BMul; exact Hf.
    - apply total_BDiv; exact Hf.
    - apply total_BNeg; exact Hf.
    - apply total_BScale; exact Hf.
    - apply total_BRecip; exact Hf.
    - apply total_BPowf; exact Hf.
    - apply total_BLn; exact Hf.
    - apply total_BExp; exact Hf.
    - apply total_BSum; exact Hf.
    - apply total_BReshape; exact Hf.
    - apply total_BMatmul; exact Hf.
    - apply total_BUnroll; exact Hf.
    - apply total_BExpand; exact Hf.
    - apply total_BRelu; exact Hf.
    - apply total_BSigmoid; exact Hf.
    - apply total_BCustom; exact Hf.
  Qed.

  (** * From the history invariants to the facts about one node *)

  Lemma node_facts_of_good : forall (g : list gnode) id nd code,
      store_good g -> nonscalar g -> value_consistent O g ->
      nth_error g id = Some nd -> p_bop (n_pay nd) = Some code ->
      closure_side code (cvals g (n_children nd)) (pay_arr (n_pay nd)) ->
      node_facts code (cvals g (n_children nd)) (pay_arr (n_pay nd)).
  Proof.
    intros g id nd code Hg Hns Hvc Hnd Hcode Hside.
    destruct (Hg id nd Hnd) as (Hlt & Hok & _ & _ & Hw & _).
    pose proof (Hvc id nd Hnd) as Hv. unfold node_vc in Hv. rewrite Hcode in Hv. cbv zeta in Hv.
    destruct Hv as (Hfit & Hfwd).
    unfold node_ok, node_ok' in Hok. rewrite Hcode in Hok. destruct Hok as (Hlen & _).
    (* the children are nodes of the store *)
    assert (Hch : forall a, In a (cvals g (n_children nd)) ->
               exists i c, nth_error g i = Some c /\ a = pay_arr (n_pay c)).
    { intros a Ha. apply in_map_iff in Ha. destruct Ha as (e & <- & He). specialize (Hlt e He).
      assert (Hid : id < length g) by (eapply nth_lt; exact Hnd).
      unfold nval. unfold Program.gnode in *.
      destruct (nth_error g (e_node e)) as [c|] eqn:Hc; [eauto | apply nth_error_None in Hc; lia]. }
    split; [unfold cvals; rewrite map_length; exact Hlen |].
    split.
    { apply Forall_forall. intros a Ha. destruct (Hch a Ha) as (i & c & Hc & ->).
      destruct (Hg i c Hc) as (_ & _ & _ & _ & Hwc & _). exact Hwc. }
    split.
    { apply Forall_forall. intros a Ha. destruct (Hch a Ha) as (i & c & Hc & ->). apply (Hns i c Hc). }
    split; [exact Hw |]. split; [apply (Hns id nd Hnd) |].
    split; [exact Hfit |]. split; [exact Hside | exact Hfwd].
  Qed.

  (** every closure of the graph is in the proved set and within its side condition *)
  Definition graph_total_proved (g : list gnode) : Prop :=
    forall id nd code, nth_error g id = Some nd -> p_bop (n_pay nd) = Some code ->
      total_proved code = true /\
      closure_side code (cvals g (n_children nd)) (pay_arr (n_pay nd)).

  (** a backward pass with a well-shaped seed on a graph built through the public
      operations (sound, value-consistent, without rank-0 arrays) never panics *)
  Theorem backward_total_proved : forall (g : list gnode) r keep seed,
      store_good g -> value_consistent O g -> nonscalar g -> graph_total_proved g ->
      r < length g ->
      (forall sd nd, seed = Some sd -> nth_error g r = Some nd -> grad_ok (n_pay nd) sd) ->
      run_backward E g r keep seed <> None.
  Proof.
    intros g r keep seed Hg Hvc Hns Hgp Hr Hseed.
    apply backward_total_gen; try assumption.
    intros id nd code Hnd Hcode. destruct (Hgp id nd code Hnd Hcode) as (Htp & Hside).
    apply closure_total_proved; [exact Htp |].
    apply (node_facts_of_good g id nd code); assumption.
  Qed.
End Concrete.

Print Assumptions guarded_total.
Print Assumptions backward_total_gen.
Print Assumptions closure_total_proved.
Print Assumptions backward_total_proved.
