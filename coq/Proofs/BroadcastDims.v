(** [element_wise_dimensions] decides right-aligned broadcast compatibility and
    computes the pairwise maximum (first half of C04). *)

From Coq Require Import List Arith Bool Lia.
From Corgi Require Import Lib.OptionMonad Lib.ListFacts Model.Scalar Model.Arr Proofs.ArrFacts.
Import ListNotations.

(** specification, on reversed (last dimension first) lists *)
Fixpoint bcompat_rev (x y : list nat) : Prop :=
  match x, y with
  | a :: x', b :: y' => (a = b \/ a = 1 \/ b = 1) /\ bcompat_rev x' y'
  | _, _ => True
  end.

Fixpoint bmax_rev (x y : list nat) : list nat :=
  match x, y with
  | a :: x', b :: y' => Nat.max a b :: bmax_rev x' y'
  | [], _ => y
  | _, [] => x
  end.

(** dimensions aligned from the last one are pairwise equal or 1 *)
Definition bcompat (x y : list nat) : Prop := bcompat_rev (rev x) (rev y).

(** the pairwise maximum, aligned from the last dimension *)
Definition bmax (x y : list nat) : list nat := rev (bmax_rev (rev x) (rev y)).

Lemma bcompat_rev_sym : forall x y, bcompat_rev x y <-> bcompat_rev y x.
Proof.
  induction x as [|a x IH]; intros [|b y]; simpl; try tauto.
  rewrite (IH y). intuition.
Qed.

Lemma bmax_rev_sym : forall x y, bmax_rev x y = bmax_rev y x.
Proof.
  induction x as [|a x IH]; intros [|b y]; simpl; try reflexivity.
  rewrite (IH y), Nat.max_comm. reflexivity.
Qed.

Lemma ewd_check_spec : forall a b,
    (a =? b) || (a =? 1) || (b =? 1) = true <-> a = b \/ a = 1 \/ b = 1.
Proof. intros a b. rewrite !orb_true_iff, !Nat.eqb_eq. tauto. Qed.

Lemma ewd_rev_spec : forall l o r,
    length o <= length l ->
    (ewd_rev l o = Some r <-> (bcompat_rev l o /\ r = bmax_rev l o)).
Proof.
  induction l as [|a l IH]; intros [|b o] r Hlen; simpl in *; try lia.
  - split; [intros H; inversion H; auto|intros [_ ->]; reflexivity].
  - split; [intros H; inversion H; auto|intros [_ ->]; reflexivity].
  - rewrite obind_some. split.
    + intros ([] & Hg & H). apply guard_some_iff, ewd_check_spec in Hg.
      revert H. apply obind_elim. intros r' Hr E.
      apply IH in Hr; [|lia]. destruct Hr as [Hb ->]. inversion E. auto.
    + intros [[Hc Hb] ->]. exists tt. split; [apply guard_some_iff, ewd_check_spec; exact Hc|].
      rewrite (proj2 (IH o _ ltac:(lia)) (conj Hb eq_refl)). reflexivity.
Qed.

Theorem element_wise_dimensions_spec : forall x y d,
    element_wise_dimensions x y = Some d <-> (bcompat x y /\ d = bmax x y).
Proof.
  assert (H : forall x y d, length y <= length x ->
                            ((r <- ewd_rev (rev x) (rev y) ;; Some (rev r)) = Some d
                             <-> bcompat x y /\ d = bmax x y)).
  { intros x y d Hl. unfold bcompat, bmax. rewrite obind_some. split.
    - intros (r & Hr & E). apply ewd_rev_spec in Hr; [|rewrite !rev_length; exact Hl].
      destruct Hr as [Hb ->]. inversion E. auto.
    - intros [Hb ->]. exists (bmax_rev (rev x) (rev y)). split; [|reflexivity].
      apply ewd_rev_spec; [rewrite !rev_length; exact Hl|auto]. }
  intros x y d. unfold element_wise_dimensions.
  destruct (length y <? length x) eqn:E.
  - apply Nat.ltb_lt in E. apply H. lia.
  - apply Nat.ltb_ge in E. unfold bcompat, bmax.
    rewrite (bcompat_rev_sym (rev x) (rev y)), (bmax_rev_sym (rev x) (rev y)). apply H. exact E.
Qed.

Corollary element_wise_dimensions_refuses : forall x y,
    element_wise_dimensions x y = None <-> ~ bcompat x y.
Proof.
  intros x y. destruct (element_wise_dimensions x y) as [d|] eqn:E.
  - apply element_wise_dimensions_spec in E. destruct E as [H _].
    split; [discriminate|]. intros Hn. contradiction.
  - split; [|reflexivity]. intros _ Hb.
    assert (element_wise_dimensions x y = Some (bmax x y))
      by (apply element_wise_dimensions_spec; auto).
    congruence.
Qed.

Lemma bmax_sym : forall x y, bmax x y = bmax y x.
Proof. intros. unfold bmax. rewrite bmax_rev_sym. reflexivity. Qed.

Lemma bcompat_sym : forall x y, bcompat x y <-> bcompat y x.
Proof. intros. unfold bcompat. apply bcompat_rev_sym. Qed.

Lemma bmax_snoc : forall x a y b, bmax (x ++ [a]) (y ++ [b]) = bmax x y ++ [Nat.max a b].
Proof. intros. unfold bmax. rewrite !rev_app_distr. reflexivity. Qed.

Lemma bcompat_snoc : forall x a y b,
    bcompat (x ++ [a]) (y ++ [b]) <-> (a = b \/ a = 1 \/ b = 1) /\ bcompat x y.
Proof. intros. unfold bcompat. rewrite !rev_app_distr. reflexivity. Qed.

Lemma bcompat_rev_refl_1 : forall x : list nat, bcompat_rev x x.
Proof. induction x as [|a x IH]; simpl; auto. Qed.

Lemma bmax_rev_idem : forall x : list nat, bmax_rev x x = x.
Proof. induction x as [|a x IH]; simpl; [reflexivity|]. rewrite IH, Nat.max_id. reflexivity. Qed.

Lemma bcompat_refl : forall x, bcompat x x.
Proof. intros. apply bcompat_rev_refl_1. Qed.

Lemma bmax_idem : forall x, bmax x x = x.
Proof. intros. unfold bmax. rewrite bmax_rev_idem. apply rev_involutive. Qed.

Lemma bmax_nil_l : forall y, bmax [] y = y.
Proof. intros y. unfold bmax. cbn [rev bmax_rev]. apply rev_involutive. Qed.

Lemma bmax_nil_r : forall x, bmax x [] = x.
Proof. intros x. rewrite bmax_sym. apply bmax_nil_l. Qed.

Lemma ewd_nil_l : forall y, element_wise_dimensions [] y = Some y.
Proof.
  intros y. apply element_wise_dimensions_spec. split; [exact I|]. symmetry. apply bmax_nil_l.
Qed.

Lemma ewd_nil_r : forall x, element_wise_dimensions x [] = Some x.
Proof.
  intros x. apply element_wise_dimensions_spec. split.
  - apply bcompat_sym. exact I.
  - symmetry. apply bmax_nil_r.
Qed.

Lemma bmax_rev_pos : forall x y,
    Forall (fun v => 1 <= v) x -> Forall (fun v => 1 <= v) y ->
    Forall (fun v => 1 <= v) (bmax_rev x y).
Proof.
  induction x as [|a x IH]; intros [|b y] Hx Hy; simpl; try assumption.
  inversion Hx; subst. inversion Hy; subst. constructor; [lia|]. apply IH; assumption.
Qed.

Lemma bmax_pos : forall x y,
    Forall (fun v => 1 <= v) x -> Forall (fun v => 1 <= v) y ->
    Forall (fun v => 1 <= v) (bmax x y).
Proof.
  intros x y Hx Hy. unfold bmax. apply Forall_rev. apply bmax_rev_pos; apply Forall_rev; assumption.
Qed.
