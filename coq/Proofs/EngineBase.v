(** Basic facts used by the engine proofs: option monad inversion, [put],
    functional views of a store, weighted sums over node ids, occurrence counts. *)

From Coq Require Import List Arith Bool Lia PeanoNat.
From Corgi Require Export Lib.ListFacts.
From Corgi Require Import Lib.OptionMonad Model.Engine Proofs.EngineDefs.
Import ListNotations.

Lemma obind_eq : forall {A B} (x : option A) (f : A -> option B) a,
    x = Some a -> obind x f = f a.
Proof. intros A B x f a H. rewrite H. reflexivity. Qed.

Lemma guard_some : forall b u, guard b = Some u -> b = true.
Proof. intros b u H. destruct b; [reflexivity | discriminate H]. Qed.

Lemma guard_true : guard true = Some tt.
Proof. reflexivity. Qed.

Lemma set_nth_spec : forall {A} (l : list A) i x j,
    i < length l ->
    nth_error (firstn i l ++ x :: skipn (S i) l) j = if j =? i then Some x else nth_error l j.
Proof.
  intros A l. induction l as [|y l IH]; intros i x j Hi.
  - simpl in Hi. lia.
  - destruct i as [|i].
    + destruct j as [|j]; reflexivity.
    + destruct j as [|j].
      * reflexivity.
      * simpl in Hi. assert (Hi' : i < length l) by lia.
        specialize (IH i x j Hi'). simpl. simpl in IH. exact IH.
Qed.

Lemma set_nth_length : forall {A} (l : list A) i x,
    i < length l -> length (firstn i l ++ x :: skipn (S i) l) = length l.
Proof.
  intros A l. induction l as [|y l IH]; intros i x Hi.
  - simpl in Hi. lia.
  - destruct i as [|i].
    + reflexivity.
    + simpl in Hi. assert (Hi' : i < length l) by lia.
      specialize (IH i x Hi'). simpl. simpl in IH. rewrite IH. reflexivity.
Qed.

Lemma mapM_some : forall {A B} (f : A -> option B) (l : list A),
    (forall x, In x l -> exists y, f x = Some y) -> exists ys, mapM f l = Some ys.
Proof.
  intros A B f l. induction l as [|a l IH]; intro H.
  - exists []. reflexivity.
  - destruct (H a (or_introl eq_refl)) as (y & Hy).
    destruct IH as (ys & Hys); [intros x Hx; apply H; right; exact Hx |].
    exists (y :: ys). simpl. rewrite Hy. simpl. rewrite Hys. reflexivity.
Qed.

Lemma in_combine_nth : forall {A B} (la : list A) (lb : list B) a b,
    In (a, b) (combine la lb) ->
    exists i, nth_error la i = Some a /\ nth_error lb i = Some b.
Proof.
  intros A B la. induction la as [|x la IH]; intros lb a b Hin.
  - destruct Hin.
  - destruct lb as [|y lb]; [destruct Hin |]. destruct Hin as [Hin|Hin].
    + injection Hin as Hx Hy. subst. exists 0. split; reflexivity.
    + destruct (IH lb a b Hin) as (i & Ha & Hb). exists (S i). split; assumption.
Qed.

Lemma NoDup_snoc : forall {A} (l : list A) x, NoDup l -> ~ In x l -> NoDup (l ++ [x]).
Proof.
  intros A l x Hl Hx. apply (NoDup_Add (Add_app x l [])). rewrite app_nil_r. split; assumption.
Qed.

Definition occ (m : nat) (X : list nat) : nat := length (filter (Nat.eqb m) X).

Lemma occ_nil : forall m, occ m [] = 0.
Proof. reflexivity. Qed.

Lemma occ_cons : forall m x X, occ m (x :: X) = (if m =? x then 1 else 0) + occ m X.
Proof. intros m x X. unfold occ. simpl. destruct (m =? x); reflexivity. Qed.

Lemma occ_app : forall m X Y, occ m (X ++ Y) = occ m X + occ m Y.
Proof.
  intros m X Y. unfold occ. rewrite filter_app, app_length. reflexivity.
Qed.

Fixpoint wsum (k : nat) (w : nat -> nat) : nat :=
  match k with 0 => 0 | S k' => wsum k' w + w k' end.

Lemma wsum_ext : forall k w w',
    (forall n, n < k -> w n = w' n) -> wsum k w = wsum k w'.
Proof.
  induction k as [|k IH]; intros w w' H; simpl.
  - reflexivity.
  - rewrite (IH w w'); [rewrite (H k); [reflexivity | lia] |].
    intros n Hn. apply H. lia.
Qed.

Lemma wsum_zero : forall k w, (forall n, n < k -> w n = 0) -> wsum k w = 0.
Proof.
  induction k as [|k IH]; intros w H; simpl.
  - reflexivity.
  - rewrite IH; [rewrite H; lia |]. intros n Hn. apply H. lia.
Qed.

Lemma wsum_split : forall k w c,
    c < k -> wsum k w = w c + wsum k (fun n => if n =? c then 0 else w n).
Proof.
  induction k as [|k IH]; intros w c Hc; simpl.
  - lia.
  - destruct (Nat.eq_dec c k) as [Heq|Hne].
    + subst c. rewrite Nat.eqb_refl.
      rewrite (wsum_ext k w (fun n => if n =? k then 0 else w n)); [lia |].
      intros n Hn. destruct (n =? k) eqn:Hnk; [apply Nat.eqb_eq in Hnk; lia | reflexivity].
    + assert (Hck : c < k) by lia.
      rewrite (IH w c Hck).
      destruct (k =? c) eqn:Hkc; [apply Nat.eqb_eq in Hkc; lia | lia].
Qed.

Lemma wsum_ge_term : forall k w c, c < k -> w c <= wsum k w.
Proof. intros k w c Hc. rewrite (wsum_split k w c Hc). lia. Qed.

Lemma wsum_pos : forall k w, 0 < wsum k w -> exists n, n < k /\ 0 < w n.
Proof.
  induction k as [|k IH]; intros w H; simpl in H.
  - lia.
  - destruct (w k) as [|x] eqn:Hwk.
    + destruct (IH w) as (n & Hn & Hw); [lia |]. exists n. split; [lia | exact Hw].
    + exists k. split; [lia | lia].
Qed.

Section Base.
  Context {P D : Type}.

  Definition cnt (g : store P D) (n : nat) : nat :=
    match nth_error g n with Some nd => n_count nd | None => 0 end.
  Definition dlt (g : store P D) (n : nat) : option D :=
    match nth_error g n with Some nd => n_delta nd | None => None end.
  Definition grd (g : store P D) (n : nat) : option D :=
    match nth_error g n with Some nd => n_grad nd | None => None end.

  (** the part of a node that a pass never changes *)
  Definition sk (nd : node P D) : P * list (entry) := (n_pay nd, n_children nd).
  Definition nc (nd : node P D) : P * list entry * option D * option D :=
    (n_pay nd, n_children nd, n_delta nd, n_grad nd).

  Lemma nc_sk : forall g g' : store P D, map nc g = map nc g' -> map sk g = map sk g'.
  Proof.
    intros g g' H.
    change (map (fun nd => fst (fst (nc nd))) g = map (fun nd => fst (fst (nc nd))) g').
    rewrite <- !(map_map nc (fun x => fst (fst x))), H. reflexivity.
  Qed.

  Lemma map_eq_nth : forall {B} (f : node P D -> B) (g g' : store P D) id nd,
      map f g = map f g' -> nth_error g id = Some nd ->
      exists nd', nth_error g' id = Some nd' /\ f nd' = f nd.
  Proof.
    intros B f g g' id nd Hm Hn.
    assert (H1 : nth_error (map f g) id = Some (f nd)) by (apply map_nth_error; exact Hn).
    rewrite Hm in H1. rewrite nth_error_map in H1.
    destruct (nth_error g' id) as [nd'|]; simpl in H1; [|discriminate H1].
    exists nd'. split; [reflexivity | congruence].
  Qed.

  Lemma map_eq_lookup : forall {B} (f : node P D -> B) (g g' : store P D) j,
      map f g = map f g' -> option_map f (nth_error g j) = option_map f (nth_error g' j).
  Proof. intros B f g g' j H. rewrite <- !nth_error_map, H. reflexivity. Qed.

  Lemma map_eq_length : forall {B} (f : node P D -> B) (g g' : store P D),
      map f g = map f g' -> length g = length g'.
  Proof.
    intros B f g g' H. rewrite <- (map_length f g), <- (map_length f g'), H. reflexivity.
  Qed.

  Lemma put_inv : forall (g : store P D) id nd g',
      put g id nd = Some g' ->
      id < length g /\ length g' = length g /\
      forall j, nth_error g' j = if j =? id then Some nd else nth_error g j.
  Proof.
    intros g id nd g' H. unfold put, set_nth in H.
    destruct (id <? length g) eqn:Hlt; [|discriminate H].
    apply Nat.ltb_lt in Hlt. injection H as H. subst g'.
    split; [exact Hlt |]. split.
    - apply set_nth_length. exact Hlt.
    - intro j. apply set_nth_spec. exact Hlt.
  Qed.

  Lemma put_some : forall (g : store P D) id nd,
      id < length g -> exists g', put g id nd = Some g'.
  Proof.
    intros g id nd H. unfold put, set_nth.
    apply Nat.ltb_lt in H. rewrite H. eexists. reflexivity.
  Qed.

  Lemma put_nth_eq : forall (g : store P D) id nd g',
      put g id nd = Some g' -> nth_error g' id = Some nd.
  Proof.
    intros g id nd g' H. apply put_inv in H. destruct H as (_ & _ & H).
    rewrite H, Nat.eqb_refl. reflexivity.
  Qed.

  Lemma put_nth_ne : forall (g : store P D) id nd g' j,
      put g id nd = Some g' -> j <> id -> nth_error g' j = nth_error g j.
  Proof.
    intros g id nd g' j H Hne. apply put_inv in H. destruct H as (_ & _ & H).
    rewrite H. apply Nat.eqb_neq in Hne. rewrite Hne. reflexivity.
  Qed.

  Lemma put_length : forall (g : store P D) id nd g',
      put g id nd = Some g' -> length g' = length g.
  Proof. intros g id nd g' H. apply put_inv in H. tauto. Qed.

  Lemma put_same : forall (g : store P D) id nd g',
      put g id nd = Some g' -> nth_error g id = Some nd -> g' = g.
  Proof.
    intros g id nd g' H Hn. apply nth_error_ext. intro j.
    apply put_inv in H. destruct H as (_ & _ & H). rewrite H.
    destruct (j =? id) eqn:Hj; [apply Nat.eqb_eq in Hj; subst j; symmetry; exact Hn | reflexivity].
  Qed.

  Lemma put_put : forall (g : store P D) id a b g1 g2,
      put g id a = Some g1 -> put g1 id b = Some g2 -> put g id b = Some g2.
  Proof.
    intros g id a b g1 g2 H1 H2.
    destruct (put_some g id b) as (g3 & H3); [apply put_inv in H1; tauto |].
    rewrite H3. f_equal. apply nth_error_ext. intro j.
    apply put_inv in H1. destruct H1 as (_ & _ & H1).
    apply put_inv in H2. destruct H2 as (_ & _ & H2).
    apply put_inv in H3. destruct H3 as (_ & _ & H3).
    rewrite H3, H2, H1. destruct (j =? id); reflexivity.
  Qed.

  Lemma put_map : forall {B} (f : node P D -> B) (g : store P D) id nd nd' g',
      put g id nd' = Some g' -> nth_error g id = Some nd -> f nd' = f nd ->
      map f g' = map f g.
  Proof.
    intros B f g id nd nd' g' H Hn Hf. apply nth_error_ext. intro j.
    rewrite !nth_error_map. apply put_inv in H. destruct H as (_ & _ & H). rewrite H.
    destruct (j =? id) eqn:Hj; [|reflexivity].
    apply Nat.eqb_eq in Hj. subst j. rewrite Hn. simpl. rewrite Hf. reflexivity.
  Qed.

  (** a cell of node [n] read with a default; [cnt], [dlt] and [grd] are instances *)
  Definition fld {B} (proj : node P D -> B) (dflt : B) (g : store P D) (n : nat) : B :=
    match nth_error g n with Some nd => proj nd | None => dflt end.

  Lemma fld_nth : forall {B} (proj : node P D -> B) dflt (g : store P D) id nd,
      nth_error g id = Some nd -> fld proj dflt g id = proj nd.
  Proof. intros B proj dflt g id nd H. unfold fld. rewrite H. reflexivity. Qed.

  Lemma put_fld : forall {B} (proj : node P D -> B) dflt (g : store P D) id nd g' m,
      put g id nd = Some g' -> fld proj dflt g' m = if m =? id then proj nd else fld proj dflt g m.
  Proof.
    intros B proj dflt g id nd g' m H. unfold fld. apply put_inv in H. destruct H as (_ & _ & H).
    rewrite H. destruct (m =? id); reflexivity.
  Qed.

  Lemma put_keep : forall {B} (proj : node P D -> B) dflt (g : store P D) id nd nd' g',
      put g id nd' = Some g' -> nth_error g id = Some nd -> proj nd' = proj nd ->
      forall m, fld proj dflt g' m = fld proj dflt g m.
  Proof.
    intros B proj dflt g id nd nd' g' Hput Hn Hp m. rewrite (put_fld proj dflt g id nd' g' m Hput).
    destruct (m =? id) eqn:Hm; [| reflexivity].
    apply Nat.eqb_eq in Hm. subst m. rewrite (fld_nth proj dflt g id nd Hn). exact Hp.
  Qed.

  Lemma map_fld : forall {B C} (f : node P D -> C) (h : C -> B) dflt (g g' : store P D) m,
      map f g = map f g' ->
      fld (fun nd => h (f nd)) dflt g m = fld (fun nd => h (f nd)) dflt g' m.
  Proof.
    intros B C f h dflt g g' m H. unfold fld.
    assert (H1 : nth_error (map f g) m = nth_error (map f g') m) by (rewrite H; reflexivity).
    rewrite !nth_error_map in H1.
    destruct (nth_error g m), (nth_error g' m); simpl in H1; try discriminate H1; [| reflexivity].
    injection H1 as H1. rewrite H1. reflexivity.
  Qed.

  Lemma put_cnt : forall (g : store P D) id nd g' m,
      put g id nd = Some g' -> cnt g' m = if m =? id then n_count nd else cnt g m.
  Proof. exact (put_fld n_count 0). Qed.

  Lemma put_dlt : forall (g : store P D) id nd g' m,
      put g id nd = Some g' -> dlt g' m = if m =? id then n_delta nd else dlt g m.
  Proof. exact (put_fld n_delta None). Qed.

  Lemma put_grd : forall (g : store P D) id nd g' m,
      put g id nd = Some g' -> grd g' m = if m =? id then n_grad nd else grd g m.
  Proof. exact (put_fld n_grad None). Qed.

  Lemma cnt_nth : forall (g : store P D) id nd, nth_error g id = Some nd -> cnt g id = n_count nd.
  Proof. exact (fld_nth n_count 0). Qed.
  Lemma dlt_nth : forall (g : store P D) id nd, nth_error g id = Some nd -> dlt g id = n_delta nd.
  Proof. exact (fld_nth n_delta None). Qed.
  Lemma grd_nth : forall (g : store P D) id nd, nth_error g id = Some nd -> grd g id = n_grad nd.
  Proof. exact (fld_nth n_grad None). Qed.

  Lemma nc_dlt : forall (g g' : store P D) m, map nc g = map nc g' -> dlt g m = dlt g' m.
  Proof. intros g g' m. exact (map_fld nc (fun x => snd (fst x)) None g g' m). Qed.

  Lemma nc_grd : forall (g g' : store P D) m, map nc g = map nc g' -> grd g m = grd g' m.
  Proof. intros g g' m. exact (map_fld nc snd None g g' m). Qed.

  Lemma clean_cnt : forall g : store P D, clean g -> forall m, cnt g m = 0.
  Proof.
    intros g H m. unfold cnt.
    destruct (nth_error g m) as [nd|] eqn:Hn; [apply (H m nd Hn) | reflexivity].
  Qed.

  Lemma clean_dlt : forall g : store P D, clean g -> forall m, dlt g m = None.
  Proof.
    intros g H m. unfold dlt.
    destruct (nth_error g m) as [nd|] eqn:Hn; [apply (H m nd Hn) | reflexivity].
  Qed.

  Definition all_nodes (Q : node P D -> Prop) (g : store P D) : Prop :=
    forall id nd, nth_error g id = Some nd -> Q nd.

  Lemma all_nodes_put : forall (Q : node P D -> Prop) g id nd' g',
      all_nodes Q g -> put g id nd' = Some g' -> Q nd' -> all_nodes Q g'.
  Proof.
    intros Q g id nd' g' HQ Hput Hnd' j nd Hj.
    apply put_inv in Hput. destruct Hput as (_ & _ & Hn). rewrite Hn in Hj.
    destruct (j =? id); [injection Hj as Hj; subst nd; exact Hnd' | exact (HQ j nd Hj)].
  Qed.

  Lemma restore_clear : forall es : list entry,
      restore_flags (clear_flags es) (map e_tracked es) = es.
  Proof.
    induction es as [|e es IH].
    - reflexivity.
    - unfold restore_flags, clear_flags in *. simpl. rewrite IH. f_equal.
      destruct e as [n t k]. simpl. destruct t; reflexivity.
  Qed.

  Lemma set_children_id : forall nd : node P D, set_children nd (n_children nd) = nd.
  Proof. intros [p c n d gr]. reflexivity. Qed.

  Lemma set_children_twice : forall (nd : node P D) a b,
      set_children (set_children nd a) b = set_children nd b.
  Proof. intros [p c n d gr] a b. reflexivity. Qed.
End Base.
