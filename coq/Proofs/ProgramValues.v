(** P4 (C15): the arrays computed by the layers, the costs and the model loop
    (Model/Program.v), in terms of the array-level specifications
    (MatmulSpec, ConvSpec, EwSpec, ReduceSpec).

    Two levels:
    - program level: [layer_forward], [model_forward], [cost_apply], [model_backward] succeed
      and the array seen through the result handle is the value of the corresponding array
      functions ([a_matmul], [conv], [a_add], the activations, [a_sub], ...);
    - array level: the element-wise value of those compositions.

    No assumption on the scalar operations. *)

From Coq Require Import List Arith Bool Lia PeanoNat.
From Corgi Require Import Lib.OptionMonad Lib.IdxDefs Lib.Idx Model.Scalar Model.Arr
     Model.SlicedOp Model.Elementwise Model.Linalg Model.Image Model.Ops Model.Engine
     Model.Program
     Proofs.ArrFacts Proofs.BroadcastDims Proofs.SpecDefs Proofs.SlicedOpSpec Proofs.EwSpec
     Proofs.ReduceSpec Proofs.MatmulSpec Proofs.ConvSpec Proofs.ProgramFacts.
Import ListNotations.

Section ProgramLevel.
  Context {F : Type} (O : ScalarOps F).

  Notation state := (@state F).

  Definition act_fwd (a : act) (x : arr F) : option (arr F) :=
    match a with
    | ANone => Some x
    | ARelu => a_relu O x
    | ASigmoid => a_sigmoid O x
    | ASoftmax => a_softmax O x
    end.

  Lemma apply_act_agrees : forall (s : state) a h x,
      h_arr s h = Some x -> agrees s (apply_act O s a h) (act_fwd a x).
  Proof.
    intros s a h x Hx. destruct a; cbn [act_fwd apply_act].
    - split; [apply sframe_refl|exact Hx].
    - exact (unary_agrees s h _ _ x Hx).
    - exact (unary_agrees s h _ _ x Hx).
    - exact (softmax_agrees O s h x Hx).
  Qed.

  (** a dense layer is [matmul(input, weights^T, bias)] followed by the activation *)
  Theorem layer_forward_dense : forall (s : state) l input X W Bv r0 r,
      l_conv l = None ->
      h_arr s input = Some X -> h_arr s (l_w l) = Some W -> h_arr s (l_b l) = Some Bv ->
      a_matmul O X false W true (Some Bv) = Some r0 -> act_fwd (l_act l) r0 = Some r ->
      exists s' h, layer_forward O s l input = Some (s', h) /\ h_arr s' h = Some r /\ sframe s s'.
  Proof.
    intros s l input X W Bv r0 r Hc HX HW HB Hm Ha. apply agrees_some.
    unfold layer_forward. rewrite Hc. apply (agrees_step s _ r0).
    - rewrite <- Hm. apply matmul_agrees; [exact HX|exact HW|]. cbn [opt_arr]. rewrite HB. reflexivity.
    - intros s1 h1 _ H1. rewrite <- Ha. exact (apply_act_agrees s1 (l_act l) h1 r0 H1).
  Qed.

  (** a convolutional layer is [conv(input, filters) + bias] followed by the activation *)
  Theorem layer_forward_conv : forall (s : state) l input sr sc X W Bv r1 r0 r,
      l_conv l = Some (sr, sc) ->
      h_arr s input = Some X -> h_arr s (l_w l) = Some W -> h_arr s (l_b l) = Some Bv ->
      conv O X W sr sc = Some r1 -> a_add O r1 Bv = Some r0 -> act_fwd (l_act l) r0 = Some r ->
      exists s' h, layer_forward O s l input = Some (s', h) /\ h_arr s' h = Some r /\ sframe s s'.
  Proof.
    intros s l input sr sc X W Bv r1 r0 r Hc HX HW HB Hcv Hadd Ha. apply agrees_some.
    unfold layer_forward. rewrite Hc.
    apply (agrees_step s _ r1); [rewrite <- Hcv; exact (conv_agrees O s sr sc input (l_w l) X W HX HW)|].
    intros s1 hc F1 H1.
    apply (agrees_step s1 _ r0);
      [rewrite <- Hadd; exact (binary_agrees s1 hc (l_b l) _ _ r1 Bv H1 (sframe_h_arr s s1 (l_b l) Bv F1 HB))|].
    intros s2 h2 _ H2. rewrite <- Ha. exact (apply_act_agrees s2 (l_act l) h2 r0 H2).
  Qed.

  Fixpoint layers_fwd (s : state) (ls : list layer) (h : handle) : option (state * handle) :=
    match ls with
    | [] => Some (s, h)
    | l :: ls' => r <- layer_forward O s l h ;; let '(s1, h1) := r in layers_fwd s1 ls' h1
    end.

  Lemma layers_fold : forall ls (acc : option (state * handle)),
      fold_left (fun (acc : option (state * handle)) (l : layer) =>
                   st <- acc ;; let '(s', h) := st in layer_forward O s' l h) ls acc
      = (st <- acc ;; let '(s, h) := st in layers_fwd s ls h).
  Proof.
    induction ls as [|l ls IH]; intros acc.
    - destruct acc as [[s h]|]; reflexivity.
    - cbn [fold_left]. rewrite IH. destruct acc as [[s h]|]; [|reflexivity].
      cbn [obind layers_fwd]. destruct (layer_forward O s l h) as [[s1 h1]|]; reflexivity.
  Qed.

  (** [Model::forward]: the layers in order, each fed the previous result; the final handle
      is returned and remembered as the model's output *)
  Theorem model_forward_spec : forall (s : state) input,
      model_forward O s input =
      (r <- layers_fwd s (st_layers s) input ;;
       let '(s1, out) := r in Some (with_output s1 (Some out), out)).
  Proof. intros s input. unfold model_forward. rewrite layers_fold. reflexivity. Qed.

  Corollary model_forward_output : forall (s : state) input s' out,
      model_forward O s input = Some (s', out) -> st_output s' = Some out.
  Proof.
    intros s input s' out H. rewrite model_forward_spec in H.
    revert H. apply obind_elim. intros [s1 o1] _ H. inversion H. reflexivity.
  Qed.

  Theorem cost_mse_fwd : forall (s : state) output target o t d p r,
      h_arr s output = Some o -> h_arr s target = Some t ->
      a_sub O t o = Some d -> a_powf O (two O) d = Some p ->
      a_scale O (fdiv O (f1 O) (fofnat O (prod (dims o)))) p = Some r ->
      exists s' h, cost_apply O s CMse output target = Some (s', h) /\ h_arr s' h = Some r /\
                   sframe s s'.
  Proof.
    intros s output target o t d p r Ho Ht Hd Hp Hr. apply agrees_some.
    unfold cost_apply. rewrite Ho. cbn [obind]. cbv zeta.
    apply (agrees_step s _ d); [rewrite <- Hd; exact (sub_agrees O s target output t o Ht Ho)|].
    intros s1 h1 _ H1.
    apply (agrees_step s1 _ p); [rewrite <- Hp; exact (unary_agrees s1 h1 _ _ d H1)|].
    intros s2 h2 _ H2. rewrite <- Hr. exact (unary_agrees s2 h2 _ _ p H2).
  Qed.

  Theorem cost_ce_fwd : forall (s : state) output target o t batch nt lo m r,
      h_arr s output = Some o -> h_arr s target = Some t ->
      nth_error (dims o) 0 = Some batch ->
      a_neg O t = Some nt -> a_ln O o = Some lo -> a_mul O nt lo = Some m ->
      a_scale O (fdiv O (f1 O) (fofnat O batch)) m = Some r ->
      exists s' h, cost_apply O s CCrossEntropy output target = Some (s', h) /\
                   h_arr s' h = Some r /\ sframe s s'.
  Proof.
    intros s output target o t batch nt lo m r Ho Ht Hb Hnt Hlo Hm Hr. apply agrees_some.
    unfold cost_apply. rewrite Ho. cbn [obind]. rewrite Hb. cbn [obind].
    apply (agrees_step s _ nt); [rewrite <- Hnt; exact (unary_agrees s target _ _ t Ht)|].
    intros s1 h1 F1 H1.
    apply (agrees_step s1 _ lo);
      [rewrite <- Hlo; exact (unary_agrees s1 output _ _ o (sframe_h_arr s s1 output o F1 Ho))|].
    intros s2 h2 F2 H2.
    apply (agrees_step s2 _ m);
      [rewrite <- Hm; exact (binary_agrees s2 h1 h2 _ _ nt lo (sframe_h_arr s1 s2 h1 nt F2 H1) H2)|].
    intros s3 h3 _ H3. rewrite <- Hr. exact (unary_agrees s3 h3 _ _ m H3).
  Qed.

  (** [Model::backward] returns the sum of the values of the cost array *)
  Theorem model_backward_loss : forall (s : state) target s' loss,
      model_backward O s target = Some (s', loss) ->
      exists output s1 err ea,
        st_output s = Some output /\
        cost_apply O s (st_cost s) output target = Some (s1, err) /\
        h_arr s1 err = Some ea /\ loss = vsum O (vals ea) /\
        exists lg, run_backward (E O) (st_nodes s1) (e_node err) (e_keep err) None
                   = Some (st_nodes s', lg).
  Proof.
    intros s target s' loss H. unfold model_backward in H.
    revert H. apply obind_elim. intros output Ho H.
    revert H. apply obind_elim. intros [s1 err] Hc H.
    revert H. apply obind_elim. intros [g lg] Hb H.
    revert H. apply obind_elim. intros ea Hea H. inversion H. subst. clear H.
    exists output, s1, err, ea. repeat (split; [assumption || reflexivity|]).
    exists lg. exact Hb.
  Qed.
End ProgramLevel.

Section ArrayLevel.
  Context {F : Type} (O : ScalarOps F).

  Lemma get_mapped : forall (g : F -> F) (a : arr F) I,
      get {| dims := dims a; vals := map g (vals a) |} I = option_map g (get a I).
  Proof. intros g a I. rewrite get_map. reflexivity. Qed.

  Theorem dense_value : forall (X W Bv : arr F) batch nin nout,
      wf X -> wf W -> wf Bv ->
      dims X = batch ++ [nin] -> batch <> [] -> dims W = [nout; nin] -> dims Bv = [nout] ->
      exists r0,
        a_matmul O X false W true (Some Bv) = Some r0 /\ wf r0 /\ dims r0 = batch ++ [nout] /\
        forall J o, in_range J batch -> o < nout ->
          (forall k, k < nin -> in_range (J ++ [k]) (dims X) /\ in_range [o; k] (dims W)) /\
          in_range [o] (dims Bv) /\
          get r0 (J ++ [o])
          = Some (fadd O (getd O Bv [o])
                       (vsum O (map (fun k => fmul O (getd O X (J ++ [k])) (getd O W [o; k]))
                                    (seq 0 nin)))).
  Proof.
    intros X W Bv batch nin nout HwX HwW HwB EX Hne EW EB.
    destruct (exists_last Hne) as (la & ar & ->).
    assert (EX' : dims X = la ++ [ar; nin]) by (rewrite EX, <- app_assoc; reflexivity).
    assert (Hcomp : bcompat la []) by (apply bcompat_sym; exact I).
    destruct (matmul_spec_bias_row O X false W true Bv la [] ar nin nout nin
                                   HwX HwW HwB EX' EW eq_refl Hcomp EB)
      as [(r0 & Hr0 & Hw0 & Hd0 & Hv) Hbias].
    cbn [mm_rows mm_cols mm_inner_a] in Hd0, Hv, Hbias. rewrite bmax_nil_r in Hd0, Hv.
    exists r0. split; [exact Hr0|]. split; [exact Hw0|].
    split; [rewrite Hd0, <- app_assoc; reflexivity|].
    intros J o HJ Ho.
    destruct (in_range_snoc_inv J la ar HJ) as (J' & i & -> & HJ' & Hi).
    destruct (Hv J' i o HJ' Hi Ho) as [Hrange Hval].
    assert (Hidx : forall k, a_idx false la J' i k = (J' ++ [i]) ++ [k]).
    { intros k. unfold a_idx. rewrite (bclamp_id la J' HJ'), <- app_assoc. reflexivity. }
    assert (Hidb : forall k, b_idx true [] J' k o = [o; k]).
    { intros k. unfold b_idx. rewrite bclamp_nil. reflexivity. }
    split; [|split].
    - intros k Hk. destruct (Hrange k Hk) as [Ha Hb]. rewrite Hidx in Ha. rewrite Hidb in Hb.
      split; assumption.
    - rewrite EB. constructor; [exact Ho|constructor].
    - rewrite <- app_assoc. cbn [app]. rewrite Hval. f_equal. f_equal. f_equal.
      apply map_ext. intros k. rewrite Hidx, Hidb. reflexivity.
  Qed.

  (** a single input vector is treated as a batch of one: the result is [[1; nout]] *)
  Theorem dense_value_vec : forall (X W Bv : arr F) nin nout,
      wf X -> wf W -> wf Bv -> dims X = [nin] -> dims W = [nout; nin] -> dims Bv = [nout] ->
      exists r0,
        a_matmul O X false W true (Some Bv) = Some r0 /\ wf r0 /\ dims r0 = [1; nout] /\
        forall o, o < nout ->
          (forall k, k < nin -> in_range [k] (dims X) /\ in_range [o; k] (dims W)) /\
          in_range [o] (dims Bv) /\
          get r0 [0; o]
          = Some (fadd O (getd O Bv [o])
                       (vsum O (map (fun k => fmul O (getd O X [k]) (getd O W [o; k])) (seq 0 nin)))).
  Proof.
    intros X W Bv nin nout HwX HwW HwB EX EW EB.
    rewrite (matmul_vec_l O X false W true (Some Bv) nin [] nout nin HwX HwW EX EW).
    set (X' := {| dims := [1; nin]; vals := vals X |}).
    destruct (dense_value X' W Bv [1] nin nout (wf_reshape_row X nin HwX EX) HwW HwB eq_refl
                          ltac:(discriminate) EW EB) as (r0 & Hr0 & Hw0 & Hd0 & Hv).
    exists r0. split; [exact Hr0|]. split; [exact Hw0|]. split; [exact Hd0|].
    intros o Ho.
    assert (H0 : in_range [0] [1]) by (constructor; [lia|constructor]).
    destruct (Hv [0] o H0 Ho) as (Hrange & Hb & Hval). split; [|split; [exact Hb|]].
    - intros k Hk. destruct (Hrange k Hk) as [_ HW]. split; [|exact HW].
      rewrite EX. constructor; [exact Hk|constructor].
    - cbn [app] in Hval. rewrite Hval. f_equal. f_equal. f_equal. apply map_ext. intros k.
      unfold X'. rewrite (getd_reshape_row O X nin k EX). reflexivity.
  Qed.
  (** the literal value of [conv] at [(B, f, y, x)] ([conv_spec]) *)
  Definition conv_elem (image filters : arr F) (B : list nat) (depth fr fc sr sc f y x : nat) : F :=
    fadd O (f0 O)
         (vsum O (map (fun q =>
                         let k := q / (fr * fc) in
                         let m := (q / fc) mod fr in
                         let n := q mod fc in
                         fmul O (getd O image (B ++ [k; y * sr + m; x * sc + n]))
                                (getd O filters [f; k; m; n]))
                      (seq 0 (depth * fr * fc)))).

  Lemma bmax_rev_nil_r : forall x, bmax_rev x [] = x.
  Proof. intros [|a x]; reflexivity. Qed.

  Lemma lastn3_snoc3 : forall {A} (l : list A) a b c, lastn 3 (l ++ [a; b; c]) = [a; b; c].
  Proof.
    intros A l a b c. unfold lastn. rewrite length_snoc3.
    replace (length l + 3 - 3) with (length l) by lia. apply skipn_app_len.
  Qed.

  Theorem conv_bias_value : forall (image filters Bv : arr F) batch depth rows cols count fr fc sr sc,
      wf image -> wf filters -> wf Bv ->
      dims image = batch ++ [depth; rows; cols] -> dims filters = [count; depth; fr; fc] ->
      dims Bv = [count; 1; 1] ->
      1 <= sr -> 1 <= sc -> fr <= rows -> fc <= cols ->
      let rc := out_count rows fr sr in
      let cc := out_count cols fc sc in
      exists r1 r0,
        conv O image filters sr sc = Some r1 /\ a_add O r1 Bv = Some r0 /\
        wf r0 /\ dims r0 = batch ++ [count; rc; cc] /\
        forall B f y x,
          in_range B batch -> f < count -> y < rc -> x < cc ->
          in_range [f; 0; 0] (dims Bv) /\
          get r0 (B ++ [f; y; x])
          = Some (fadd O (conv_elem image filters B depth fr fc sr sc f y x) (getd O Bv [f; 0; 0])).
  Proof.
    intros image filters Bv batch depth rows cols count fr fc sr sc Hwi Hwf HwB Ed Ef EB
           Hsr Hsc Hfr Hfc rc cc.
    destruct (conv_spec O image filters batch depth rows cols count fr fc sr sc
                        Hwi Hwf Ed Ef Hsr Hsc Hfr Hfc) as (r1 & Hr1 & Hw1 & Hd1 & Hv1).
    fold rc in Hd1, Hv1. fold cc in Hd1, Hv1.
    assert (Hrc : 1 <= rc) by apply out_count_pos.
    assert (Hcc : 1 <= cc) by apply out_count_pos.
    assert (Hcomp : bcompat (dims r1) (dims Bv)).
    { rewrite Hd1, EB. unfold bcompat. rewrite rev_app_distr. cbn.
      repeat (split; [auto|]). destruct (rev batch); exact I. }
    assert (Hbm : bmax (dims r1) (dims Bv) = batch ++ [count; rc; cc]).
    { rewrite Hd1, EB. unfold bmax. rewrite rev_app_distr. cbn [rev app bmax_rev].
      rewrite bmax_rev_nil_r. cbn [rev]. rewrite rev_involutive, <- !app_assoc. cbn [app].
      rewrite Nat.max_id, !Nat.max_l by assumption. reflexivity. }
    destruct (a_add_spec O r1 Bv Hw1 HwB) as (r0 & Hr0 & Hw0 & Hd0 & Hv0).
    { rewrite Hd1. destruct batch; discriminate. }
    { rewrite EB. discriminate. }
    { exact Hcomp. }
    exists r1, r0. split; [exact Hr1|]. split; [exact Hr0|]. split; [exact Hw0|].
    split; [rewrite Hd0; exact Hbm|].
    intros B f y x HB Hf Hy Hx.
    assert (HrB : in_range [f; 0; 0] (dims Bv)).
    { rewrite EB. repeat (constructor; [lia|]). constructor. }
    split; [exact HrB|].
    assert (HI : in_range (B ++ [f; y; x]) (dims r1))
      by (rewrite Hd1; apply in_range_snoc3; assumption).
    destruct (Hv0 (B ++ [f; y; x])) as (u & v & Hu & Hv & Hget).
    { rewrite Hd0, Hbm, <- Hd1. exact HI. }
    rewrite Hget. rewrite (bclamp_id _ _ HI) in Hu.
    destruct (Hv1 B f y x HB Hf Hy Hx) as [_ Hval]. rewrite Hval in Hu. inversion Hu. subst u.
    assert (Hcl : bclamp (dims Bv) (B ++ [f; y; x]) = [f; 0; 0]).
    { rewrite EB, bclamp_eq. cbn [length]. rewrite lastn3_snoc3. cbn [combine map]. unfold cl.
      cbn [fst snd Nat.eqb]. destruct (count =? 1) eqn:E1; [|reflexivity].
      apply Nat.eqb_eq in E1. f_equal. lia. }
    rewrite Hcl, (get_getd O Bv _ HwB HrB) in Hv. inversion Hv. reflexivity.
  Qed.

  (** mean squared error, element by element: [((t - o)^2) * (1/len)] with
      [t - o = t + o * (-1)] *)
  Theorem mse_value : forall (o t : arr F),
      wf o -> wf t -> dims t = dims o -> dims o <> [] ->
      let c := fdiv O (f1 O) (fofnat O (prod (dims o))) in
      exists d p r,
        a_sub O t o = Some d /\ a_powf O (two O) d = Some p /\ a_scale O c p = Some r /\
        wf r /\ dims r = dims o /\
        forall I, in_range I (dims o) ->
          get r I = Some (fmul O (fpow O (fadd O (getd O t I) (fmul O (getd O o I) (fneg O (f1 O))))
                                       (two O)) c).
  Proof.
    intros o t Hwo Hwt Edt Hne c.
    destruct (a_sub_spec O t o Hwt Hwo) as (d & Hd & Hwd & Hdd & Hvd).
    { rewrite Edt. exact Hne. } { exact Hne. } { rewrite Edt. apply bcompat_refl. }
    rewrite Edt, bmax_idem in Hdd.
    exists d. eexists. eexists.
    split; [exact Hd|]. split; [apply a_powf_spec; exact Hwd|].
    split; [apply a_scale_spec; apply map_arr_result_wf; exact Hwd|].
    split; [apply map_arr_result_wf; apply map_arr_result_wf; exact Hwd|].
    split; [cbn [dims]; exact Hdd|].
    intros I HI.
    destruct (Hvd I) as (x & y & Hx & Hy & Hget); [rewrite Hdd; exact HI|].
    rewrite Edt, (bclamp_id _ _ HI) in Hx. rewrite (bclamp_id _ _ HI) in Hy.
    assert (HIt : in_range I (dims t)) by (rewrite Edt; exact HI).
    rewrite (get_getd O t I Hwt HIt) in Hx. rewrite (get_getd O o I Hwo HI) in Hy.
    inversion Hx. inversion Hy. subst x y.
    rewrite !get_mapped, Hget. reflexivity.
  Qed.

  (** cross entropy, element by element: [((t * -1) * ln o) * (1/batch)] *)
  Theorem ce_value : forall (o t : arr F) batch rest,
      wf o -> wf t -> dims t = dims o -> dims o = batch :: rest ->
      let c := fdiv O (f1 O) (fofnat O batch) in
      exists nt lo m r,
        nth_error (dims o) 0 = Some batch /\
        a_neg O t = Some nt /\ a_ln O o = Some lo /\ a_mul O nt lo = Some m /\
        a_scale O c m = Some r /\ wf r /\ dims r = dims o /\
        forall I, in_range I (dims o) ->
          get r I = Some (fmul O (fmul O (fmul O (getd O t I) (fneg O (f1 O))) (fln O (getd O o I))) c).
  Proof.
    intros o t batch rest Hwo Hwt Edt Edo c.
    set (nt := {| dims := dims t; vals := map (fun x => fmul O x (fneg O (f1 O))) (vals t) |}).
    set (lo := {| dims := dims o; vals := map (fln O) (vals o) |}).
    assert (Hwnt : wf nt) by (apply map_arr_result_wf; exact Hwt).
    assert (Hwlo : wf lo) by (apply map_arr_result_wf; exact Hwo).
    destruct (a_mul_spec O nt lo Hwnt Hwlo) as (m & Hm & Hwm & Hdm & Hvm).
    { cbn [dims nt]. rewrite Edt, Edo. discriminate. }
    { cbn [dims lo]. rewrite Edo. discriminate. }
    { cbn [dims nt lo]. rewrite Edt. apply bcompat_refl. }
    cbn [dims nt lo] in Hdm. rewrite Edt, bmax_idem in Hdm.
    exists nt, lo, m. eexists.
    split; [rewrite Edo; reflexivity|]. split; [apply a_neg_spec; exact Hwt|].
    split; [apply a_ln_spec; exact Hwo|]. split; [exact Hm|].
    split; [apply a_scale_spec; exact Hwm|].
    split; [apply map_arr_result_wf; exact Hwm|]. split; [cbn [dims]; exact Hdm|].
    intros I HI.
    destruct (Hvm I) as (x & y & Hx & Hy & Hget); [rewrite Hdm; exact HI|].
    cbn [dims nt lo] in Hx, Hy. rewrite Edt, (bclamp_id _ _ HI) in Hx. rewrite (bclamp_id _ _ HI) in Hy.
    assert (HIt : in_range I (dims t)) by (rewrite Edt; exact HI).
    unfold nt in Hx. rewrite get_mapped, (get_getd O t I Hwt HIt) in Hx.
    unfold lo in Hy. rewrite get_mapped, (get_getd O o I Hwo HI) in Hy.
    cbn [option_map] in Hx, Hy. inversion Hx. inversion Hy. subst x y.
    rewrite get_mapped, Hget. reflexivity.
  Qed.
End ArrayLevel.

Section EndToEnd.
  Context {F : Type} (O : ScalarOps F).

  Notation state := (@state F).

  (** dense layer on a batch of row vectors (any number of leading dimensions) *)
  Theorem dense_forward_value : forall (s : state) l input (X W Bv : arr F) batch nin nout,
      l_conv l = None ->
      h_arr s input = Some X -> h_arr s (l_w l) = Some W -> h_arr s (l_b l) = Some Bv ->
      wf X -> wf W -> wf Bv ->
      dims X = batch ++ [nin] -> batch <> [] -> dims W = [nout; nin] -> dims Bv = [nout] ->
      exists r0,
        wf r0 /\ dims r0 = batch ++ [nout] /\
        (forall J o, in_range J batch -> o < nout ->
           get r0 (J ++ [o])
           = Some (fadd O (getd O Bv [o])
                        (vsum O (map (fun k => fmul O (getd O X (J ++ [k])) (getd O W [o; k]))
                                     (seq 0 nin))))) /\
        forall r, act_fwd O (l_act l) r0 = Some r ->
          exists s' h, layer_forward O s l input = Some (s', h) /\ h_arr s' h = Some r /\
                       sframe s s'.
  Proof.
    intros s l input X W Bv batch nin nout Hc HX HW HB HwX HwW HwB EX Hne EW EB.
    destruct (dense_value O X W Bv batch nin nout HwX HwW HwB EX Hne EW EB)
      as (r0 & Hr0 & Hw0 & Hd0 & Hv).
    exists r0. split; [exact Hw0|]. split; [exact Hd0|]. split.
    - intros J o HJ Ho. apply (Hv J o HJ Ho).
    - intros r Hr. exact (layer_forward_dense O s l input X W Bv r0 r Hc HX HW HB Hr0 Hr).
  Qed.

  (** dense layer on a single vector: the result has dimensions [[1; nout]] *)
  Theorem dense_forward_value_vec : forall (s : state) l input (X W Bv : arr F) nin nout,
      l_conv l = None ->
      h_arr s input = Some X -> h_arr s (l_w l) = Some W -> h_arr s (l_b l) = Some Bv ->
      wf X -> wf W -> wf Bv ->
      dims X = [nin] -> dims W = [nout; nin] -> dims Bv = [nout] ->
      exists r0,
        wf r0 /\ dims r0 = [1; nout] /\
        (forall o, o < nout ->
           get r0 [0; o]
           = Some (fadd O (getd O Bv [o])
                        (vsum O (map (fun k => fmul O (getd O X [k]) (getd O W [o; k]))
                                     (seq 0 nin))))) /\
        forall r, act_fwd O (l_act l) r0 = Some r ->
          exists s' h, layer_forward O s l input = Some (s', h) /\ h_arr s' h = Some r /\
                       sframe s s'.
  Proof.
    intros s l input X W Bv nin nout Hc HX HW HB HwX HwW HwB EX EW EB.
    destruct (dense_value_vec O X W Bv nin nout HwX HwW HwB EX EW EB)
      as (r0 & Hr0 & Hw0 & Hd0 & Hv).
    exists r0. split; [exact Hw0|]. split; [exact Hd0|]. split.
    - intros o Ho. apply (Hv o Ho).
    - intros r Hr. exact (layer_forward_dense O s l input X W Bv r0 r Hc HX HW HB Hr0 Hr).
  Qed.

  (** convolutional layer: the sliding-window sum of C06 plus the bias of the filter *)
  Theorem conv_forward_value : forall (s : state) l input sr sc (X W Bv : arr F)
                                      batch depth rows cols count fr fc,
      l_conv l = Some (sr, sc) ->
      h_arr s input = Some X -> h_arr s (l_w l) = Some W -> h_arr s (l_b l) = Some Bv ->
      wf X -> wf W -> wf Bv ->
      dims X = batch ++ [depth; rows; cols] -> dims W = [count; depth; fr; fc] ->
      dims Bv = [count; 1; 1] ->
      1 <= sr -> 1 <= sc -> fr <= rows -> fc <= cols ->
      let rc := out_count rows fr sr in
      let cc := out_count cols fc sc in
      exists r0,
        wf r0 /\ dims r0 = batch ++ [count; rc; cc] /\
        (forall B f y x, in_range B batch -> f < count -> y < rc -> x < cc ->
           get r0 (B ++ [f; y; x])
           = Some (fadd O (conv_elem O X W B depth fr fc sr sc f y x) (getd O Bv [f; 0; 0]))) /\
        forall r, act_fwd O (l_act l) r0 = Some r ->
          exists s' h, layer_forward O s l input = Some (s', h) /\ h_arr s' h = Some r /\
                       sframe s s'.
  Proof.
    intros s l input sr sc X W Bv batch depth rows cols count fr fc Hc HX HW HB HwX HwW HwB
           EX EW EB Hsr Hsc Hfr Hfc rc cc.
    destruct (conv_bias_value O X W Bv batch depth rows cols count fr fc sr sc
                              HwX HwW HwB EX EW EB Hsr Hsc Hfr Hfc)
      as (r1 & r0 & Hr1 & Hr0 & Hw0 & Hd0 & Hv).
    exists r0. split; [exact Hw0|]. split; [exact Hd0|]. split.
    - intros B f y x HB' Hf Hy Hx. apply (Hv B f y x HB' Hf Hy Hx).
    - intros r Hr.
      exact (layer_forward_conv O s l input sr sc X W Bv r1 r0 r Hc HX HW HB Hr1 Hr0 Hr).
  Qed.

  Theorem cost_mse_value : forall (s : state) output target (o t : arr F),
      h_arr s output = Some o -> h_arr s target = Some t ->
      wf o -> wf t -> dims t = dims o -> dims o <> [] ->
      exists s' h r,
        cost_apply O s CMse output target = Some (s', h) /\ h_arr s' h = Some r /\ sframe s s' /\
        wf r /\ dims r = dims o /\
        forall I, in_range I (dims o) ->
          get r I = Some (fmul O (fpow O (fadd O (getd O t I) (fmul O (getd O o I) (fneg O (f1 O))))
                                       (two O))
                               (fdiv O (f1 O) (fofnat O (prod (dims o))))).
  Proof.
    intros s output target o t Ho Ht Hwo Hwt Edt Hne.
    destruct (mse_value O o t Hwo Hwt Edt Hne) as (d & p & r & Hd & Hp & Hr & Hwr & Hdr & Hv).
    destruct (cost_mse_fwd O s output target o t d p r Ho Ht Hd Hp Hr) as (s' & h & Hc & Ha & Hf).
    exists s', h, r. repeat (split; [assumption|]). exact Hv.
  Qed.

  Theorem cost_ce_value : forall (s : state) output target (o t : arr F) batch rest,
      h_arr s output = Some o -> h_arr s target = Some t ->
      wf o -> wf t -> dims t = dims o -> dims o = batch :: rest ->
      exists s' h r,
        cost_apply O s CCrossEntropy output target = Some (s', h) /\ h_arr s' h = Some r /\
        sframe s s' /\ wf r /\ dims r = dims o /\
        forall I, in_range I (dims o) ->
          get r I = Some (fmul O (fmul O (fmul O (getd O t I) (fneg O (f1 O))) (fln O (getd O o I)))
                               (fdiv O (f1 O) (fofnat O batch))).
  Proof.
    intros s output target o t batch rest Ho Ht Hwo Hwt Edt Edo.
    destruct (ce_value O o t batch rest Hwo Hwt Edt Edo)
      as (nt & lo & m & r & Hb & Hnt & Hlo & Hm & Hr & Hwr & Hdr & Hv).
    destruct (cost_ce_fwd O s output target o t batch nt lo m r Ho Ht Hb Hnt Hlo Hm Hr)
      as (s' & h & Hc & Ha & Hf).
    exists s', h, r. repeat (split; [assumption|]). exact Hv.
  Qed.
End EndToEnd.

Print Assumptions layer_forward_dense.
Print Assumptions layer_forward_conv.
Print Assumptions model_forward_spec.
Print Assumptions model_backward_loss.
Print Assumptions dense_forward_value.
Print Assumptions dense_forward_value_vec.
Print Assumptions conv_forward_value.
Print Assumptions cost_mse_value.
Print Assumptions cost_ce_value.
