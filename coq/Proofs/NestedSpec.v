(** C16, all nesting depths of [arr!]: a rose tree of scalar lists builds (by
    [from_flat] at the leaves and [from_arrays] at the nodes) exactly when it is a
    well-formed nesting of some shape [d]; the result then has dimensions [d] and the
    row-major flattening of the tree as values; a full in-range multi-index reads the
    leaf element reached by following the index through the tree. *)

From Coq Require Import List Arith Bool Lia.
From Corgi Require Import Lib.OptionMonad Lib.ListFacts Model.Scalar Model.Arr Proofs.ArrFacts.
Import ListNotations.

Section Nested.
  Context {F : Type}.

  (** [arr![..]] nested to any depth: scalar rows at the leaves *)
  Inductive nest : Type :=
  | NLeaf (v : list F)
  | NNode (l : list nest).

  Lemma nest_ind' : forall P : nest -> Prop,
      (forall v, P (NLeaf v)) ->
      (forall l, Forall P l -> P (NNode l)) ->
      forall t, P t.
  Proof.
    intros P Hleaf Hnode. fix IH 1. intros [v|l].
    - apply Hleaf.
    - apply Hnode. induction l as [|c l IHl]; constructor; [apply IH|exact IHl].
  Qed.

  (** [Array::from] applied bottom-up, as the macro expands *)
  Fixpoint build (t : nest) : option (arr F) :=
    match t with
    | NLeaf v => from_flat v
    | NNode l =>
      cs <- (fix go (l : list nest) : option (list (arr F)) :=
               match l with
               | [] => Some []
               | c :: l' => a <- build c ;; r <- go l' ;; Some (a :: r)
               end) l ;;
      from_arrays cs
    end.

  Lemma build_node : forall l, build (NNode l) = cs <- mapM build l ;; from_arrays cs.
  Proof.
    intros l. simpl. f_equal. induction l as [|c l IH]; simpl; [reflexivity|].
    rewrite IH. reflexivity.
  Qed.

  (** [t] is a well-formed nesting of shape [d]: no empty level, no empty row, all
      siblings of the same shape *)
  Inductive regular : list nat -> nest -> Prop :=
  | RLeaf : forall v, v <> [] -> regular [length v] (NLeaf v)
  | RNode : forall l d, l <> [] -> Forall (regular d) l -> regular (length l :: d) (NNode l).

  Fixpoint flat (t : nest) : list F :=
    match t with
    | NLeaf v => v
    | NNode l => concat (map flat l)
    end.

  Fixpoint path (t : nest) (idx : list nat) {struct idx} : option F :=
    match idx with
    | [] => None
    | i :: rest =>
      match t with
      | NLeaf v => match rest with [] => nth_error v i | _ :: _ => None end
      | NNode l => match nth_error l i with Some c => path c rest | None => None end
      end
    end.

  Lemma build_wf : forall t a, build t = Some a -> wf a.
  Proof.
    intros [v|l] a H.
    - simpl in H. unfold from_flat in H. apply mk_some in H. destruct H as (H1 & H2 & ->).
      split; assumption.
    - rewrite build_node in H. destruct (mapM build l) as [cs|]; simpl in H; [|discriminate].
      destruct cs as [|first rest]; simpl in H; [discriminate|].
      destruct (forallb (fun a0 => dims_eqb (dims a0) (dims first)) rest); simpl in H; [|discriminate].
      apply mk_some in H. destruct H as (H1 & H2 & ->). split; assumption.
  Qed.

  Definition built (d : list nat) (t : nest) : arr F := {| dims := d; vals := flat t |}.

  Lemma built_children : forall (l : list nest) (cs : list (arr F)) d,
      Forall2 (fun t c => exists d', regular d' t /\ c = built d' t) l cs ->
      Forall (fun c => dims c = d) cs ->
      Forall (regular d) l /\ cs = map (built d) l.
  Proof.
    intros l cs d H. induction H as [|t c l cs (d' & Hr & ->) H IH]; intros Hd.
    - split; [constructor|reflexivity].
    - pose proof (Forall_inv Hd) as Hc. cbn [built dims] in Hc. subst d'.
      destruct (IH (Forall_inv_tail Hd)) as [IH1 ->]. split; [constructor; assumption|reflexivity].
  Qed.

  Theorem build_spec : forall t a,
      build t = Some a <-> exists d, regular d t /\ a = built d t.
  Proof.
    intros t. induction t as [v|l IH] using nest_ind'; intros a.
    - simpl. rewrite from_flat_spec. split.
      + intros [Hne ->]. exists [length v]. split; [constructor; exact Hne|reflexivity].
      + intros (d & Hr & ->). inversion Hr; subst. split; [assumption|reflexivity].
    - rewrite build_node, obind_some. split.
      + intros (cs & Hm & H). apply mapM_some_F2 in Hm.
        assert (Hwf : Forall wf cs).
        { clear -Hm. induction Hm as [|t c l cs Hb Hm IHm]; constructor; [|exact IHm].
          exact (build_wf t c Hb). }
        assert (Hrel : Forall2 (fun t c => exists d', regular d' t /\ c = built d' t) l cs).
        { clear -Hm IH. induction Hm as [|t c l cs Hb Hm IHm]; [constructor|].
          constructor; [apply (Forall_inv IH); exact Hb|apply IHm; exact (Forall_inv_tail IH)]. }
        apply (from_arrays_spec cs a Hwf) in H.
        destruct H as (first & rest & Hcs & Hsame & ->).
        destruct (built_children l cs (dims first) Hrel) as [Hreg ->].
        { rewrite Hcs. constructor; [reflexivity|exact Hsame]. }
        exists (length l :: dims first). split.
        * constructor; [|exact Hreg]. intros ->. discriminate Hcs.
        * unfold built. cbn [flat]. rewrite map_length, map_map. reflexivity.
      + intros (d & Hr & ->). inversion Hr as [|l' d' Hne Hreg]; subst.
        rewrite Forall_forall in IH, Hreg.
        assert (Hb : forall t, In t l -> build t = Some (built d' t)).
        { intros t Ht. apply (IH t Ht). exists d'. split; [apply Hreg; exact Ht|reflexivity]. }
        exists (map (built d') l). split; [apply mapM_some_map; exact Hb|].
        apply from_arrays_spec.
        * apply Forall_forall. intros c Hc. apply in_map_iff in Hc. destruct Hc as (t & <- & Ht).
          exact (build_wf t _ (Hb t Ht)).
        * destruct l as [|t0 l0]; [congruence|].
          exists (built d' t0), (map (built d') l0). split; [reflexivity|]. split.
          -- apply Forall_forall. intros c Hc. apply in_map_iff in Hc.
             destruct Hc as (t & <- & _). reflexivity.
          -- unfold built at 1. cbn [flat]. rewrite map_length, map_map. reflexivity.
  Qed.

  (** ragged nesting, empty levels and empty rows are refused, at every depth *)
  Corollary build_none : forall t, build t = None <-> ~ exists d, regular d t.
  Proof.
    intros t. destruct (build t) as [a|] eqn:E.
    - apply build_spec in E. destruct E as (d & Hr & _).
      split; [discriminate|]. intros H. exfalso. apply H. exists d. exact Hr.
    - split; [|reflexivity]. intros _ (d & Hr).
      assert (build t = Some (built d t)) by (apply build_spec; exists d; auto). congruence.
  Qed.

  Corollary build_regular : forall d t, regular d t -> build t = Some (built d t).
  Proof. intros d t H. apply build_spec. exists d. auto. Qed.

  Corollary regular_unique : forall d1 d2 t, regular d1 t -> regular d2 t -> d1 = d2.
  Proof.
    intros d1 d2 t H1 H2. apply build_regular in H1. apply build_regular in H2.
    rewrite H1 in H2. inversion H2. reflexivity.
  Qed.

  Corollary regular_wf : forall d t,
      regular d t -> Forall (fun x => 1 <= x) d /\ prod d = length (flat t).
  Proof. intros d t H. apply build_regular in H. apply build_wf in H. exact H. Qed.

  Lemma regular_nonempty : forall d t, regular d t -> d <> [].
  Proof. intros d t H. inversion H; discriminate. Qed.

  Lemma nth_error_concat_uniform : forall {A} (ls : list (list A)) n i j c,
      Forall (fun x => length x = n) ls ->
      nth_error ls i = Some c -> j < n ->
      nth_error (concat ls) (i * n + j) = nth_error c j.
  Proof.
    intros A ls n. induction ls as [|x ls IH]; intros i j c Hall Hi Hj.
    - destruct i; discriminate.
    - inversion Hall as [|? ? Hx Hls]; subst. destruct i as [|i]; simpl in *.
      + inversion Hi; subst. apply nth_error_app1. lia.
      + rewrite nth_error_app2 by lia.
        replace (length x + i * length x + j - length x) with (i * length x + j) by lia.
        apply IH; assumption.
  Qed.

  Lemma path_rowmajor : forall t d idx,
      regular d t -> in_range idx d ->
      path t idx = nth_error (flat t) (rowmajor d idx).
  Proof.
    intros t. induction t as [v|l IH] using nest_ind'; intros d idx Hr Hin.
    - inversion Hr; subst. unfold in_range in Hin.
      inversion Hin as [|i n rest ds Hlt Hrest]; subst. inversion Hrest; subst.
      simpl. f_equal. lia.
    - inversion Hr as [|l' d' Hne Hreg]; subst. unfold in_range in Hin.
      inversion Hin as [|i n rest ds Hlt Hrest]; subst.
      destruct (nth_error l i) as [c|] eqn:Hc; [|apply nth_error_None in Hc; lia].
      simpl. rewrite Hc.
      assert (Hcin : In c l) by (eapply nth_error_In; exact Hc).
      rewrite Forall_forall in IH, Hreg.
      rewrite (IH c Hcin d' rest (Hreg c Hcin) Hrest).
      symmetry. apply nth_error_concat_uniform.
      + apply Forall_forall. intros x Hx. apply in_map_iff in Hx. destruct Hx as (t & <- & Ht).
        destruct (regular_wf d' t (Hreg t Ht)) as [_ Hp]. symmetry. exact Hp.
      + rewrite nth_error_map, Hc. reflexivity.
      + apply rowmajor_lt_prod. exact Hrest.
  Qed.

  (** [arr![...][vec![i1; ...; ik]]] is the leaf element reached by following
      [i1], ..., [ik] through the nesting *)
  Theorem build_index : forall t a idx,
      build t = Some a -> in_range idx (dims a) ->
      exists x, index_multi a idx = Some x /\ path t idx = Some x.
  Proof.
    intros t a idx Hb Hin.
    pose proof (build_wf t a Hb) as Hwf.
    apply build_spec in Hb. destruct Hb as (d & Hr & ->). simpl in Hin.
    destruct (index_multi_spec (built d t) idx Hwf) as (x & Hx1 & Hx2).
    - simpl. eapply regular_nonempty. exact Hr.
    - exact Hin.
    - exists x. split; [exact Hx1|]. simpl in Hx2.
      rewrite (path_rowmajor t d idx Hr Hin). exact Hx2.
  Qed.

  (** outside the shape the path does not exist either (too short, too long, or out of range) *)
  Lemma path_in_range : forall t d idx x,
      regular d t -> path t idx = Some x -> in_range idx d.
  Proof.
    intros t. induction t as [v|l IH] using nest_ind'; intros d idx x Hr Hp.
    - inversion Hr; subst. destruct idx as [|i [|j rest]]; simpl in Hp; try discriminate.
      constructor; [|constructor]. apply nth_error_Some. congruence.
    - inversion Hr as [|l' d' Hne Hreg]; subst. destruct idx as [|i rest]; simpl in Hp; [discriminate|].
      destruct (nth_error l i) as [c|] eqn:Hc; [|discriminate].
      assert (Hcin : In c l) by (eapply nth_error_In; exact Hc).
      rewrite Forall_forall in IH, Hreg.
      constructor; [apply nth_error_Some; congruence|].
      apply (IH c Hcin d' rest x (Hreg c Hcin) Hp).
  Qed.
End Nested.

Arguments nest : clear implicits.

From Coq Require Import ZArith.

Example nested_depth3 :
  let t := NNode [NNode [NLeaf [1; 2; 3]; NLeaf [4; 5; 6]];
                  NNode [NLeaf [7; 8; 9]; NLeaf [10; 11; 12]]]%Z in
  build t = Some {| dims := [2; 2; 3]; vals := [1; 2; 3; 4; 5; 6; 7; 8; 9; 10; 11; 12]%Z |}
  /\ regular [2; 2; 3] t
  /\ path t [1; 0; 2] = Some 9%Z
  /\ index_multi {| dims := [2; 2; 3]; vals := [1; 2; 3; 4; 5; 6; 7; 8; 9; 10; 11; 12]%Z |} [1; 0; 2]
     = Some 9%Z.
Proof.
  intros t. repeat split.
  assert (Hb : build t = Some {| dims := [2; 2; 3];
                                 vals := [1; 2; 3; 4; 5; 6; 7; 8; 9; 10; 11; 12]%Z |}) by reflexivity.
  apply build_spec in Hb. destruct Hb as (d & Hr & E). inversion E; subst d. exact Hr.
Qed.

(** ragged at depth 2, an empty level, an empty row, mixed depths: all refused *)
Example nested_refused :
  build (NNode [NNode [NLeaf [1; 2]; NLeaf [3; 4]]; NNode [NLeaf [5; 6]; NLeaf [7]]])%Z = None
  /\ build (NNode [NNode [NLeaf [1%Z]]; NNode []]) = None
  /\ build (NNode [NLeaf [1%Z]; NLeaf []]) = None
  /\ build (NNode [NLeaf [1; 2]; NNode [NLeaf [1]; NLeaf [2]]])%Z = None
  /\ build (@NNode Z []) = None.
Proof. repeat split. Qed.

Print Assumptions build_spec.
Print Assumptions build_none.
Print Assumptions build_index.
Print Assumptions regular_wf.
Print Assumptions path_in_range.
