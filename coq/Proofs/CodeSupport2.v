(** Support ([local identity] + liftability to dual numbers) for EVERY built-in closure:
    the ones of [Proofs/CodeSupport.v] plus matmul (with or without additive term), unroll,
    expand, sigmoid and the three custom operations, with the side conditions ([code_pre2])
    their local identities need. *)

From Coq Require Import List Arith Bool.
From Corgi Require Import Lib.OptionMonad Lib.Sums Model.Scalar Model.Arr Model.Elementwise Model.Linalg
     Model.Image Model.Ops Proofs.ArrFacts Proofs.FlattenSpec Proofs.ConvSpec Proofs.DualLift Proofs.LocalAdjoint
     Proofs.LocalAdjoint2 Proofs.OpsWf Proofs.FwdCode Proofs.CodeSupport.
Import ListNotations.

Section CodeSupport2.
  Context {F : Type} (O : ScalarOps F).
  Local Notation D2 := (dual_ops O).

  (** side conditions on the operands [cs] of a closure of a node of dimensions [d] *)
  Definition code_pre2 (code : bop_code F) (d : list nat) (cs : list (arr F)) : Prop :=
    match code with
    | BSum k _ => k <= length (dims (nth 0 cs dummy_arr))
    | BMatmul ta tb => mm_pre ta tb cs
    | BUnroll depth rows cols sr sc fr fc => unroll_pre depth rows cols sr sc fr fc cs
    | BExpand fcount _ => expand_pre (dimb d 2) (dimb d 1) fcount cs
    | BCustom CMul | BCustom CAff => same_dims2 cs
    | _ => True
    end.

  Definition code_supported2 (code : bop_code F) (d : list nat) : Prop :=
    forall (cs ts : list (arr F)) (flags : list bool) (delta : arr F)
           (RD : arr (@dual F)) (ds : list (option (arr F))),
      length cs = arity code -> Forall wf cs -> Forall2 tangent_for cs ts ->
      code_pre2 code d cs ->
      fwd_of_code D2 (inj2 O) code d (lift_children O 0 flags cs ts) = Some RD ->
      code_fits code cs (primal RD) ->
      wf delta -> dims delta = dims RD ->
      run_bop O code cs flags delta = Some ds ->
      exists xs, child_terms O 0 flags cs ts ds xs /\
                 dot O (vals delta) (vals (tangent RD)) = vsum O xs.

  Definition code_liftable2 (code : bop_code F) (d : list nat) : Prop :=
    forall (cs ts : list (arr F)) (flags : list bool) (v : arr F),
      length cs = arity code -> Forall wf cs -> Forall2 tangent_for cs ts ->
      code_pre2 code d cs ->
      fwd_of_code O (fun s => s) code d cs = Some v ->
      exists RD, fwd_of_code D2 (inj2 O) code d (lift_children O 0 flags cs ts) = Some RD /\
                 primal RD = v.

  Definition code_ok2 (code : bop_code F) (d : list nat) : Prop :=
    code_supported2 code d /\ code_liftable2 code d.

  (** the codes of [CodeSupport.v]: [code_pre2] is [code_pre] on them *)
  Lemma code_ok_ok2 : forall code d,
      (forall cs, code_pre2 code d cs -> code_pre code cs) -> code_ok O code d -> code_ok2 code d.
  Proof.
    intros code d Hpre [Hs Hl]. split.
    - intros cs ts flags delta RD ds Hlen Hwf Hts Hp. apply Hs; try assumption. apply Hpre. exact Hp.
    - intros cs ts flags v Hlen Hwf Hts Hp. apply Hl; try assumption. apply Hpre. exact Hp.
  Qed.

  Lemma all_liftable2 : forall code d, code_liftable2 code d.
  Proof.
    intros code d cs ts flags v _ Hwf Hts _ Hv. exact (fwd_liftable O code d cs ts flags v Hwf Hts Hv).
  Qed.

  Section Ring.
    Hypothesis R : is_cring O.

    Lemma matmul_supported : forall ta tb d, code_supported2 (BMatmul ta tb) d.
    Proof.
      intros ta tb d.
      refine (local_supported O (code_pre2 (BMatmul ta tb) d) (BMatmul ta tb) d _ _ _
                              (matmul_local O R ta tb) _ _ _); try reflexivity.
      intros cs v Hpre _. exact Hpre.
    Qed.

    Lemma unroll_supported : forall depth rows cols sr sc fr fc d,
        code_supported2 (BUnroll depth rows cols sr sc fr fc) d.
    Proof.
      intros depth rows cols sr sc fr fc d.
      refine (local_supported O (code_pre2 (BUnroll depth rows cols sr sc fr fc) d)
                              (BUnroll depth rows cols sr sc fr fc) d _ _ _
                              (unroll_local O R depth rows cols sr sc fr fc) _ _ _); try reflexivity.
      intros cs v Hpre _. exact Hpre.
    Qed.

    Lemma custom_supported : forall c d, code_supported2 (BCustom c) d.
    Proof.
      intros c d.
      destruct c;
        [ refine (local_supported O (code_pre2 (BCustom CMul) d) (BCustom CMul) d _ _ _ (cmul_local O R) _ _ _)
        | refine (local_supported O (code_pre2 (BCustom CAff) d) (BCustom CAff) d _ _ _ (caff_local O R) _ _ _)
        | refine (local_supported O (code_pre2 (BCustom CSq) d) (BCustom CSq) d _ _ _ (csq_local O R) _ _ _) ];
        try reflexivity; intros cs v Hpre _; exact Hpre.
    Qed.

    Lemma expand_supported : forall fcount stride d, code_supported2 (BExpand fcount stride) d.
    Proof.
      intros fcount stride d.
      refine (local_supported O (code_pre2 (BExpand fcount stride) d) (BExpand fcount stride) d _ _ _
                              (expand_local O R (dimb d 2) (dimb d 1) fcount) _ _ _); try reflexivity.
      - intros cs v Hpre _. exact Hpre.
      - (* the dimensions of the result end with [fcount; rc; cc] *)
        intros l RD cs HRD [_ Hst]. destruct l as [|A [|? ?]]; try discriminate HRD.
        cbn [fwd1] in HRD. unfold expand_conv in HRD. cbv zeta in HRD. inv_bind HRD.
        apply mk_wf in HRD. destruct HRD as [_ Hd].
        change (dims (primal RD)) with (dims RD) in Hst. unfold dimb in Hst at 1 2.
        rewrite Hd, dim_back_snoc3_2, dim_back_snoc3_1 in Hst. rewrite Hst. reflexivity.
    Qed.

    Lemma matmul_ok2 : forall ta tb d, code_ok2 (BMatmul ta tb) d.
    Proof. intros. split; [apply matmul_supported | apply all_liftable2]. Qed.

    Lemma unroll_ok2 : forall depth rows cols sr sc fr fc d,
        code_ok2 (BUnroll depth rows cols sr sc fr fc) d.
    Proof. intros. split; [apply unroll_supported | apply all_liftable2]. Qed.

    Lemma expand_ok2 : forall fcount stride d, code_ok2 (BExpand fcount stride) d.
    Proof. intros. split; [apply expand_supported | apply all_liftable2]. Qed.

    Lemma custom_ok2 : forall c d, code_ok2 (BCustom c) d.
    Proof. intros. split; [apply custom_supported | apply all_liftable2]. Qed.

    Section Sigmoid.
      Hypothesis Hsig_fst : forall x x', fst (sigmoid_fn D2 (x, x')) = sigmoid_fn O x.
      Hypothesis Hsig : forall x x',
          snd (sigmoid_fn D2 (x, x'))
          = fmul O (fmul O (sigmoid_fn O x) (fsub O (f1 O) (sigmoid_fn O x))) x'.

      Lemma sigmoid_supported : forall cached d, code_supported2 (BSigmoid cached) d.
      Proof.
        intros cached d.
        refine (local_supported O (code_pre2 (BSigmoid cached) d) (BSigmoid cached) d _ _ _
                                (sigmoid_local O R Hsig_fst Hsig) _ _ _); try reflexivity.
        intros l RD cs _ Hfit. cbn [code_fits] in Hfit. rewrite Hfit. reflexivity.
      Qed.

      Lemma sigmoid_ok2 : forall cached d, code_ok2 (BSigmoid cached) d.
      Proof. intros. split; [apply sigmoid_supported | apply all_liftable2]. Qed.

      Hypothesis Hdiv : forall a b, fdiv O a b = fmul O a (fdiv O (f1 O) b).
      Hypothesis Hinv_mul : forall a b,
          fdiv O (f1 O) (fmul O a b) = fmul O (fdiv O (f1 O) a) (fdiv O (f1 O) b).
      Hypothesis Hpow2 : forall x, fpow O x (two O) = fmul O x x.

      Theorem all_code_ok2 : forall code d, code_ok2 code d.
      Proof.
        intros code d.
        destruct code as [ | | | |s| |e| |cached|k target| |ta tb|depth rows cols sr sc fr fc
                          |fcount stride| |cached|cu];
          try (apply code_ok_ok2;
               [intros cs Hp; exact Hp
               | first [apply (proven_ok O R); reflexivity
                       | apply (proven_div_ok O R Hdiv Hinv_mul Hpow2); reflexivity]]).
        - apply matmul_ok2.
        - apply unroll_ok2.
        - apply expand_ok2.
        - apply sigmoid_ok2.
        - apply custom_ok2.
      Qed.
    End Sigmoid.
  End Ring.
End CodeSupport2.

Print Assumptions matmul_ok2.
Print Assumptions unroll_ok2.
Print Assumptions expand_ok2.
Print Assumptions custom_ok2.
Print Assumptions all_code_ok2.
