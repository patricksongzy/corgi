(** [backward_exact] without the assumption that ALL gradient slots are empty: in a
    training run the store still holds the nodes of earlier iterations with full slots;
    only the slots of the leaves the new pass reaches have to be empty.

    - [backward_table_gen]: the identity in table form (no assumption on the slots): the
      seed paired with the forward tangent of the root is the sum, over the leaves, of the
      entries of the adjoint table of the pass paired with the leaf tangents; plus what the
      pass does to every leaf slot in terms of that table, and where the table is non-empty;
    - [backward_exact_gen_reach]: if the slots of the reachable leaves are empty, the sum
      is over the gradients stored on the reachable leaves.
    Both are generic in the side-condition predicate ([Proofs/C01Gen.v]); the instances for
    [code_pre3] follow. *)

From Coq Require Import List Arith Bool Lia PeanoNat.
From Corgi Require Import Lib.OptionMonad Lib.Sums Model.Scalar Model.Arr Model.SlicedOp
     Model.Elementwise Model.Linalg Model.Ops Model.Engine Model.Program
     Proofs.ArrFacts Proofs.EngineDefs Proofs.EngineBase Proofs.Propagate Proofs.AdjointSpec
     Proofs.SweepBase Proofs.SweepAdjoint Proofs.SweepAdjointG Proofs.EngineValue
     Proofs.FlattenSpec Proofs.DualLift Proofs.LocalAdjoint Proofs.OpsWf
     Proofs.HistoryInv Proofs.ValueConcrete Proofs.FwdCode Proofs.CodeSupport
     Proofs.CodeSupport2 Proofs.HistoryVC Proofs.C01Concrete Proofs.C01Gen Proofs.CodeSupport3.
Import ListNotations.

Section C01Reach.
  Context {F : Type} (O : ScalarOps F) (R : is_cring O).

  Local Notation pay := (@pay F).
  Local Notation gnode := (@gnode F).
  Local Notation E := (Program.E O).
  Local Notation E' := (ValueConcrete.E' O).
  Local Notation D2 := (dual_ops O).

  Definition tab_term (tab : table) (lt : nat -> arr F) (m : nat) : F :=
    match nth m tab None with
    | Some d => dot O (vals d) (vals (lt m))
    | None => f0 O
    end.

  Definition grad_term (g' : list gnode) (lt : nat -> arr F) (l : nat) : F :=
    match grad_at g' l with
    | Some gl => dot O (vals gl) (vals (lt l))
    | None => f0 O
    end.

  Lemma vsum_filter_restrict : forall {A} (p q : A -> bool) (f h : A -> F) l,
      (forall x, In x l -> p x = true -> q x = true -> f x = h x) ->
      (forall x, In x l -> p x = true -> q x = false -> f x = f0 O) ->
      vsum O (map f (filter p l)) = vsum O (map h (filter (fun x => p x && q x) l)).
  Proof.
    intros A p q f h l. induction l as [|a l IH]; intros H1 H2; [reflexivity |].
    assert (IH' : vsum O (map f (filter p l)) = vsum O (map h (filter (fun x => p x && q x) l))).
    { apply IH; intros x Hx; [apply H1 | apply H2]; right; exact Hx. }
    cbn [filter]. destruct (p a) eqn:Hp; cbn [andb]; [| exact IH'].
    destruct (q a) eqn:Hq; cbn [map]; rewrite !(vsum_cons O R).
    - rewrite IH', (H1 a (or_introl eq_refl) Hp Hq). reflexivity.
    - rewrite (H2 a (or_introl eq_refl) Hp Hq), (cr_add_0_l O R). exact IH'.
  Qed.

  Section Gen.
    Variable cpre : bop_code F -> list nat -> list (arr F) -> Prop.
    Variable g : list gnode.
    Variable lt : nat -> arr F.
    Hypothesis Hg : store_good g.
    Hypothesis Hvc : value_consistent O g.
    Hypothesis Hpre : pre_ok_gen cpre g.
    Hypothesis Hsupp : forall code d, code_supported_gen O cpre code d.
    Hypothesis Hliftable : forall code d, code_liftable_gen O cpre code d.
    Hypothesis Hnb : nobias_strict_gen O cpre.
    Hypothesis Hlt : leaf_tangents_ok g lt.

    Local Notation tan := (tan O g lt).

    Theorem backward_table_gen : forall r keep seed s0 ndr g' log,
        r < length g -> nth_error g r = Some ndr ->
        seed_of E g r seed = Some s0 ->
        (forall sd, seed = Some sd -> wf sd /\ dims sd = p_dims (n_pay ndr)) ->
        run_backward E g r keep seed = Some (g', log) ->
        exists tab,
          adjoints E' g r s0 = Some tab /\ length tab = length g /\
          (* the identity, in table form *)
          dot O (vals s0) (vals (tan r))
          = vsum O (map (tab_term tab lt) (filter (is_leaf g) (seq 0 (S r)))) /\
          (* the table is non-empty exactly on the reachable nodes *)
          (forall id, id < length g -> (nth id tab None <> None <-> EngineDefs.reach g r id)) /\
          (* what the pass does to the slot of a leaf *)
          (forall m nd nd', nth_error g m = Some nd -> nth_error g' m = Some nd' ->
                            n_children nd = [] ->
                            match nth m tab None with
                            | Some d => stored E' (n_grad nd) d (n_grad nd')
                            | None => n_grad nd' = n_grad nd
                            end) /\
          length g' = length g.
    Proof.
      exact (backward_table O R g lt Hg
                            (gen_exact_nodes O cpre g Hg Hvc Hpre Hsupp Hnb) Hlt).
    Qed.

    (** only the slots of the reachable leaves have to be empty; [rb] decides reachability
        (for instance through the table, see [reach_decider]) *)
    Theorem backward_exact_gen_reach : forall r keep seed s0 ndr g' log (rb : nat -> bool),
        (forall l, l < length g -> (rb l = true <-> EngineDefs.reach g r l)) ->
        (forall l nd, EngineDefs.reach g r l -> nth_error g l = Some nd ->
                      p_bop (n_pay nd) = None -> n_grad nd = None) ->
        r < length g -> nth_error g r = Some ndr ->
        seed_of E g r seed = Some s0 ->
        (forall sd, seed = Some sd -> wf sd /\ dims sd = p_dims (n_pay ndr)) ->
        run_backward E g r keep seed = Some (g', log) ->
        dot O (vals s0) (vals (tan r))
        = vsum O (map (grad_term g' lt)
                      (filter (fun l => is_leaf g l && rb l) (seq 0 (S r)))).
    Proof.
      intros r keep seed s0 ndr g' log rb Hrb Hempty Hr Hndr Hseed Hsd Hrun.
      destruct (backward_table_gen r keep seed s0 ndr g' log Hr Hndr Hseed Hsd Hrun)
        as (tab & _ & Hlen & Hid & Hreach & Hslot & Hlen').
      rewrite Hid. apply vsum_filter_restrict.
      - intros m Hm Hleaf Hrbm. apply in_seq in Hm.
        assert (Hmg : m < length g) by lia.
        destruct (nth_error g m) as [nd|] eqn:Hnd; [| apply nth_error_None in Hnd; nlia].
        destruct (nth_error g' m) as [nd'|] eqn:Hnd'; [| apply nth_error_None in Hnd'; nlia].
        unfold is_leaf in Hleaf. unfold Program.gnode in Hleaf, Hnd, Hnd'. rewrite Hnd in Hleaf.
        destruct (p_bop (n_pay nd)) as [code|] eqn:Hb; [discriminate Hleaf |].
        assert (Hre : EngineDefs.reach g r m) by (apply (Hrb m Hmg); exact Hrbm).
        pose proof (Hslot m nd nd' Hnd Hnd' (store_good_leaf g m nd Hg Hnd Hb)) as Hs.
        rewrite (Hempty m nd Hre Hnd Hb) in Hs.
        unfold tab_term, grad_term, grad_at. unfold Program.gnode. rewrite Hnd'.
        destruct (nth m tab None) as [d|]; [unfold stored in Hs; rewrite Hs; reflexivity |].
        rewrite Hs. reflexivity.
      - intros m Hm Hleaf Hrbm. apply in_seq in Hm.
        assert (Hmg : m < length g) by lia.
        unfold tab_term. destruct (nth m tab None) as [d|] eqn:Ht; [| reflexivity].
        exfalso. assert (Hre : EngineDefs.reach g r m) by (apply (Hreach m Hmg); rewrite Ht; discriminate).
        apply (Hrb m Hmg) in Hre. congruence.
    Qed.

    Lemma reach_decider : forall r keep seed s0 ndr g' log,
        r < length g -> nth_error g r = Some ndr ->
        seed_of E g r seed = Some s0 ->
        (forall sd, seed = Some sd -> wf sd /\ dims sd = p_dims (n_pay ndr)) ->
        run_backward E g r keep seed = Some (g', log) ->
        exists rb : nat -> bool, forall l, l < length g -> (rb l = true <-> EngineDefs.reach g r l).
    Proof using R Hg Hvc Hpre Hsupp Hliftable Hnb Hlt.
      intros r keep seed s0 ndr g' log Hr Hndr Hseed Hsd Hrun.
      destruct (backward_table_gen r keep seed s0 ndr g' log Hr Hndr Hseed Hsd Hrun)
        as (tab & _ & _ & _ & Hreach & _).
      exists (fun l => match nth l tab None with Some _ => true | None => false end).
      intros l Hl. rewrite <- (Hreach l Hl).
      destruct (nth l tab None); split; intro H; try reflexivity; try discriminate.
      exfalso. apply H. reflexivity.
    Qed.
  End Gen.

  Section Scalars.
    Hypothesis Hdiv : forall a b, fdiv O a b = fmul O a (fdiv O (f1 O) b).
    Hypothesis Hinv_mul : forall a b,
        fdiv O (f1 O) (fmul O a b) = fmul O (fdiv O (f1 O) a) (fdiv O (f1 O) b).
    Hypothesis Hpow2 : forall x, fpow O x (two O) = fmul O x x.
    Hypothesis Hsig_fst : forall x x', fst (sigmoid_fn D2 (x, x')) = sigmoid_fn O x.
    Hypothesis Hsig : forall x x',
        snd (sigmoid_fn D2 (x, x'))
        = fmul O (fmul O (sigmoid_fn O x) (fsub O (f1 O) (sigmoid_fn O x))) x'.

    Theorem backward_table_all : forall (g : list gnode) lt r keep seed s0 ndr g' log,
        store_good g -> value_consistent O g -> pre_ok_gen code_pre3 g -> leaf_tangents_ok g lt ->
        r < length g -> nth_error g r = Some ndr ->
        seed_of E g r seed = Some s0 ->
        (forall sd, seed = Some sd -> wf sd /\ dims sd = p_dims (n_pay ndr)) ->
        run_backward E g r keep seed = Some (g', log) ->
        exists tab,
          adjoints E' g r s0 = Some tab /\ length tab = length g /\
          dot O (vals s0) (vals (tan O g lt r))
          = vsum O (map (tab_term tab lt) (filter (is_leaf g) (seq 0 (S r)))) /\
          (forall id, id < length g -> (nth id tab None <> None <-> EngineDefs.reach g r id)) /\
          (forall m nd nd', nth_error g m = Some nd -> nth_error g' m = Some nd' ->
                            n_children nd = [] ->
                            match nth m tab None with
                            | Some d => stored E' (n_grad nd) d (n_grad nd')
                            | None => n_grad nd' = n_grad nd
                            end) /\
          length g' = length g.
    Proof.
      intros g lt r keep seed s0 ndr g' log Hg Hvc Hpre Hlt.
      apply (backward_table_gen code_pre3 g lt Hg Hvc Hpre
                                (all_supported3 O R Hsig_fst Hsig Hdiv Hinv_mul Hpow2)
                                (nobias_strict3 O) Hlt).
    Qed.

    Theorem backward_exact_reach : forall (g : list gnode) lt r keep seed s0 ndr g' log
                                          (rb : nat -> bool),
        store_good g -> value_consistent O g -> pre_ok_gen code_pre3 g -> leaf_tangents_ok g lt ->
        (forall l, l < length g -> (rb l = true <-> EngineDefs.reach g r l)) ->
        (forall l nd, EngineDefs.reach g r l -> nth_error g l = Some nd ->
                      p_bop (n_pay nd) = None -> n_grad nd = None) ->
        r < length g -> nth_error g r = Some ndr ->
        seed_of E g r seed = Some s0 ->
        (forall sd, seed = Some sd -> wf sd /\ dims sd = p_dims (n_pay ndr)) ->
        run_backward E g r keep seed = Some (g', log) ->
        dot O (vals s0) (vals (tan O g lt r))
        = vsum O (map (grad_term g' lt) (filter (fun l => is_leaf g l && rb l) (seq 0 (S r)))).
    Proof.
      intros g lt r keep seed s0 ndr g' log rb Hg Hvc Hpre Hlt.
      apply (backward_exact_gen_reach code_pre3 g lt Hg Hvc Hpre
                                      (all_supported3 O R Hsig_fst Hsig Hdiv Hinv_mul Hpow2)
                                            (nobias_strict3 O) Hlt).
    Qed.
  End Scalars.
End C01Reach.

Print Assumptions backward_table_gen.
Print Assumptions backward_exact_gen_reach.
Print Assumptions backward_exact_reach.
