(** Well-formedness of everything the array operations return (all of them end in the
    checking constructor [mk]), of what the derivative closures [run_bop] return, and the
    contract of [run_bop]: a successful run returns one slot per operand, filled exactly
    for the operands whose flag is set (or unconditionally, for the closures that do not
    look at the flag). *)

From Coq Require Import List Arith Bool Lia PeanoNat.
From Corgi Require Import Lib.OptionMonad Model.Scalar Model.Arr Model.SlicedOp
     Model.Elementwise Model.Linalg Model.Image Model.Ops
     Proofs.ArrFacts Proofs.BroadcastDims Proofs.EngineBase Proofs.SlicedOpSpec Proofs.EwSpec
     Proofs.ReduceSpec Proofs.FlattenSpec.
Import ListNotations.

(** invert a chain of monadic binds *)
Ltac inv_bind H :=
  repeat match type of H with
         | obind _ _ = Some _ =>
           let a := fresh "a" in let Ha := fresh "Ha" in
           apply obind_some in H; destruct H as (a & Ha & H)
         end.

Section OpsWf.
  Context {F : Type} (O : ScalarOps F).

  Lemma mk_wf : forall d (v : list F) a, mk d v = Some a -> wf a /\ dims a = d.
  Proof.
    intros d v a H. apply mk_some in H. destruct H as (H1 & H2 & H3). subst a.
    split; [split; assumption | reflexivity].
  Qed.

  Lemma sliced_op_wf : forall (arrays : list (arr F)) op in_dims out_dims k fl c,
      sliced_op O arrays op in_dims out_dims k fl = Some c -> wf c.
  Proof.
    intros arrays op in_dims out_dims k fl c H. rewrite sliced_op_unfold in H. cbv zeta in H.
    inv_bind H. apply mk_wf in H. tauto.
  Qed.

  Lemma map_arr_wf : forall (f : F -> F) (a c : arr F),
      map_arr f a = Some c -> wf c /\ dims c = dims a.
  Proof. intros f a c H. unfold map_arr in H. apply mk_wf in H. exact H. Qed.

  Lemma element_wise_op_wf : forall f (a b c : arr F), element_wise_op O f a b = Some c -> wf c.
  Proof.
    intros f a b c H. unfold element_wise_op in H. inv_bind H.
    eapply sliced_op_wf. exact H.
  Qed.

  Lemma element_wise_op_same : forall f (a b c : arr F),
      dims a = dims b -> element_wise_op O f a b = Some c -> wf c /\ dims c = dims a.
  Proof.
    intros f a b c Hd H. unfold element_wise_op in H. inv_bind H.
    apply sliced_op_shape in H. destruct H as [Hw Hdc]. split; [exact Hw |].
    apply element_wise_dimensions_spec in Ha. destruct Ha as [_ Ha].
    rewrite <- Hd, bmax_idem in Ha. congruence.
  Qed.

  Lemma a_add_same : forall a b c : arr F,
      dims a = dims b -> a_add O a b = Some c -> wf c /\ dims c = dims a.
  Proof. intros a b c. apply element_wise_op_same. Qed.

  Lemma a_sum_wf : forall k (a c : arr F), wf a -> a_sum O k a = Some c -> wf c.
  Proof.
    intros k a c Hw H. unfold a_sum in H. destruct (k =? 0).
    - injection H as H. subst c. exact Hw.
    - eapply sliced_op_wf. exact H.
  Qed.

  Lemma a_reshape_wf : forall d (a c : arr F), a_reshape d a = Some c -> wf c /\ dims c = d.
  Proof. intros d a c H. unfold a_reshape in H. apply mk_wf in H. exact H. Qed.

  Lemma a_matmul_wf : forall (a : arr F) ta b tb c r, a_matmul O a ta b tb c = Some r -> wf r.
  Proof.
    intros a ta b tb c r H. unfold a_matmul in H. inv_bind H. eapply sliced_op_wf. exact H.
  Qed.

  Lemma unroll_blocks_wf : forall (a : arr F) sr sc fr fc r,
      unroll_blocks O a sr sc fr fc = Some r -> wf r.
  Proof.
    intros a sr sc fr fc r H. unfold unroll_blocks in H. cbv zeta in H. inv_bind H.
    eapply sliced_op_wf. exact H.
  Qed.

  Lemma roll_blocks_wf : forall summed (a : arr F) depth rows cols sr sc fr fc r,
      roll_blocks O summed a depth rows cols sr sc fr fc = Some r -> wf r.
  Proof.
    intros summed a depth rows cols sr sc fr fc r H. unfold roll_blocks in H. cbv zeta in H.
    inv_bind H. eapply sliced_op_wf. exact H.
  Qed.

  Lemma expand_conv_wf : forall (a : arr F) rc cc r, expand_conv O a rc cc = Some r -> wf r.
  Proof.
    intros a rc cc r H. unfold expand_conv in H. cbv zeta in H. inv_bind H.
    apply mk_wf in H. tauto.
  Qed.

  Lemma zip_vals_wf : forall f (a b c : arr F), zip_vals f a b = Some c -> wf c.
  Proof. intros f a b c H. unfold zip_vals in H. apply mk_wf in H. tauto. Qed.

  Lemma custom_forward_wf : forall c (args : list (arr F)) r,
      custom_forward O c args = Some r -> wf r.
  Proof.
    intros c args r H.
    destruct c; destruct args as [|a0 [|a1 [|a2 l]]]; simpl in H; try discriminate H;
      eapply zip_vals_wf; exact H.
  Qed.

  Lemma custom_forward_arity : forall c (args : list (arr F)) r,
      custom_forward O c args = Some r ->
      length args = match c with CSq => 1 | _ => 2 end.
  Proof.
    intros c args r H.
    destruct c; destruct args as [|a0 [|a1 [|a2 l]]]; simpl in H; try discriminate H; reflexivity.
  Qed.

  Lemma zeros_wf : forall d (a : arr F), zeros O d = Some a -> wf a.
  Proof. intros d a H. unfold zeros in H. apply mk_wf in H. tauto. Qed.

  Lemma from_flat_wf : forall (v : list F) a, from_flat v = Some a -> wf a.
  Proof. intros v a H. unfold from_flat in H. apply mk_wf in H. tauto. Qed.

  Lemma from_arrays_wf : forall (l : list (arr F)) a, from_arrays l = Some a -> wf a.
  Proof.
    intros l a H. unfold from_arrays in H. destruct l as [|first rest]; [discriminate H |].
    inv_bind H. apply mk_wf in H. tauto.
  Qed.

  Lemma zeros1_wf : wf (zeros1 O).
  Proof. split; [repeat constructor | reflexivity]. Qed.

  Definition slots_wf (ds : list (option (arr F))) : Prop :=
    forall i d, nth_error ds i = Some (Some d) -> wf d.

  Definition arity (code : bop_code F) : nat :=
    match code with
    | BAdd | BMul | BDiv => 2
    | BMatmul _ _ => 3
    | BCustom CMul | BCustom CAff => 2
    | _ => 1
    end.

  (** closures that return a delta whatever the flag of their operand says *)
  Definition uncond (code : bop_code F) : bool :=
    match code with
    | BNeg | BScale _ | BRecip | BPowf _ | BLn | BExp _ | BSum _ _ | BRelu | BSigmoid _
    | BExpand _ _ => true
    | _ => false
    end.

  Definition filled (ds : list (option (arr F))) (i : nat) : Prop :=
    exists d, nth_error ds i = Some (Some d).

  (** Every slot a closure returns has one of three forms: the received adjoint [x] under the
      operand's flag, a computed delta under the flag ([when]), or a computed delta whatever
      the flag.  [slot_ok x b o]: slot [o] is filled exactly when [b] holds, with a
      well-formed array if [x] is. *)
  Definition slot_ok (x : arr F) (b : bool) (o : option (arr F)) : Prop :=
    ((exists d, o = Some d) <-> b = true) /\ (wf x -> forall d, o = Some d -> wf d).

  Lemma slot_if : forall x (b : bool), slot_ok x b (if b then Some x else None).
  Proof.
    intros x b. destruct b; split.
    - split; [reflexivity | intros _; exists x; reflexivity].
    - intros Hx d Hd. injection Hd as Hd. subst d. exact Hx.
    - split; [intros [d Hd]; discriminate Hd | discriminate].
    - intros _ d Hd. discriminate Hd.
  Qed.

  Lemma slot_when : forall x b (X : option (arr F)) o,
      when b X = Some o -> (forall r, X = Some r -> wf x -> wf r) -> slot_ok x b o.
  Proof.
    intros x b X o H HX. unfold when in H. destruct b.
    - revert H. apply obind_elim. intros r Hr H. injection H as H. subst o. split.
      + split; [reflexivity | intros _; exists r; reflexivity].
      + intros Hx d Hd. injection Hd as Hd. subst d. apply (HX r Hr Hx).
    - injection H as H. subst o. split.
      + split; [intros [d Hd]; discriminate Hd | discriminate].
      + intros _ d Hd. discriminate Hd.
  Qed.

  Lemma slot_some : forall x (r : arr F), (wf x -> wf r) -> slot_ok x true (Some r).
  Proof.
    intros x r Hr. split.
    - split; [reflexivity | intros _; exists r; reflexivity].
    - intros Hx d Hd. injection Hd as Hd. subst d. apply Hr. exact Hx.
  Qed.

  Fixpoint slots_ok (u : bool) (t : list bool) (x : arr F) (i : nat) (ds : list (option (arr F)))
    : Prop :=
    match ds with
    | [] => True
    | o :: ds' => slot_ok x (u || flag t i) o /\ slots_ok u t x (S i) ds'
    end.

  Lemma slots_ok_nth : forall u t x ds i j o,
      slots_ok u t x i ds -> nth_error ds j = Some o -> slot_ok x (u || flag t (i + j)) o.
  Proof.
    intros u t x ds. induction ds as [|o' ds IH]; intros i j o H Hj; [destruct j; discriminate Hj |].
    destruct H as (Ho & H). destruct j as [|j]; simpl in Hj.
    - injection Hj as Hj. subst o'. rewrite Nat.add_0_r. exact Ho.
    - rewrite <- Nat.add_succ_comm. apply (IH (S i) j o H Hj).
  Qed.

  (** the one case analysis of [run_bop] *)
  Lemma run_bop_slots : forall code (c : list (arr F)) t x ds,
      run_bop O code c t x = Some ds ->
      length ds = arity code /\ slots_ok (uncond code) t x 0 ds.
  Proof.
    intros code c t x ds H.
    destruct code as [ | | | |s| |e| |cached|k target| |ta tb|depth rows cols sr sc fr fc
                      |fcount stride| |cached|cu];
      try destruct cu;
      (* the operand list, as far as the closure looks at it *)
      repeat (destruct c as [|?c0 c]; cbn [run_bop] in H; try discriminate H);
      cbv zeta in H; inv_bind H; injection H as H; subst ds;
        (split; [reflexivity |]); cbn [slots_ok uncond orb];
        repeat match goal with |- _ /\ _ => split | |- True => exact I end;
        lazymatch goal with
            | |- slot_ok _ _ (if _ then _ else _) => apply slot_if
            | |- slot_ok _ _ (Some _) => apply slot_some; intro Hx
            | |- slot_ok _ _ _ => eapply slot_when; [eassumption | intros r Hr Hx]
            end.
    - (* BMul *) eapply element_wise_op_wf; exact Hr.
    - eapply element_wise_op_wf; exact Hr.
    - (* BDiv *) eapply element_wise_op_wf; exact Hr.
    - inv_bind Hr. eapply element_wise_op_wf; exact Hr.
    - (* BNeg *) eapply proj1, map_arr_wf; eassumption.
    - (* BScale *) eapply proj1, map_arr_wf; eassumption.
    - (* BRecip *) eapply element_wise_op_wf; eassumption.
    - (* BPowf *) eapply element_wise_op_wf; eassumption.
    - (* BLn *) eapply element_wise_op_wf; eassumption.
    - (* BExp *) eapply proj1, mk_wf; eassumption.
    - (* BSum *) eapply sliced_op_wf; eassumption.
    - (* BReshape *) eapply proj1, a_reshape_wf; exact Hr.
    - (* BMatmul *)
      destruct ((length (dims c0) <? 2) && (length (dims c1) <? 2) && negb ta && negb tb);
        [eapply element_wise_op_wf; exact Hr |].
      destruct ta; eapply a_matmul_wf; exact Hr.
    - destruct ((length (dims c0) <? 2) && (length (dims c1) <? 2) && negb ta && negb tb);
        [eapply element_wise_op_wf; exact Hr |].
      destruct tb; eapply a_matmul_wf; exact Hr.
    - (* BUnroll *) eapply roll_blocks_wf; exact Hr.
    - (* BExpand *) eapply proj1, mk_wf; eassumption.
    - (* BRelu *) eapply element_wise_op_wf; eassumption.
    - (* BSigmoid *) eapply proj1, mk_wf; eassumption.
    - (* CMul *) eapply zip_vals_wf; exact Hr.
    - eapply zip_vals_wf; exact Hr.
    - (* CAff *) eapply proj1, map_arr_wf; exact Hr.
    - (* CSq *) inv_bind Hr. eapply zip_vals_wf; exact Hr.
  Qed.

  Theorem run_bop_wf : forall code (c : list (arr F)) t x ds,
      wf x -> run_bop O code c t x = Some ds -> slots_wf ds.
  Proof.
    intros code c t x ds Hx H i d Hi. apply run_bop_slots in H. destruct H as (_ & H).
    destruct (slots_ok_nth _ _ _ _ 0 i (Some d) H Hi) as (_ & Hw). exact (Hw Hx d eq_refl).
  Qed.

  Theorem run_bop_contract : forall code (c : list (arr F)) t x ds,
      run_bop O code c t x = Some ds ->
      length ds = arity code /\
      forall i, i < arity code -> (filled ds i <-> (uncond code = true \/ flag t i = true)).
  Proof.
    intros code c t x ds H. apply run_bop_slots in H. destruct H as (Hlen & H).
    split; [exact Hlen |]. intros i Hi. rewrite <- Hlen in Hi. apply nth_error_Some in Hi.
    destruct (nth_error ds i) as [o|] eqn:Ho; [| contradiction Hi; reflexivity].
    destruct (slots_ok_nth _ _ _ _ 0 i o H Ho) as (Hf & _). simpl in Hf.
    rewrite <- orb_true_iff, <- Hf. unfold filled. rewrite Ho.
    split; intros [d Hd]; exists d; congruence.
  Qed.
End OpsWf.

Print Assumptions run_bop_wf.
Print Assumptions run_bop_contract.
