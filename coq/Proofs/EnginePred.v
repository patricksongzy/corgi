(** A value invariant of the reverse-mode engine: if every pending delta and every
    stored gradient satisfies a predicate [okd] relative to the payload of its node
    (think: "well-formed array of the node's dimensions"), and the three operations of
    the engine preserve it, then so does every (successful) pass.  Unlike
    [Proofs/EngineValue.v] this needs no algebra and no totality: the hypotheses only
    speak about SUCCESSFUL calls of [eo_flat], [eo_add], [eo_bop] on acceptable values.

    The invariant is carried through a pass together with a second instance [E2] of the
    engine that returns the same result whenever [E] succeeds on acceptable values: the
    pass of [E2] is then the same pass ([Proofs/EngineAgree.v]), and [E2 := E] gives
    the invariant alone. *)

From Coq Require Import List Arith Bool Lia PeanoNat.
From Corgi Require Import Lib.OptionMonad Model.Engine Proofs.EngineDefs Proofs.EngineBase
     Proofs.Propagate Proofs.EngineInv.
Import ListNotations.

Section Pred.
  Context {P D : Type}.
  Variable E : eops P D.

  Variable pok : P -> Prop.          (* acceptable payload *)
  Variable wfd : D -> Prop.          (* acceptable adjoint value, of whatever shape *)
  Variable okd : P -> D -> Prop.     (* acceptable adjoint value for a node of this payload *)

  Hypothesis okd_wfd : forall p x, okd p x -> wfd x.
  Hypothesis H_ones : forall p, pok p -> okd p (eo_ones E p).
  Hypothesis H_bop : forall p pays saved x ds i d,
      wfd x -> eo_bop E p pays saved x = Some ds -> nth_error ds i = Some (Some d) -> wfd d.
  Hypothesis H_flat : forall d p d', wfd d -> eo_flat E d p = Some d' -> okd p d'.
  Hypothesis H_add : forall p x y z, okd p x -> okd p y -> eo_add E x y = Some z -> okd p z.

  Definition nok (nd : node P D) : Prop :=
    pok (n_pay nd) /\
    (forall x, n_delta nd = Some x -> okd (n_pay nd) x) /\
    (forall x, n_grad nd = Some x -> okd (n_pay nd) x).

  Definition VInv (g : store P D) : Prop := forall id nd, nth_error g id = Some nd -> nok nd.

  Lemma VInv_nc : forall g g', map nc g' = map nc g -> VInv g -> VInv g'.
  Proof.
    intros g g' Hnc HV id nd' Hnd'.
    destruct (map_eq_nth nc g' g id nd' Hnc Hnd') as (nd & Hnd & Heq).
    unfold nc in Heq. injection Heq as Hp Hc Hd Hg.
    destruct (HV id nd Hnd) as (H1 & H2 & H3).
    unfold nok. rewrite <- Hp, <- Hd, <- Hg. tauto.
  Qed.

  Lemma propagate_nc : forall f (g : store P D) id g',
      propagate f g id = Some g' -> map nc g' = map nc g.
  Proof.
    induction f as [|f IHf]; intros g id g' H.
    - discriminate H.
    - rewrite propagate_S in H. revert H. apply obind_elim. intros nd _ H.
      revert g g' H. generalize (n_children nd) as es.
      induction es as [|e es IHes]; intros g g' H.
      + injection H as H. subst g'. reflexivity.
      + change (fold_left (pstep f) es (pstep f (Some g) e) = Some g') in H.
        destruct (pstep f (Some g) e) as [g1|] eqn:Hstep;
          [| rewrite fold_left_none in H by (intro b; reflexivity); discriminate H].
        rewrite (IHes g1 g' H).
        unfold pstep in Hstep. cbn [obind] in Hstep.
        destruct (e_tracked e).
        * revert Hstep. apply obind_elim. intros c Hc Hstep.
          revert Hstep. apply obind_elim. intros g2 Hput Hstep.
          assert (Hnc2 : map nc g2 = map nc g)
            by (eapply put_map; [exact Hput | exact Hc | reflexivity]).
          destruct (n_count c =? 0).
          -- rewrite (IHf g2 (e_node e) g1 Hstep). exact Hnc2.
          -- injection Hstep as Hstep. subst g1. exact Hnc2.
        * injection Hstep as Hstep. subst g1. reflexivity.
  Qed.

  Lemma pay_nth : forall (g g' : store P D) id nd nd',
      map sk g' = map sk g -> nth_error g id = Some nd -> nth_error g' id = Some nd' ->
      n_pay nd' = n_pay nd.
  Proof.
    intros g g' id nd nd' Hm Hn Hn'.
    destruct (map_eq_nth sk g' g id nd' Hm Hn') as (nd0 & Hn0 & Heq).
    rewrite Hn in Hn0. injection Hn0 as Hn0. subst nd0. unfold sk in Heq. congruence.
  Qed.

  Section Agree.
    Variable E2 : eops P D.
    Hypothesis S_ones : eo_ones E2 = eo_ones E.
    Hypothesis S_hasop : eo_hasop E2 = eo_hasop E.
    Hypothesis S_bop : eo_bop E2 = eo_bop E.
    Hypothesis A_flat : forall d p d', wfd d -> eo_flat E d p = Some d' -> eo_flat E2 d p = Some d'.
    Hypothesis A_add : forall p x y z,
        okd p x -> okd p y -> eo_add E x y = Some z -> eo_add E2 x y = Some z.

    Definition rec_agree (rec1 rec2 : @rec_t P D) : Prop :=
      forall g id keep seed log g' log',
        VInv g ->
        (forall s nd, seed = Some s -> nth_error g id = Some nd -> okd (n_pay nd) s) ->
        rec1 g id keep seed log = Some (g', log') ->
        rec2 g id keep seed log = Some (g', log') /\ VInv g' /\ map sk g' = map sk g.

    Lemma oadd_agree : forall p (o : option D) d z,
        (forall x, o = Some x -> okd p x) -> okd p d ->
        match o with Some x => eo_add E x d | None => Some d end = Some z ->
        okd p z /\ match o with Some x => eo_add E2 x d | None => Some d end = Some z.
    Proof.
      intros p [x|] d z Ho Hd Hz.
      - pose proof (Ho x eq_refl) as Hx.
        split; [exact (H_add p x d z Hx Hd Hz) | exact (A_add p x d z Hx Hd Hz)].
      - injection Hz as Hz. subst z. split; [exact Hd | reflexivity].
    Qed.

    Lemma deliver_agree : forall rec1 rec2 g lg e od g' lg',
        rec_agree rec1 rec2 -> VInv g -> (forall d, od = Some d -> wfd d) ->
        deliver E rec1 (Some (g, lg)) (e, od) = Some (g', lg') ->
        deliver E2 rec2 (Some (g, lg)) (e, od) = Some (g', lg') /\
        VInv g' /\ map sk g' = map sk g.
    Proof.
      intros rec1 rec2 g lg e od g' lg' Hag HV Hod H.
      destruct od as [d|];
        [| injection H as H1 H2; subst g' lg'; split; [reflexivity | split; [exact HV | reflexivity]]].
      apply deliver_inv in H.
      destruct H as (c & d' & nw & g1 & Hc & Hd' & Hnw & Hle & Hput & H).
      destruct (HV _ c Hc) as (Hp & Hdl & Hgr).
      pose proof (Hod d eq_refl) as Hwd.
      destruct (oadd_agree (n_pay c) (n_delta c) d' nw Hdl (H_flat d _ d' Hwd Hd') Hnw)
        as (Hoknw & Hnw2).
      rewrite (deliver_fwd E2 rec2 g lg e d c d' nw g1 Hc (A_flat d _ d' Hwd Hd') Hnw2 Hle Hput).
      assert (HV1 : VInv g1).
      { apply (all_nodes_put nok g _ _ g1 HV Hput). split; [exact Hp |]. split; [| exact Hgr].
        intros x Hx. injection Hx as Hx. subst x. exact Hoknw. }
      assert (Hp1 : map sk g1 = map sk g)
        by (eapply put_map; [exact Hput | exact Hc | reflexivity]).
      destruct (n_count c =? 1).
      - destruct (Hag g1 (e_node e) (e_keep e) None lg g' lg' HV1) as (H2 & HV' & Hp');
          [intros s nd Hs; discriminate Hs | exact H |].
        split; [exact H2 | split; [exact HV' | congruence]].
      - injection H as H1 H2. subst g' lg'. split; [reflexivity | split; assumption].
    Qed.

    Lemma fold_deliver_agree : forall rec1 rec2 ps g lg g' lg',
        rec_agree rec1 rec2 -> VInv g -> (forall e d, In (e, Some d) ps -> wfd d) ->
        fold_left (deliver E rec1) ps (Some (g, lg)) = Some (g', lg') ->
        fold_left (deliver E2 rec2) ps (Some (g, lg)) = Some (g', lg') /\
        VInv g' /\ map sk g' = map sk g.
    Proof.
      intros rec1 rec2 ps. induction ps as [|[e od] ps IH]; intros g lg g' lg' Hag HV Hps H.
      - injection H as H1 H2. subst g' lg'. split; [reflexivity | split; [exact HV | reflexivity]].
      - apply fold_deliver_cons in H. destruct H as ([g1 lg1] & Hd & H).
        destruct (deliver_agree rec1 rec2 g lg e od g1 lg1 Hag HV) as (Hd2 & HV1 & Hp1);
          [intros d Hd'; subst od; apply (Hps e d); left; reflexivity | exact Hd |].
        destruct (IH g1 lg1 g' lg' Hag HV1) as (H2 & HV' & Hp');
          [intros e0 d0 Hin; apply (Hps e0 d0); right; exact Hin | exact H |].
        cbn [fold_left]. rewrite Hd2. split; [exact H2 | split; [exact HV' | congruence]].
    Qed.

    Lemma finish_agree : forall g2 id keep delta log2 g' log',
        VInv g2 -> (forall nd2, nth_error g2 id = Some nd2 -> okd (n_pay nd2) delta) ->
        finish E g2 id keep delta log2 = Some (g', log') ->
        finish E2 g2 id keep delta log2 = Some (g', log') /\
        VInv g' /\ map sk g' = map sk g2.
    Proof.
      intros g2 id keep delta log2 g' log' HV Hdelta H. apply finish_inv in H.
      destruct H as (Hl & nd2 & Hnd2 & H). subst log'.
      unfold finish. rewrite Hnd2. cbn [obind].
      destruct ((match n_children nd2 with [] => true | _ => false end) || keep);
        [| subst g'; split; [reflexivity | split; [exact HV | reflexivity]]].
      destruct H as (ng & Hng & Hput). destruct (HV _ nd2 Hnd2) as (Hp & Hdl & Hgr).
      destruct (oadd_agree (n_pay nd2) (n_grad nd2) delta ng Hgr (Hdelta nd2 Hnd2) Hng)
        as (Hokng & Hng2).
      rewrite Hng2. cbn [obind]. rewrite Hput. split; [reflexivity |]. split.
      - apply (all_nodes_put nok g2 _ _ g' HV Hput). split; [exact Hp |]. split; [exact Hdl |].
        intros x Hx. injection Hx as Hx. subst x. exact Hokng.
      - eapply put_map; [exact Hput | exact Hnd2 | reflexivity].
    Qed.

    Lemma bw_body_agree : forall rec1 rec2 g1 id keep delta log g' log',
        rec_agree rec1 rec2 -> VInv g1 ->
        (forall nd1, nth_error g1 id = Some nd1 -> okd (n_pay nd1) delta) ->
        bw_body E rec1 g1 id keep delta log = Some (g', log') ->
        bw_body E2 rec2 g1 id keep delta log = Some (g', log') /\
        VInv g' /\ map sk g' = map sk g1.
    Proof.
      intros rec1 rec2 g1 id keep delta log g' log' Hag HV Hdelta H.
      apply bw_body_inv in H. destruct H as (nd1 & g2 & log2 & Hnd1 & Hmid & Hfin).
      rewrite (bw_body_eq E2 rec2 g1 id keep delta log nd1 Hnd1), S_hasop, S_bop.
      assert (H2 : forall HV2 : VInv g2, map sk g2 = map sk g1 ->
                 finish E2 g2 id keep delta log2 = Some (g', log') /\
                 VInv g' /\ map sk g' = map sk g1).
      { intros HV2 Hp2.
        destruct (finish_agree g2 id keep delta log2 g' log' HV2) as (Hf2 & HV' & Hp');
          [| exact Hfin | split; [exact Hf2 | split; [exact HV' | congruence]]].
        intros nd2 Hnd2. rewrite (pay_nth g1 g2 id nd1 nd2 Hp2 Hnd1 Hnd2). apply Hdelta. exact Hnd1. }
      destruct (eo_hasop E (n_pay nd1)).
      - destruct Hmid as (pays & ds & Hpays & Hds & Hlen & Hfold).
        rewrite Hpays. cbn [obind]. rewrite Hds. cbn [obind].
        apply Nat.leb_le in Hlen. rewrite Hlen. cbn [guard obind].
        destruct (fold_deliver_agree rec1 rec2 (combine (n_children nd1) ds) g1
                                    (log ++ [(id, delta)]) g2 log2 Hag HV) as (Hfold2 & HV2 & Hp2);
          [| exact Hfold |].
        { intros e d Hin. apply in_combine_r in Hin. destruct (In_nth_error _ _ Hin) as [i Hi].
          eapply H_bop; [eapply okd_wfd; apply Hdelta; exact Hnd1 | exact Hds | exact Hi]. }
        erewrite obind_eq by exact Hfold2. apply H2; assumption.
      - destruct Hmid as (Hnil & Hg2 & Hl2). subst g2 log2. rewrite Hnil.
        apply H2; [exact HV | reflexivity].
    Qed.

    Lemma backward_agree : forall f, rec_agree (backward E f) (backward E2 f).
    Proof.
      induction f as [|f IHf]; intros g id keep seed log g' log' HV Hseed H; [discriminate H |].
      apply backward_S_inv in H. destruct H as (nd & g1 & delta & Hnd & Hstart & H).
      destruct (HV _ nd Hnd) as (Hp & Hdl & Hgr).
      rewrite backward_S, Hnd. cbn [obind].
      assert (H1 : VInv g1 /\ map sk g1 = map sk g /\ okd (n_pay nd) delta).
      { destruct (n_delta nd) as [x|] eqn:Hx.
        - destruct Hstart as (Hdelta & Hput). subst delta. split; [| split].
          + apply (all_nodes_put nok g _ _ g1 HV Hput). split; [exact Hp |].
            split; [intros y Hy; discriminate Hy | exact Hgr].
          + eapply put_map; [exact Hput | exact Hnd | reflexivity].
          + apply Hdl. reflexivity.
        - destruct Hstart as (Hprop & Hdelta). pose proof (propagate_nc _ _ _ _ Hprop) as Hnc.
          split; [eapply VInv_nc; eassumption | split].
          + apply nc_sk. exact Hnc.
          + subst delta.
            destruct seed as [s|]; [apply (Hseed s nd eq_refl Hnd) | apply H_ones; exact Hp]. }
      destruct H1 as (HV1 & Hp1 & Hdelta).
      destruct (bw_body_agree (backward E f) (backward E2 f) g1 id keep delta log g' log' IHf HV1)
        as (H2 & HV' & Hp'); [| exact H |].
      { intros nd1 Hnd1. rewrite (pay_nth g g1 id nd nd1 Hp1 Hnd Hnd1). exact Hdelta. }
      split; [| split; [exact HV' | congruence]].
      destruct (n_delta nd); [destruct Hstart as (Hd & Hput); subst delta; rewrite Hput |
                              destruct Hstart as (Hprop & Hd); subst delta; rewrite Hprop, S_ones];
        exact H2.
    Qed.
  End Agree.

  Theorem run_backward_vinv : forall (g : store P D) r keep seed g' log,
      VInv g ->
      (forall s nd, seed = Some s -> nth_error g r = Some nd -> okd (n_pay nd) s) ->
      run_backward E g r keep seed = Some (g', log) ->
      VInv g' /\ map n_pay g' = map n_pay g.
  Proof.
    intros g r keep seed g' log HV Hseed H.
    destruct (backward_agree E eq_refl eq_refl eq_refl (fun _ _ _ _ H => H)
                             (fun _ _ _ _ _ _ H => H) (S r) g r keep seed [] g' log HV Hseed H)
      as (_ & HV' & Hsk).
    split; [exact HV' |]. change (map (fun nd => fst (sk nd)) g' = map (fun nd => fst (sk nd)) g).
    rewrite <- !(map_map sk fst), Hsk. reflexivity.
  Qed.
End Pred.

Print Assumptions run_backward_vinv.
