(** Functional, per-instruction facts about the interpreter (Model/Program.v):

    - P1 (C08, arrays are immutable): every instruction preserves the payload (dimensions,
      values, closure, buffer identity) and the child list of every existing node, only ever
      appends nodes, and leaves every pool slot it does not explicitly rebind untouched
      ([step_frame], [run_frame]);
    - P2 (C09, construction): the result handle of an operation is tracked iff some operand
      handle is; an untracked result is a childless node without closure
      ([apply_op_tracking] and companions);
    - P3 (C12, handles are transparent): the interpreter reads the pool only through [var];
      gradients, values and clearing depend only on the node of a handle.

    They rest on two descriptions of the operations, layers and costs, which come first in the
    file: as sequences of allocations ([built], [makes]: the structural invariants of
    Ownership.v and LoopRelease.v are preserved by [alloc] and follow by induction on that
    description), and against the array functions ([agrees]: an operation and its array
    computation fail together or succeed with a handle that shows the computed array).

    No assumption on the scalar operations, and no well-formedness premise on the graph. *)

From Coq Require Import List Arith Bool Lia PeanoNat.
From Corgi Require Import Lib.OptionMonad Model.Scalar Model.Arr Model.SlicedOp
     Model.Elementwise Model.Linalg Model.Image Model.Ops Model.Engine Model.Program
     Proofs.EngineDefs Proofs.EngineBase Proofs.StepView Proofs.EnginePred.
Import ListNotations.

(** one level only: [injection] would also split the pair that [alloc] computes to *)
Lemma some_inj : forall {A} (a b : A), Some a = Some b -> a = b.
Proof. intros A a b H. injection H as H. exact H. Qed.

(** a fold in the option monad preserves a reflexive-transitive relation to the start *)
Lemma fold_opt_inv : forall {A B} (R : A -> A -> Prop) (f : A -> B -> option A) (l : list B),
    (forall a, R a a) -> (forall a b c, R a b -> R b c -> R a c) ->
    (forall a b a', In b l -> f a b = Some a' -> R a a') ->
    forall a0 a1,
      fold_left (fun (acc : option A) b => obind acc (fun a => f a b)) l (Some a0) = Some a1 ->
      R a0 a1.
Proof.
  intros A B R f l Hrefl Htrans Hf a0 a1 H.
  apply (ofold_inv f (R a0) l a0 a1 H (Hrefl a0)).
  intros a b a' Ha Hb E. exact (Htrans a0 a a' Ha (Hf a b a' Hb E)).
Qed.

Section EngineFrame.
  Context {P D : Type}.
  Variable E : eops P D.

  (** a pass preserves the payload and the child entries (flags included) of every node *)
  Theorem backward_sk : forall fuel (g : store P D) id keep seed log g' log',
      backward E fuel g id keep seed log = Some (g', log') -> map sk g' = map sk g.
  Proof.
    intros fuel g id keep seed log g' log' H.
    apply (backward_agree E (fun _ => True) (fun _ => True) (fun _ _ => True)) with
        (E2 := E) (f := fuel) (g := g) (id := id) (keep := keep) (seed := seed) (log := log) (g' := g')
        (log' := log'); try reflexivity; try (intros; exact I); try (intros; assumption).
    intros j nd _. repeat split.
  Qed.

  Corollary run_backward_sk : forall (g : store P D) id keep seed g' log',
      run_backward E g id keep seed = Some (g', log') -> map sk g' = map sk g.
  Proof. intros g id keep seed g' log' H. exact (backward_sk _ _ _ _ _ _ _ _ H). Qed.

  Corollary backward_pay : forall fuel (g : store P D) id keep seed log g' log',
      backward E fuel g id keep seed log = Some (g', log') -> map n_pay g' = map n_pay g.
  Proof.
    intros fuel g id keep seed log g' log' H. apply backward_sk in H.
    transitivity (map fst (map sk g')); [rewrite map_map; reflexivity|].
    rewrite H, map_map. reflexivity.
  Qed.

  Corollary backward_children : forall fuel (g : store P D) id keep seed log g' log',
      backward E fuel g id keep seed log = Some (g', log') ->
      map n_children g' = map n_children g.
  Proof.
    intros fuel g id keep seed log g' log' H. apply backward_sk in H.
    transitivity (map snd (map sk g')); [rewrite map_map; reflexivity|].
    rewrite H, map_map. reflexivity.
  Qed.
End EngineFrame.

Section Frame.
  Context {F : Type}.

  Notation gnode := (@gnode F).
  Notation state := (@state F).

  (** the old nodes keep their payload and child entries; nodes are only appended *)
  Definition sk_prefix (g g' : list gnode) : Prop := exists tl, map sk g' = map sk g ++ tl.

  Lemma sk_prefix_refl : forall g, sk_prefix g g.
  Proof. intros g. exists []. rewrite app_nil_r. reflexivity. Qed.

  Lemma sk_prefix_trans : forall g1 g2 g3, sk_prefix g1 g2 -> sk_prefix g2 g3 -> sk_prefix g1 g3.
  Proof.
    intros g1 g2 g3 [t1 H1] [t2 H2]. exists (t1 ++ t2). rewrite H2, H1, app_assoc. reflexivity.
  Qed.

  Lemma sk_prefix_eq : forall g g', map sk g' = map sk g -> sk_prefix g g'.
  Proof. intros g g' H. exists []. rewrite app_nil_r. exact H. Qed.

  Lemma sk_prefix_app : forall g tl, sk_prefix g (g ++ tl).
  Proof. intros g tl. exists (map sk tl). apply map_app. Qed.

  Lemma sk_prefix_length : forall g g', sk_prefix g g' -> length g <= length g'.
  Proof.
    intros g g' [tl H]. apply (f_equal (@length _)) in H.
    rewrite app_length, !map_length in H. unfold Program.gnode in *. lia.
  Qed.

  Lemma sk_prefix_nth : forall g g' id nd,
      sk_prefix g g' -> nth_error g id = Some nd ->
      exists nd', nth_error g' id = Some nd' /\ n_pay nd' = n_pay nd /\
                  n_children nd' = n_children nd.
  Proof.
    intros g g' id nd [tl H] Hn. unfold Program.gnode in *.
    assert (H1 : nth_error (map sk g') id = Some (sk nd)).
    { rewrite H. rewrite nth_error_app1 by (rewrite map_length; apply nth_error_Some; congruence).
      apply map_nth_error. exact Hn. }
    rewrite nth_error_map in H1. destruct (nth_error g' id) as [nd'|]; [|discriminate].
    cbn in H1. inversion H1 as [[Hp Hc]]. exists nd'. auto.
  Qed.

  Definition sframe (s s' : state) : Prop :=
    st_pool s' = st_pool s /\ st_layers s' = st_layers s /\ st_cost s' = st_cost s /\
    st_lr s' = st_lr s /\ st_output s' = st_output s /\ st_tag s' = st_tag s /\
    sk_prefix (st_nodes s) (st_nodes s').

  Lemma sframe_refl : forall s, sframe s s.
  Proof. intros s. unfold sframe. repeat split. apply sk_prefix_refl. Qed.

  Lemma sframe_trans : forall s1 s2 s3, sframe s1 s2 -> sframe s2 s3 -> sframe s1 s3.
  Proof.
    intros s1 s2 s3 (A1 & A2 & A3 & A4 & A5 & A6 & A7) (B1 & B2 & B3 & B4 & B5 & B6 & B7).
    unfold sframe. repeat split; try congruence. eapply sk_prefix_trans; eassumption.
  Qed.

  Lemma sframe_with_nodes : forall s g, sk_prefix (st_nodes s) g -> sframe s (with_nodes s g).
  Proof. intros s g H. unfold sframe. repeat split. exact H. Qed.

  Lemma sframe_h_node : forall s s' h nd,
      sframe s s' -> h_node s h = Some nd ->
      exists nd', h_node s' h = Some nd' /\ n_pay nd' = n_pay nd /\ n_children nd' = n_children nd.
  Proof.
    intros s s' h nd Hf Hn. unfold h_node in *.
    apply (sk_prefix_nth (st_nodes s) (st_nodes s') _ nd); [apply Hf|exact Hn].
  Qed.

  Lemma sframe_h_arr : forall s s' h a, sframe s s' -> h_arr s h = Some a -> h_arr s' h = Some a.
  Proof.
    intros s s' h a Hf Ha. unfold h_arr in *.
    destruct (h_node s h) as [nd|] eqn:En; [|discriminate]. cbn [obind] in Ha.
    destruct (sframe_h_node s s' h nd Hf En) as (nd' & En' & Hp & _).
    rewrite En'. cbn [obind]. rewrite Hp. exact Ha.
  Qed.

  Lemma arr_eta : forall a : arr F, {| dims := dims a; vals := vals a |} = a.
  Proof. intros [d v]. reflexivity. Qed.

  (** the handle [h] is the fresh last node of [s'], tracked iff [t], with children [cs]
      and a closure when tracked, childless and without closure otherwise *)
  Definition fresh_res (s' : state) (h : handle) (a : arr F) (t : bool) (cs : list handle) : Prop :=
    e_tracked h = t /\ e_keep h = t /\ S (e_node h) = length (st_nodes s') /\
    h_arr s' h = Some a /\
    exists nd, h_node s' h = Some nd /\ n_count nd = 0 /\ n_delta nd = None /\ n_grad nd = None /\
               (t = false -> n_children nd = [] /\ p_bop (n_pay nd) = None) /\
               (t = true -> n_children nd = cs /\ exists code, p_bop (n_pay nd) = Some code).

  Lemma nth_error_snoc : forall {A} (l : list A) x, nth_error (l ++ [x]) (length l) = Some x.
  Proof. intros A l x. rewrite nth_error_app2 by lia. rewrite Nat.sub_diag. reflexivity. Qed.

  Lemma alloc_sframe : forall s a cs bop buf s' h,
      alloc s a cs bop buf = (s', h) -> sframe s s'.
  Proof.
    intros s a cs bop buf s' h H. unfold alloc in H. inversion H.
    apply sframe_with_nodes. apply sk_prefix_app.
  Qed.

  Lemma alloc_tracked : forall s a cs code buf s' h,
      alloc s a cs (Some code) buf = (s', h) -> fresh_res s' h a true cs.
  Proof.
    intros s a cs code buf s' h H. unfold alloc in H. inversion H. subst. clear H.
    unfold fresh_res, h_arr, h_node. cbn [e_tracked e_keep e_node mkh st_nodes with_nodes].
    rewrite app_length, nth_error_snoc. cbn [length obind n_pay]. unfold pay_arr.
    cbn [p_dims p_vals]. rewrite arr_eta. repeat split; try lia.
    eexists. split; [reflexivity|]. cbn. repeat split; try discriminate. eexists. reflexivity.
  Qed.

  Lemma alloc_untracked : forall s a buf s' h cs,
      alloc s a [] None buf = (s', h) -> fresh_res s' h a false cs.
  Proof.
    intros s a buf s' h cs H. unfold alloc in H. inversion H. subst. clear H.
    unfold fresh_res, h_arr, h_node. cbn [e_tracked e_keep e_node mkh st_nodes with_nodes].
    rewrite app_length, nth_error_snoc. cbn [length obind n_pay]. unfold pay_arr.
    cbn [p_dims p_vals]. rewrite arr_eta. repeat split; try lia.
    eexists. split; [reflexivity|]. cbn. repeat split; discriminate.
  Qed.

  Lemma alloc_if_sframe : forall s a t cs code s' h,
      alloc_if s a t cs code = (s', h) -> sframe s s'.
  Proof.
    intros s a t cs code s' h H. unfold alloc_if in H.
    destruct t; eapply alloc_sframe; exact H.
  Qed.

  Lemma alloc_if_res : forall s a t cs code s' h,
      alloc_if s a t cs code = (s', h) -> fresh_res s' h a t cs.
  Proof.
    intros s a t cs code s' h H. unfold alloc_if in H. destruct t.
    - eapply alloc_tracked. exact H.
    - eapply alloc_untracked. exact H.
  Qed.
  Lemma alloc_if_op_res : forall s a t cs code s' h,
      alloc_if s a t cs code = (s', h) -> sframe s s' /\ fresh_res s' h a t cs.
  Proof.
    intros s a t cs code s' h H. split; [eapply alloc_if_sframe|eapply alloc_if_res]; exact H.
  Qed.

  (** ** What a construction appends

      [built cu ops rs s s' made]: [s'] is [s] after a sequence of [alloc]s that returned the
      handles [made].  The children of a new node are operands ([ops]) or handles made before
      it; a node without closure is childless; a closure is attached only when some child is
      tracked or, with [cu], for a user operation; a new node shares the buffer of an existing
      one only when it reshapes one of [rs]. *)
  Inductive built (cu : bool) (ops rs : list handle) (s : state) : state -> list handle -> Prop :=
  | built_nil : built cu ops rs s s []
  | built_alloc : forall s1 made a ch bop buf,
      built cu ops rs s s1 made ->
      (forall e, In e ch -> In e ops \/ In e made) ->
      (bop = None -> ch = []) ->
      (bop <> None -> existsb e_tracked ch = true \/ cu = true) ->
      (forall b, buf = Some b ->
                 exists e nd, In e rs /\ h_node s1 e = Some nd /\ b = p_buf (n_pay nd)) ->
      built cu ops rs s (fst (alloc s1 a ch bop buf)) (made ++ [snd (alloc s1 a ch bop buf)]).

  Lemma built_sframe : forall cu ops rs s s' made, built cu ops rs s s' made -> sframe s s'.
  Proof.
    intros cu ops rs s s' made H. induction H as [|s1 made a ch bop buf _ IH _ _ _ _].
    - apply sframe_refl.
    - apply (sframe_trans s s1 _ IH).
      apply (alloc_sframe s1 a ch bop buf _ (snd (alloc s1 a ch bop buf))). apply surjective_pairing.
  Qed.

  Lemma built_app : forall cu ops ops' rs s s1 s2 m1 m2,
      built cu ops rs s s1 m1 -> built cu ops' rs s1 s2 m2 ->
      (forall e, In e ops' -> In e ops \/ In e m1) -> built cu ops rs s s2 (m1 ++ m2).
  Proof.
    intros cu ops ops' rs s s1 s2 m1 m2 H1 H2 Hops.
    induction H2 as [|s3 made a ch bop buf _ IH Hch Hnone Htr Hbuf].
    - rewrite app_nil_r. exact H1.
    - rewrite app_assoc. apply built_alloc; try assumption.
      intros e He. destruct (Hch e He) as [Ho|Hm].
      + destruct (Hops e Ho) as [Ho'|Hm1]; [left; exact Ho'|right; apply in_or_app; left; exact Hm1].
      + right. apply in_or_app. right. exact Hm.
  Qed.

  (** the result of a construction: an operand or a handle it made; with [ow], a handle it made
      whose node owns a buffer of its own *)
  Definition makes (cu ow : bool) (ops rs : list handle) (s : state) (r : state * handle) : Prop :=
    exists made, built cu ops rs s (fst r) made /\ (In (snd r) ops \/ In (snd r) made) /\
      (ow = true -> In (snd r) made /\ buf_of (st_nodes (fst r)) (e_node (snd r)) = e_node (snd r)).

  Lemma makes_refl : forall cu ops rs s h, In h ops -> makes cu false ops rs s (s, h).
  Proof.
    intros cu ops rs s h H. exists []. split; [apply built_nil|]. split; [left; exact H|discriminate].
  Qed.

  Lemma makes_weak : forall cu ow ops rs s r, makes cu ow ops rs s r -> makes cu false ops rs s r.
  Proof. intros cu ow ops rs s r (made & B & R & _). exists made. split; [exact B|]. split; [exact R|discriminate]. Qed.

  Lemma makes_bind : forall cu ow1 ow ops rs s s1 h1 r,
      makes cu ow1 ops rs s (s1, h1) -> makes cu ow (h1 :: ops) rs s1 r -> makes cu ow ops rs s r.
  Proof.
    intros cu ow1 ow ops rs s s1 h1 r (m1 & B1 & R1 & _) (m2 & B2 & R2 & W2). cbn [fst snd] in *.
    assert (Hops : forall e, In e (h1 :: ops) -> In e ops \/ In e m1)
      by (intros e [<-|He]; [exact R1|left; exact He]).
    exists (m1 ++ m2). split; [exact (built_app _ _ _ _ _ _ _ _ _ B1 B2 Hops)|]. split.
    - destruct R2 as [R2|R2].
      + destruct (Hops _ R2) as [Ho|Hm]; [left; exact Ho|right; apply in_or_app; left; exact Hm].
      + right. apply in_or_app. right. exact R2.
    - intros E. destruct (W2 E) as [Hm Hb]. split; [apply in_or_app; right; exact Hm|exact Hb].
  Qed.

  Lemma makes_sframe : forall cu ow ops rs s r, makes cu ow ops rs s r -> sframe s (fst r).
  Proof. intros cu ow ops rs s r (made & B & _). exact (built_sframe _ _ _ _ _ _ B). Qed.

  Lemma alloc_makes : forall cu ops rs s a ch bop buf,
      (forall e, In e ch -> In e ops) -> (bop = None -> ch = []) ->
      (bop <> None -> existsb e_tracked ch = true \/ cu = true) ->
      (forall b, buf = Some b ->
                 exists e nd, In e rs /\ h_node s e = Some nd /\ b = p_buf (n_pay nd)) ->
      makes cu (match buf with None => true | Some _ => false end) ops rs s (alloc s a ch bop buf).
  Proof.
    intros cu ops rs s a ch bop buf Hch Hnone Htr Hbuf. exists [snd (alloc s a ch bop buf)]. split.
    - apply (built_alloc cu ops rs s s [] a ch bop buf (built_nil _ _ _ _)); try assumption.
      intros e He. left. exact (Hch e He).
    - split; [right; left; reflexivity|]. destruct buf; [discriminate|]. intros _.
      split; [left; reflexivity|]. unfold buf_of. cbn [alloc fst snd st_nodes with_nodes e_node mkh].
      rewrite nth_error_snoc. reflexivity.
  Qed.

  Lemma alloc_if_makes : forall cu ops rs s a t ch code,
      (forall e, In e ch -> In e ops) -> (t = true -> existsb e_tracked ch = true \/ cu = true) ->
      makes cu true ops rs s (alloc_if s a t ch code).
  Proof.
    intros cu ops rs s a t ch code Hch Htr. unfold alloc_if. destruct t.
    - apply (alloc_makes cu ops rs s a ch (Some code) None);
        [exact Hch|discriminate|intros _; exact (Htr eq_refl)|discriminate].
    - apply (alloc_makes cu ops rs s a [] None None);
        [intros e []|reflexivity|intros H; contradiction H; reflexivity|discriminate].
  Qed.
End Frame.
Arguments makes_bind {F cu ow1 ow ops rs s} s1 h1 {r}.

Section OpsFacts.
  Context {F : Type} (O : ScalarOps F).

  Notation state := (@state F).

  (** [s'] frames [s]; [h] is a fresh node of [s'] holding [a], tracked iff [t], with
      children [cs] when tracked *)
  Definition op_res (s s' : state) (h : handle) (a : arr F) (t : bool) (cs : list handle) : Prop :=
    sframe s s' /\ fresh_res s' h a t cs.

  Lemma op_res_frame : forall s1 s2 s3 h a t cs,
      sframe s1 s2 -> op_res s2 s3 h a t cs -> op_res s1 s3 h a t cs.
  Proof. intros s1 s2 s3 h a t cs H [H1 H2]. split; [eapply sframe_trans; eassumption|exact H2]. Qed.

  Lemma res_tracked : forall (s' : state) h a t cs, fresh_res s' h a t cs -> e_tracked h = t.
  Proof. intros s' h a t cs H. apply H. Qed.

  Lemma res_arr : forall (s s' : state) h a t cs, op_res s s' h a t cs -> h_arr s' h = Some a.
  Proof. intros s s' h a t cs [_ H]. apply H. Qed.

  Lemma unary_eq : forall (s : state) h fwd code r,
      unary s h fwd code = Some r ->
      exists a x, h_arr s h = Some a /\ fwd a = Some x /\ r = alloc_if s x (e_tracked h) [h] (code x).
  Proof.
    intros s h fwd code r H. unfold unary in H.
    revert H. apply obind_elim. intros a Ha H. revert H. apply obind_elim. intros x Hx H.
    apply some_inj in H. eauto.
  Qed.

  Lemma unary_inv : forall (s : state) h fwd code s' h',
      unary s h fwd code = Some (s', h') ->
      exists a r, h_arr s h = Some a /\ fwd a = Some r /\ op_res s s' h' r (e_tracked h) [h].
  Proof.
    intros s h fwd code s' h' H. apply unary_eq in H. destruct H as (a & r & Ha & Hr & E).
    exists a, r. split; [exact Ha|]. split; [exact Hr|]. eapply alloc_if_op_res. symmetry. exact E.
  Qed.

  Lemma unary_makes : forall cu ops rs (s : state) h fwd code r,
      In h ops -> unary s h fwd code = Some r -> makes cu true ops rs s r.
  Proof.
    intros cu ops rs s h fwd code r Hh H. apply unary_eq in H. destruct H as (a & x & _ & _ & ->).
    apply alloc_if_makes.
    - intros e [<-|[]]. exact Hh.
    - intros Ht. left. cbn [existsb]. rewrite Ht. reflexivity.
  Qed.

  Lemma binary_eq : forall (s : state) ha hb fwd code r,
      binary s ha hb fwd code = Some r ->
      exists a b x, h_arr s ha = Some a /\ h_arr s hb = Some b /\ fwd a b = Some x /\
                    r = alloc_if s x (e_tracked ha || e_tracked hb) [ha; hb] code.
  Proof.
    intros s ha hb fwd code r H. unfold binary in H.
    revert H. apply obind_elim. intros a Ha H. revert H. apply obind_elim. intros b Hb H.
    revert H. apply obind_elim. intros x Hx H. apply some_inj in H. eauto 7.
  Qed.

  Lemma binary_inv : forall (s : state) ha hb fwd code s' h,
      binary s ha hb fwd code = Some (s', h) ->
      exists a b r, h_arr s ha = Some a /\ h_arr s hb = Some b /\ fwd a b = Some r /\
                    op_res s s' h r (e_tracked ha || e_tracked hb) [ha; hb].
  Proof.
    intros s ha hb fwd code s' h H. apply binary_eq in H. destruct H as (a & b & r & Ha & Hb & Hr & E).
    exists a, b, r. repeat (split; [assumption|]). eapply alloc_if_op_res. symmetry. exact E.
  Qed.

  Lemma binary_makes : forall cu ops rs (s : state) ha hb fwd code r,
      In ha ops -> In hb ops -> binary s ha hb fwd code = Some r -> makes cu true ops rs s r.
  Proof.
    intros cu ops rs s ha hb fwd code r Ha Hb H. apply binary_eq in H.
    destruct H as (a & b & x & _ & _ & _ & ->). apply alloc_if_makes.
    - intros e [<-|[<-|[]]]; assumption.
    - intros Ht. left. cbn [existsb]. rewrite orb_false_r. exact Ht.
  Qed.

  Lemma h_arr_node : forall (s : state) h nd, h_node s h = Some nd -> h_arr s h = Some (pay_arr (n_pay nd)).
  Proof. intros s h nd H. unfold h_arr. rewrite H. reflexivity. Qed.

  Lemma reshape_eq : forall (s : state) d h r,
      op_reshape s d h = Some r ->
      exists nd x, h_node s h = Some nd /\ a_reshape d (pay_arr (n_pay nd)) = Some x /\
        r = if e_tracked h then alloc s x [h] (Some BReshape) (Some (p_buf (n_pay nd)))
            else alloc s x [] None (Some (p_buf (n_pay nd))).
  Proof.
    intros s d h r H. unfold op_reshape in H.
    revert H. apply obind_elim. intros nd Hn H. revert H. apply obind_elim. intros x Hx H.
    apply some_inj in H. eauto.
  Qed.

  Lemma reshape_inv : forall (s : state) d h s' h',
      op_reshape s d h = Some (s', h') ->
      exists a r, h_arr s h = Some a /\ a_reshape d a = Some r /\ op_res s s' h' r (e_tracked h) [h].
  Proof.
    intros s d h s' h' H. apply reshape_eq in H. destruct H as (nd & r & Hn & Hr & E).
    exists (pay_arr (n_pay nd)), r. split; [apply h_arr_node; exact Hn|]. split; [exact Hr|].
    symmetry in E. destruct (e_tracked h).
    - split; [eapply alloc_sframe; exact E|eapply alloc_tracked; exact E].
    - split; [eapply alloc_sframe; exact E|eapply alloc_untracked; exact E].
  Qed.

  Lemma reshape_makes : forall cu ops rs (s : state) d h r,
      In h ops -> In h rs -> op_reshape s d h = Some r -> makes cu false ops rs s r.
  Proof.
    intros cu ops rs s d h r Ho Hr H. apply reshape_eq in H. destruct H as (nd & x & Hn & _ & ->).
    assert (Hbuf : forall b, Some (p_buf (n_pay nd)) = Some b ->
                     exists e nd0, In e rs /\ h_node s e = Some nd0 /\ b = p_buf (n_pay nd0))
      by (intros b Hb; apply some_inj in Hb; exists h, nd; auto).
    destruct (e_tracked h) eqn:Ht; apply alloc_makes; try exact Hbuf.
    - intros e [<-|[]]. exact Ho.
    - discriminate.
    - intros _. left. cbn [existsb]. rewrite Ht. reflexivity.
    - intros e [].
    - reflexivity.
    - intros H. contradiction H. reflexivity.
  Qed.

  (** the additive operand of [matmul] *)
  Definition opt_arr (s : state) (hc : option handle) : option (option (arr F)) :=
    match hc with Some h => x <- h_arr s h ;; Some (Some x) | None => Some None end.

  Definition mm_tracked (ha hb : handle) (hc : option handle) : bool :=
    e_tracked ha || e_tracked hb || match hc with Some h => e_tracked h | None => false end.

  Lemma matmul_eq : forall (s : state) ta tb ha hb hc r0,
      op_matmul O s ta tb ha hb hc = Some r0 ->
      exists a b c r,
        h_arr s ha = Some a /\ h_arr s hb = Some b /\ opt_arr s hc = Some c /\
        a_matmul O a ta b tb c = Some r /\
        r0 = if mm_tracked ha hb hc then
               let '(s1, h3) := match hc with
                                | Some h => (s, h)
                                | None => alloc s (zeros1 O) [] None None
                                end in
               alloc s1 r [ha; hb; h3] (Some (BMatmul ta tb)) None
             else alloc s r [] None None.
  Proof.
    intros s ta tb ha hb hc r0 H. unfold op_matmul in H.
    revert H. apply obind_elim. intros a Ha H. revert H. apply obind_elim. intros b Hb H.
    revert H. apply obind_elim. intros c Hc H. revert H. apply obind_elim. intros r Hr H.
    cbv zeta in H. fold (mm_tracked ha hb hc) in H. exists a, b, c, r.
    repeat (split; [assumption|]). destruct (mm_tracked ha hb hc); [destruct hc|]; apply some_inj in H;
      symmetry; exact H.
  Qed.

  Lemma matmul_inv : forall (s : state) ta tb ha hb hc s' h,
      op_matmul O s ta tb ha hb hc = Some (s', h) ->
      exists a b c r h3,
        h_arr s ha = Some a /\ h_arr s hb = Some b /\ opt_arr s hc = Some c /\
        a_matmul O a ta b tb c = Some r /\
        op_res s s' h r (mm_tracked ha hb hc) [ha; hb; h3] /\
        match hc with Some x => h3 = x | None => e_tracked h3 = false end.
  Proof.
    intros s ta tb ha hb hc s' h H. apply matmul_eq in H.
    destruct H as (a & b & c & r & Ha & Hb & Hc & Hr & E). symmetry in E.
    destruct (mm_tracked ha hb hc).
    - destruct hc as [x|].
      + exists a, b, c, r, x. repeat (split; [assumption|]).
        split; [|reflexivity]. split; [eapply alloc_sframe; exact E|eapply alloc_tracked; exact E].
      + destruct (alloc s (zeros1 O) [] None None) as [s1 h3] eqn:E1.
        exists a, b, c, r, h3. repeat (split; [assumption|]). split.
        * split; [|eapply alloc_tracked; exact E].
          eapply sframe_trans; [eapply alloc_sframe; exact E1|eapply alloc_sframe; exact E].
        * apply (res_tracked s1 h3 (zeros1 O) false []). eapply alloc_untracked. exact E1.
    - exists a, b, c, r, (match hc with Some x => x | None => mkh 0 false false end).
      repeat (split; [assumption|]). split.
      + split; [eapply alloc_sframe; exact E|eapply alloc_untracked; exact E].
      + destruct hc; reflexivity.
  Qed.

  Lemma matmul_makes : forall cu ops rs (s : state) ta tb ha hb hc r,
      In ha ops -> In hb ops -> (forall h, hc = Some h -> In h ops) ->
      op_matmul O s ta tb ha hb hc = Some r -> makes cu true ops rs s r.
  Proof.
    intros cu ops rs s ta tb ha hb hc r Ha Hb Hc H. apply matmul_eq in H.
    destruct H as (a & b & c & x & _ & _ & _ & _ & ->).
    destruct (mm_tracked ha hb hc) eqn:Ht.
    - destruct hc as [h|].
      + apply alloc_makes; [|discriminate| |discriminate].
        * intros e [<-|[<-|[<-|[]]]]; [assumption|assumption|apply Hc; reflexivity].
        * intros _. left. cbn [existsb]. rewrite orb_false_r, orb_assoc. exact Ht.
      + assert (M1 : makes cu true ops rs s (alloc s (zeros1 O) [] None None)).
        { apply alloc_makes; [intros e []|reflexivity|intros H; contradiction H; reflexivity|discriminate]. }
        destruct (alloc s (zeros1 O) [] None None) as [s1 h3]. apply (makes_bind s1 h3 M1).
        apply alloc_makes; [|discriminate| |discriminate].
        * intros e [<-|[<-|[<-|[]]]]; [right; assumption|right; assumption|left; reflexivity].
        * intros _. left. unfold mm_tracked in Ht. rewrite orb_false_r in Ht. cbn [existsb].
          rewrite orb_assoc, Ht. reflexivity.
    - apply alloc_makes; [intros e []|reflexivity|intros H; contradiction H; reflexivity|discriminate].
  Qed.

  Lemma sum_inv : forall (s : state) k h s' h',
      k <> 0 -> op_sum O s k h = Some (s', h') ->
      exists a r, h_arr s h = Some a /\ a_sum O k a = Some r /\ op_res s s' h' r (e_tracked h) [h].
  Proof.
    intros s k h s' h' Hk H. unfold op_sum in H. apply Nat.eqb_neq in Hk. rewrite Hk in H.
    revert H. apply obind_elim. intros a0 _ H. apply unary_inv in H. exact H.
  Qed.

  Lemma sum_makes : forall cu ops rs (s : state) k h r,
      In h ops -> op_sum O s k h = Some r -> makes cu (negb (k =? 0)) ops rs s r.
  Proof.
    intros cu ops rs s k h r Hh H. unfold op_sum in H. destruct (k =? 0).
    - apply some_inj in H. subst r. apply makes_refl. exact Hh.
    - revert H. apply obind_elim. intros a _ H. exact (unary_makes _ _ _ _ _ _ _ _ Hh H).
  Qed.

  Lemma unroll_eq_dims : forall (s : state) h sr sc fr fc r,
      op_unroll O s h sr sc fr fc = Some r ->
      exists a x depth rows cols,
        h_arr s h = Some a /\ dim_back (dims a) 3 = Some depth /\ dim_back (dims a) 2 = Some rows /\
        dim_back (dims a) 1 = Some cols /\ unroll_blocks O a sr sc fr fc = Some x /\
        r = alloc_if s x (e_tracked h) [h] (BUnroll depth rows cols sr sc fr fc).
  Proof.
    intros s h sr sc fr fc r H. unfold op_unroll in H.
    revert H. apply obind_elim. intros a Ha H. revert H. apply obind_elim. intros d Hd H.
    revert H. apply obind_elim. intros rw Hrw H. revert H. apply obind_elim. intros cl Hcl H.
    revert H. apply obind_elim. intros x Hx H. apply some_inj in H. eauto 12.
  Qed.

  Lemma unroll_eq : forall (s : state) h sr sc fr fc r,
      op_unroll O s h sr sc fr fc = Some r ->
      exists a x depth rows cols,
        h_arr s h = Some a /\ unroll_blocks O a sr sc fr fc = Some x /\
        r = alloc_if s x (e_tracked h) [h] (BUnroll depth rows cols sr sc fr fc).
  Proof.
    intros s h sr sc fr fc r H.
    destruct (unroll_eq_dims s h sr sc fr fc r H) as (a & x & d & rw & cl & Ha & _ & _ & _ & Hx & E).
    eauto 8.
  Qed.

  Lemma unroll_inv : forall (s : state) h sr sc fr fc s' h',
      op_unroll O s h sr sc fr fc = Some (s', h') ->
      exists a r, h_arr s h = Some a /\ unroll_blocks O a sr sc fr fc = Some r /\
                  op_res s s' h' r (e_tracked h) [h].
  Proof.
    intros s h sr sc fr fc s' h' H. apply unroll_eq in H.
    destruct H as (a & r & d & rw & cl & Ha & Hr & E).
    exists a, r. split; [exact Ha|]. split; [exact Hr|]. eapply alloc_if_op_res. symmetry. exact E.
  Qed.

  Lemma unroll_makes : forall cu ops rs (s : state) h sr sc fr fc r,
      In h ops -> op_unroll O s h sr sc fr fc = Some r -> makes cu true ops rs s r.
  Proof.
    intros cu ops rs s h sr sc fr fc r Hh H. apply unroll_eq in H.
    destruct H as (a & x & d & rw & cl & _ & _ & ->). apply alloc_if_makes.
    - intros e [<-|[]]. exact Hh.
    - intros Ht. left. cbn [existsb]. rewrite Ht. reflexivity.
  Qed.

  Lemma expand_eq_dim : forall (s : state) h rc cc r,
      op_expand O s h rc cc = Some r ->
      exists a x fcount,
        h_arr s h = Some a /\ dim_back (dims a) 1 = Some fcount /\ expand_conv O a rc cc = Some x /\
        r = alloc_if s x (e_tracked h) [h] (BExpand fcount (rc * cc)).
  Proof.
    intros s h rc cc r H. unfold op_expand in H.
    revert H. apply obind_elim. intros a Ha H. revert H. apply obind_elim. intros d Hd H.
    revert H. apply obind_elim. intros x Hx H. apply some_inj in H. eauto 8.
  Qed.

  Lemma expand_eq : forall (s : state) h rc cc r,
      op_expand O s h rc cc = Some r ->
      exists a x fcount,
        h_arr s h = Some a /\ expand_conv O a rc cc = Some x /\
        r = alloc_if s x (e_tracked h) [h] (BExpand fcount (rc * cc)).
  Proof.
    intros s h rc cc r H.
    destruct (expand_eq_dim s h rc cc r H) as (a & x & d & Ha & _ & Hx & E). eauto 6.
  Qed.

  Lemma expand_inv : forall (s : state) h rc cc s' h',
      op_expand O s h rc cc = Some (s', h') ->
      exists a r, h_arr s h = Some a /\ expand_conv O a rc cc = Some r /\
                  op_res s s' h' r (e_tracked h) [h].
  Proof.
    intros s h rc cc s' h' H. apply expand_eq in H. destruct H as (a & r & d & Ha & Hr & E).
    exists a, r. split; [exact Ha|]. split; [exact Hr|]. eapply alloc_if_op_res. symmetry. exact E.
  Qed.

  Lemma expand_makes : forall cu ops rs (s : state) h rc cc r,
      In h ops -> op_expand O s h rc cc = Some r -> makes cu true ops rs s r.
  Proof.
    intros cu ops rs s h rc cc r Hh H. apply expand_eq in H. destruct H as (a & x & d & _ & _ & ->).
    apply alloc_if_makes.
    - intros e [<-|[]]. exact Hh.
    - intros Ht. left. cbn [existsb]. rewrite Ht. reflexivity.
  Qed.

  Lemma custom_inv : forall (s : state) c hs s' h,
      op_custom O s c hs = Some (s', h) ->
      exists args r, mapM (h_arr s) hs = Some args /\ custom_forward O c args = Some r /\
                     op_res s s' h r true hs.
  Proof.
    intros s c hs s' h H. unfold op_custom in H.
    revert H. apply obind_elim. intros args Ha H. revert H. apply obind_elim. intros r Hr H.
    apply some_inj in H. exists args, r. split; [exact Ha|]. split; [exact Hr|].
    split; [eapply alloc_sframe; exact H|eapply alloc_tracked; exact H].
  Qed.

  Lemma custom_makes : forall ops rs (s : state) c hs r,
      (forall h, In h hs -> In h ops) -> op_custom O s c hs = Some r -> makes true true ops rs s r.
  Proof.
    intros ops rs s c hs r Hhs H. unfold op_custom in H.
    revert H. apply obind_elim. intros args _ H. revert H. apply obind_elim. intros x _ H.
    apply some_inj in H. subst r. apply alloc_makes; [exact Hhs|discriminate|right; reflexivity|discriminate].
  Qed.

  (** [a - b] is [a + (b * -1)] *)
  Lemma sub_track : forall (s : state) ha hb s' h,
      op_sub O s ha hb = Some (s', h) ->
      exists r hn, op_res s s' h r (e_tracked ha || e_tracked hb) [ha; hn] /\
                   e_tracked hn = e_tracked hb.
  Proof.
    intros s ha hb s' h H. unfold op_sub in H.
    revert H. apply obind_elim. intros [s1 hn] H1 H.
    apply unary_inv in H1. destruct H1 as (b & nb & _ & _ & R1).
    apply binary_inv in H. destruct H as (a & nb' & r & _ & _ & _ & R2).
    assert (Hn : e_tracked hn = e_tracked hb) by (apply (res_tracked _ _ _ _ _ (proj2 R1))).
    exists r, hn. rewrite Hn in R2. split; [|exact Hn].
    eapply op_res_frame; [apply R1|exact R2].
  Qed.

  Lemma sub_makes : forall cu ops rs (s : state) ha hb r,
      In ha ops -> In hb ops -> op_sub O s ha hb = Some r -> makes cu true ops rs s r.
  Proof.
    intros cu ops rs s ha hb r Ha Hb H. unfold op_sub in H.
    revert H. apply obind_elim. intros [s1 hn] H1 H.
    eapply (makes_bind s1 hn); [exact (unary_makes _ _ _ _ _ _ _ _ Hb H1)|].
    exact (binary_makes cu (hn :: ops) rs s1 ha hn _ _ r (or_intror Ha) (or_introl eq_refl) H).
  Qed.

  (** [alpha * x + y] *)
  Lemma axpy_track : forall (s : state) alpha hx hy s' h,
      op_axpy O s alpha hx hy = Some (s', h) ->
      exists r hsx, op_res s s' h r (e_tracked hx || e_tracked hy) [hsx; hy] /\
                    e_tracked hsx = e_tracked hx.
  Proof.
    intros s alpha hx hy s' h H. unfold op_axpy in H.
    revert H. apply obind_elim. intros [s1 hsx] H1 H.
    apply unary_inv in H1. destruct H1 as (x & ax & _ & _ & R1).
    apply binary_inv in H. destruct H as (ax' & y & r & _ & _ & _ & R2).
    assert (Hn : e_tracked hsx = e_tracked hx) by (apply (res_tracked _ _ _ _ _ (proj2 R1))).
    exists r, hsx. rewrite Hn in R2. split; [|exact Hn].
    eapply op_res_frame; [apply R1|exact R2].
  Qed.

  Lemma axpy_makes : forall cu ops rs (s : state) alpha hx hy r,
      In hx ops -> In hy ops -> op_axpy O s alpha hx hy = Some r -> makes cu true ops rs s r.
  Proof.
    intros cu ops rs s alpha hx hy r Hx Hy H. unfold op_axpy in H.
    revert H. apply obind_elim. intros [s1 hs] H1 H.
    eapply (makes_bind s1 hs); [exact (unary_makes _ _ _ _ _ _ _ _ Hx H1)|].
    exact (binary_makes cu (hs :: ops) rs s1 hs hy _ _ r (or_introl eq_refl) (or_intror Hy) H).
  Qed.

  (** [exp / exp.sum(1)] *)
  Lemma softmax_track : forall (s : state) hx s' h,
      op_softmax O s hx = Some (s', h) ->
      exists r he hsm, op_res s s' h r (e_tracked hx) [he; hsm] /\
                       e_tracked he = e_tracked hx /\ e_tracked hsm = e_tracked hx.
  Proof.
    intros s hx s' h H. unfold op_softmax in H.
    revert H. apply obind_elim. intros [s1 he] H1 H.
    revert H. apply obind_elim. intros [s2 hsm] H2 H.
    apply unary_inv in H1. destruct H1 as (x & ex & _ & _ & R1).
    apply sum_inv in H2; [|discriminate]. destruct H2 as (ex' & sm & _ & _ & R2).
    apply binary_inv in H. destruct H as (ex'' & sm' & r & _ & _ & _ & R3).
    assert (He : e_tracked he = e_tracked hx) by (apply (res_tracked _ _ _ _ _ (proj2 R1))).
    assert (Hs : e_tracked hsm = e_tracked hx).
    { rewrite <- He. apply (res_tracked _ _ _ _ _ (proj2 R2)). }
    exists r, he, hsm. rewrite He, Hs, orb_diag in R3. split; [|split; assumption].
    eapply op_res_frame; [apply R1|]. eapply op_res_frame; [apply R2|exact R3].
  Qed.

  Lemma softmax_makes : forall cu ops rs (s : state) hx r,
      In hx ops -> op_softmax O s hx = Some r -> makes cu true ops rs s r.
  Proof.
    intros cu ops rs s hx r Hx H. unfold op_softmax in H.
    revert H. apply obind_elim. intros [s1 he] H1 H.
    revert H. apply obind_elim. intros [s2 hsm] H2 H.
    eapply (makes_bind s1 he); [exact (unary_makes _ _ _ _ _ _ _ _ Hx H1)|].
    eapply (makes_bind s2 hsm); [exact (sum_makes cu (he :: ops) rs s1 1 he _ (or_introl eq_refl) H2)|].
    exact (binary_makes cu (hsm :: he :: ops) rs s2 he hsm _ _ r (or_intror (or_introl eq_refl)) (or_introl eq_refl) H).
  Qed.

  (** [conv]: unroll, reshape the filters, multiply, expand *)
  (** the steps of a successful [op_conv], with everything it read on the way *)
  Inductive conv_run (s : state) (sr sc : nat) (hi hf : handle) (r : state * handle) : Prop :=
  | conv_run_intro : forall image filters u1 u2 depth rows cols fr fc rc cc s1 hu ua last s2 hm s3 hcv,
      h_arr s hi = Some image -> h_arr s hf = Some filters ->
      guard (1 <=? length (dims image)) = Some u1 ->
      guard ((3 <=? length (dims image)) && (3 <=? length (dims filters))) = Some u2 ->
      dim_back (dims image) 3 = Some depth -> dim_back (dims image) 2 = Some rows ->
      dim_back (dims image) 1 = Some cols ->
      dim_back (dims filters) 2 = Some fr -> dim_back (dims filters) 1 = Some fc ->
      stride_count rows fr sr = Some rc -> stride_count cols fc sc = Some cc ->
      op_unroll O s hi sr sc fr fc = Some (s1, hu) ->
      h_arr s1 hu = Some ua -> dim_back (dims ua) 1 = Some last ->
      op_reshape s1 (firstn (length (dims filters) - 3) (dims filters) ++ [last / depth * depth]) hf
      = Some (s2, hm) ->
      op_matmul O s2 false true hu hm None = Some (s3, hcv) ->
      op_expand O s3 hcv rc cc = Some r ->
      conv_run s sr sc hi hf r.

  Lemma conv_inv : forall (s : state) sr sc hi hf r,
      op_conv O s sr sc hi hf = Some r -> conv_run s sr sc hi hf r.
  Proof.
    intros s sr sc hi hf r H. unfold op_conv in H. cbv zeta in H.
    revert H. apply obind_elim. intros image Hi H. revert H. apply obind_elim. intros filters Hf H.
    revert H. apply obind_elim. intros u1 Hu1 H. revert H. apply obind_elim. intros u2 Hu2 H.
    revert H. apply obind_elim. intros depth Hd H. revert H. apply obind_elim. intros rows Hrw H.
    revert H. apply obind_elim. intros cols Hcl H. revert H. apply obind_elim. intros fr Hfr H.
    revert H. apply obind_elim. intros fc Hfc H. revert H. apply obind_elim. intros rc Hrc H.
    revert H. apply obind_elim. intros cc Hcc H.
    revert H. apply obind_elim. intros [s1 hu] H1 H.
    revert H. apply obind_elim. intros ua Hua H. revert H. apply obind_elim. intros last Hl H.
    revert H. apply obind_elim. intros [s2 hm] H2 H.
    revert H. apply obind_elim. intros [s3 hcv] H3 H.
    exact (conv_run_intro s sr sc hi hf r image filters u1 u2 depth rows cols fr fc rc cc s1 hu ua
                          last s2 hm s3 hcv Hi Hf Hu1 Hu2 Hd Hrw Hcl Hfr Hfc Hrc Hcc H1 Hua Hl H2 H3 H).
  Qed.

  Lemma conv_eq : forall (s : state) sr sc hi hf r,
      op_conv O s sr sc hi hf = Some r ->
      exists fr fc d rc cc s1 hu s2 hm s3 hcv,
        op_unroll O s hi sr sc fr fc = Some (s1, hu) /\ d <> [] /\
        op_reshape s1 d hf = Some (s2, hm) /\
        op_matmul O s2 false true hu hm None = Some (s3, hcv) /\
        op_expand O s3 hcv rc cc = Some r.
  Proof.
    intros s sr sc hi hf r H.
    destruct (conv_inv s sr sc hi hf r H)
      as [image filters u1 u2 depth rows cols fr fc rc cc s1 hu ua last s2 hm s3 hcv
          _ _ _ _ _ _ _ _ _ _ _ H1 _ _ H2 H3 H4].
    exists fr, fc, (firstn (length (dims filters) - 3) (dims filters) ++ [last / depth * depth]),
      rc, cc, s1, hu, s2, hm, s3, hcv.
    split; [exact H1|]. split; [intros E; apply app_eq_nil in E; destruct E as [_ E]; discriminate E|].
    split; [exact H2|]. split; [exact H3|exact H4].
  Qed.

  Lemma conv_track : forall (s : state) sr sc hi hf s' h,
      op_conv O s sr sc hi hf = Some (s', h) ->
      exists r hcv, op_res s s' h r (e_tracked hi || e_tracked hf) [hcv] /\
                    e_tracked hcv = e_tracked hi || e_tracked hf.
  Proof.
    intros s sr sc hi hf s' h H. apply conv_eq in H.
    destruct H as (fr & fc & d & rc & cc & s1 & hu & s2 & hm & s3 & hcv & H1 & _ & H2 & H3 & H).
    apply unroll_inv in H1. destruct H1 as (a1 & r1 & _ & _ & R1).
    apply reshape_inv in H2. destruct H2 as (a2 & r2 & _ & _ & R2).
    apply matmul_inv in H3. destruct H3 as (a3 & b3 & c3 & r3 & h3 & _ & _ & _ & _ & R3 & _).
    apply expand_inv in H. destruct H as (a4 & r4 & _ & _ & R4).
    assert (Hcv : e_tracked hcv = e_tracked hi || e_tracked hf).
    { rewrite (res_tracked _ _ _ _ _ (proj2 R3)). unfold mm_tracked.
      rewrite (res_tracked _ _ _ _ _ (proj2 R1)), (res_tracked _ _ _ _ _ (proj2 R2)).
      apply orb_false_r. }
    exists r4, hcv. split; [|exact Hcv]. rewrite Hcv in R4.
    eapply op_res_frame; [apply R1|]. eapply op_res_frame; [apply R2|].
    eapply op_res_frame; [apply R3|exact R4].
  Qed.

  Lemma conv_makes : forall cu ops rs (s : state) sr sc hi hf r,
      In hi ops -> In hf ops -> In hf rs -> op_conv O s sr sc hi hf = Some r -> makes cu true ops rs s r.
  Proof.
    intros cu ops rs s sr sc hi hf r Hi Hf Hrs H. apply conv_eq in H.
    destruct H as (fr & fc & d & rc & cc & s1 & hu & s2 & hm & s3 & hcv & H1 & _ & H2 & H3 & H).
    eapply (makes_bind s1 hu); [exact (unroll_makes _ _ _ _ _ _ _ _ _ _ Hi H1)|].
    eapply (makes_bind s2 hm); [exact (reshape_makes cu (hu :: ops) rs s1 _ hf _ (or_intror Hf) Hrs H2)|].
    eapply (makes_bind s3 hcv).
    - apply (matmul_makes cu (hm :: hu :: ops) rs s2 false true hu hm None _
                          (or_intror (or_introl eq_refl)) (or_introl eq_refl)); [discriminate|exact H3].
    - exact (expand_makes cu (hcv :: hm :: hu :: ops) rs s3 hcv rc cc r (or_introl eq_refl) H).
  Qed.

  (** ** Operations against the array functions

      [agrees s o v]: the operation [o], run in [s], and the array computation [v] fail together,
      or succeed with a result handle that shows the computed array *)
  Definition agrees (s : state) (o : option (state * handle)) (v : option (arr F)) : Prop :=
    match o, v with
    | Some res, Some r => sframe s (fst res) /\ h_arr (fst res) (snd res) = Some r
    | None, None => True
    | _, _ => False
    end.

  Lemma agrees_some : forall (s : state) o r,
      agrees s o (Some r) -> exists s' h, o = Some (s', h) /\ h_arr s' h = Some r /\ sframe s s'.
  Proof. intros s [[s' h]|] r H; [|destruct H]. destruct H as [Hf Ha]. exists s', h. auto. Qed.

  Lemma agrees_bind : forall (s : state) o v (k : state * handle -> option (state * handle)) kv,
      agrees s o v ->
      (forall s1 h1 r1, sframe s s1 -> h_arr s1 h1 = Some r1 -> agrees s1 (k (s1, h1)) (kv r1)) ->
      agrees s (x <- o ;; k x) (y <- v ;; kv y).
  Proof.
    intros s [[s1 h1]|] [r1|] k kv H Hk; try destruct H; [|exact I]. cbn [obind fst snd] in *.
    specialize (Hk s1 h1 r1 H H0). destruct (k (s1, h1)) as [res|], (kv r1) as [r|]; try exact Hk.
    destruct Hk as [Hf Ha]. split; [exact (sframe_trans _ _ _ H Hf)|exact Ha].
  Qed.

  Lemma agrees_step : forall (s : state) o r1 (k : state * handle -> option (state * handle)) v,
      agrees s o (Some r1) ->
      (forall s1 h1, sframe s s1 -> h_arr s1 h1 = Some r1 -> agrees s1 (k (s1, h1)) v) ->
      agrees s (x <- o ;; k x) v.
  Proof.
    intros s [[s1 h1]|] r1 k v H Hk; [|destruct H]. destruct H as [Hf Ha]. cbn [obind fst snd] in *.
    specialize (Hk s1 h1 Hf Ha). destruct (k (s1, h1)) as [res|], v as [r|]; try exact Hk.
    destruct Hk as [Hf2 Ha2]. split; [exact (sframe_trans _ _ _ Hf Hf2)|exact Ha2].
  Qed.

  Lemma op_res_agrees : forall (s s' : state) h r t cs, op_res s s' h r t cs -> agrees s (Some (s', h)) (Some r).
  Proof. intros s s' h r t cs R. split; [apply R|exact (res_arr _ _ _ _ _ _ R)]. Qed.

  Lemma unary_agrees : forall (s : state) h fwd code a,
      h_arr s h = Some a -> agrees s (unary s h fwd code) (fwd a).
  Proof.
    intros s h fwd code a Ha. unfold unary. rewrite Ha. cbn [obind]. destruct (fwd a) as [r|]; [|exact I].
    cbn [obind]. destruct (alloc_if s r (e_tracked h) [h] (code r)) as [s' h'] eqn:E.
    exact (op_res_agrees _ _ _ _ _ _ (alloc_if_op_res _ _ _ _ _ _ _ E)).
  Qed.

  Lemma binary_agrees : forall (s : state) ha hb fwd code a b,
      h_arr s ha = Some a -> h_arr s hb = Some b -> agrees s (binary s ha hb fwd code) (fwd a b).
  Proof.
    intros s ha hb fwd code a b Ha Hb. unfold binary. rewrite Ha, Hb. cbn [obind].
    destruct (fwd a b) as [r|]; [|exact I]. cbn [obind].
    destruct (alloc_if s r (e_tracked ha || e_tracked hb) [ha; hb] code) as [s' h'] eqn:E.
    exact (op_res_agrees _ _ _ _ _ _ (alloc_if_op_res _ _ _ _ _ _ _ E)).
  Qed.

  Lemma sum_agrees : forall (s : state) k h a,
      k <> 0 -> h_arr s h = Some a -> agrees s (op_sum O s k h) (a_sum O k a).
  Proof.
    intros s k h a Hk Ha. unfold op_sum. apply Nat.eqb_neq in Hk. rewrite Hk, Ha. cbn [obind].
    apply unary_agrees. exact Ha.
  Qed.

  Lemma reshape_agrees : forall (s : state) d h a,
      h_arr s h = Some a -> agrees s (op_reshape s d h) (a_reshape d a).
  Proof.
    intros s d h a Ha. destruct (op_reshape s d h) as [[s' h']|] eqn:E.
    - apply reshape_inv in E. destruct E as (a' & r & Ha' & Hr & R). rewrite Ha in Ha'.
      apply some_inj in Ha'. subst a'. rewrite Hr. exact (op_res_agrees _ _ _ _ _ _ R).
    - unfold op_reshape in E. unfold h_arr in Ha. destruct (h_node s h) as [nd|]; [|discriminate Ha].
      apply some_inj in Ha. subst a. cbn [obind] in E.
      destruct (a_reshape d (pay_arr (n_pay nd))); [discriminate E|exact I].
  Qed.

  Lemma matmul_agrees : forall (s : state) ta tb ha hb hc a b c,
      h_arr s ha = Some a -> h_arr s hb = Some b -> opt_arr s hc = Some c ->
      agrees s (op_matmul O s ta tb ha hb hc) (a_matmul O a ta b tb c).
  Proof.
    intros s ta tb ha hb hc a b c Ha Hb Hc. destruct (op_matmul O s ta tb ha hb hc) as [[s' h]|] eqn:E.
    - apply matmul_inv in E. destruct E as (a' & b' & c' & r & h3 & Ha' & Hb' & Hc' & Hr & R & _).
      rewrite Ha in Ha'. rewrite Hb in Hb'. rewrite Hc in Hc'. apply some_inj in Ha', Hb', Hc'.
      subst a' b' c'. rewrite Hr. exact (op_res_agrees _ _ _ _ _ _ R).
    - unfold op_matmul in E. rewrite Ha, Hb in E. cbn [obind] in E. fold (opt_arr s hc) in E.
      rewrite Hc in E. cbn [obind] in E. destruct (a_matmul O a ta b tb c); [|exact I]. cbn [obind] in E.
      cbv zeta in E.
      destruct (e_tracked ha || e_tracked hb || match hc with Some h => e_tracked h | None => false end);
        [destruct hc; [|destruct (alloc s (zeros1 O) [] None None)]|]; discriminate E.
  Qed.

  Lemma unroll_agrees : forall (s : state) h sr sc fr fc a,
      h_arr s h = Some a -> agrees s (op_unroll O s h sr sc fr fc) (unroll_blocks O a sr sc fr fc).
  Proof.
    intros s h sr sc fr fc a Ha. unfold op_unroll. rewrite Ha. cbn [obind].
    destruct (dim_back (dims a) 3) as [d3|] eqn:D3;
      [|unfold unroll_blocks; cbv zeta; rewrite D3; exact I].
    destruct (dim_back (dims a) 2) as [d2|] eqn:D2;
      [|unfold unroll_blocks; cbv zeta; rewrite D3, D2; exact I].
    destruct (dim_back (dims a) 1) as [d1|] eqn:D1;
      [|unfold unroll_blocks; cbv zeta; rewrite D3, D2, D1; exact I].
    cbn [obind]. destruct (unroll_blocks O a sr sc fr fc) as [r|]; [|exact I]. cbn [obind].
    destruct (alloc_if s r (e_tracked h) [h] (BUnroll d3 d2 d1 sr sc fr fc)) as [s' h'] eqn:E.
    exact (op_res_agrees _ _ _ _ _ _ (alloc_if_op_res _ _ _ _ _ _ _ E)).
  Qed.

  Lemma expand_agrees : forall (s : state) h rc cc a,
      h_arr s h = Some a -> agrees s (op_expand O s h rc cc) (expand_conv O a rc cc).
  Proof.
    intros s h rc cc a Ha. unfold op_expand. rewrite Ha. cbn [obind].
    destruct (dim_back (dims a) 1) as [fcount|] eqn:D1;
      [|unfold expand_conv; cbv zeta; rewrite D1; exact I].
    cbn [obind]. destruct (expand_conv O a rc cc) as [r|]; [|exact I]. cbn [obind].
    destruct (alloc_if s r (e_tracked h) [h] (BExpand fcount (rc * cc))) as [s' h'] eqn:E.
    exact (op_res_agrees _ _ _ _ _ _ (alloc_if_op_res _ _ _ _ _ _ _ E)).
  Qed.

  Lemma sub_agrees : forall (s : state) ha hb a b,
      h_arr s ha = Some a -> h_arr s hb = Some b -> agrees s (op_sub O s ha hb) (a_sub O a b).
  Proof.
    intros s ha hb a b Ha Hb. unfold op_sub, a_sub.
    apply (agrees_bind s (op_neg O s hb) (a_neg O b) (fun r => let '(s1, hn) := r in op_add O s1 ha hn));
      [exact (unary_agrees s hb _ _ b Hb)|].
    intros s1 hn nb Hf Hn. exact (binary_agrees s1 ha hn _ _ a nb (sframe_h_arr s s1 ha a Hf Ha) Hn).
  Qed.

  Lemma softmax_agrees : forall (s : state) hx a,
      h_arr s hx = Some a -> agrees s (op_softmax O s hx) (a_softmax O a).
  Proof.
    intros s hx a Ha. unfold op_softmax, a_softmax.
    apply (agrees_bind s (op_exp O s hx) (a_exp O a)
             (fun r1 => let '(s1, he) := r1 in r2 <- op_sum O s1 1 he ;; let '(s2, hs) := r2 in op_div O s2 he hs));
      [exact (unary_agrees s hx _ _ a Ha)|].
    intros s1 he e _ He.
    apply (agrees_bind s1 (op_sum O s1 1 he) (a_sum O 1 e) (fun r2 => let '(s2, hs) := r2 in op_div O s2 he hs));
      [exact (sum_agrees s1 1 he e (Nat.neq_succ_0 0) He)|].
    intros s2 hs sm Hf Hs. exact (binary_agrees s2 he hs _ _ e sm (sframe_h_arr s1 s2 he e Hf He) Hs).
  Qed.

  (** [conv]: the checks and the dimensions are computed alike on both sides; then unroll,
      reshape the filters, multiply, expand, each reading what the previous left *)
  Lemma conv_agrees : forall (s : state) sr sc hi hf image filters,
      h_arr s hi = Some image -> h_arr s hf = Some filters ->
      agrees s (op_conv O s sr sc hi hf) (conv O image filters sr sc).
  Proof.
    intros s sr sc hi hf image filters Hi Hf. unfold op_conv, conv. rewrite Hi, Hf. cbn [obind]. cbv zeta.
    destruct (guard (1 <=? length (dims image))) as [[]|]; [|exact I]. cbn [obind].
    destruct (guard ((3 <=? length (dims image)) && (3 <=? length (dims filters)))) as [[]|]; [|exact I].
    cbn [obind].
    destruct (dim_back (dims image) 3) as [depth|]; [|exact I]. cbn [obind].
    destruct (dim_back (dims image) 2) as [rows|]; [|exact I]. cbn [obind].
    destruct (dim_back (dims image) 1) as [cols|]; [|exact I]. cbn [obind].
    destruct (dim_back (dims filters) 2) as [fr|]; [|exact I]. cbn [obind].
    destruct (dim_back (dims filters) 1) as [fc|]; [|exact I]. cbn [obind].
    destruct (stride_count rows fr sr) as [rcount|]; [|exact I]. cbn [obind].
    destruct (stride_count cols fc sc) as [ccount|]; [|exact I]. cbn [obind].
    refine (agrees_bind s _ _ (fun r1 => let '(s1, hu) := r1 in _) _ (unroll_agrees s hi sr sc fr fc image Hi) _).
    intros s1 hu u F1 Hu. rewrite Hu. cbn [obind].
    destruct (dim_back (dims u) 1) as [last|]; [|exact I]. cbn [obind].
    refine (agrees_bind s1 _ _ (fun r2 => let '(s2, hm) := r2 in _) _
                        (reshape_agrees s1 _ hf filters (sframe_h_arr s s1 hf filters F1 Hf)) _).
    intros s2 hm fm F2 Hm.
    refine (agrees_bind s2 _ _ (fun r3 => let '(s3, hcv) := r3 in _) _
                        (matmul_agrees s2 false true hu hm None u fm None (sframe_h_arr s1 s2 hu u F2 Hu) Hm eq_refl) _).
    intros s3 hcv cv _ Hcv. exact (expand_agrees s3 hcv rcount ccount cv Hcv).
  Qed.

  (** * P2: tracking of the result of every operation constructor *)

  Definition is_custom_op (k : @opk F) : bool := match k with OCustom _ => true | _ => false end.
  Definition is_sum0 (k : @opk F) : bool := match k with OSum 0 => true | _ => false end.
  (** operations built from several recorded primitives *)
  Definition is_composite (k : @opk F) : bool :=
    match k with OSub | OAxpy _ | OSoftmax | OConv _ _ => true | _ => false end.

  (** the general form: frame, fresh result node, tracked iff some operand is, and a tracked
      result has at least one tracked child entry *)
  Theorem apply_op_res : forall (s : state) k hs s' h,
      apply_op O s k hs = Some (s', h) -> is_custom_op k = false -> is_sum0 k = false ->
      exists r cs, op_res s s' h r (existsb e_tracked hs) cs /\
                   (existsb e_tracked hs = true -> existsb e_tracked cs = true) /\
                   (is_composite k = false ->
                    cs = hs \/ exists h3, cs = hs ++ [h3] /\ e_tracked h3 = false).
  Proof.
    intros s k hs s' h H Hc Hs0. apply apply_op_cases in H.
    destruct H as [k x fwd code _ H | k x y fwd code _ H | x y H | k x H | d x H | ta tb x y H
                   | ta tb x y z H | sr sc x y H | x H | alpha x y H | c hs H];
      cbn [existsb]; rewrite ?orb_false_r.
    - apply unary_inv in H. destruct H as (a & r & _ & _ & R).
      exists r, [x]. split; [exact R|]. split; [cbn; rewrite orb_false_r; auto|]. auto.
    - apply binary_inv in H. destruct H as (a & b & r & _ & _ & _ & R).
      exists r, [x; y]. split; [exact R|]. split; [cbn; rewrite orb_false_r; auto|]. auto.
    - apply sub_track in H. destruct H as (r & hn & R & Hn).
      exists r, [x; hn]. split; [exact R|]. split; [cbn; rewrite Hn, orb_false_r; auto|].
      discriminate.
    - destruct k as [|k]; [discriminate Hs0|].
      apply sum_inv in H; [|discriminate]. destruct H as (a & r & _ & _ & R).
      exists r, [x]. split; [exact R|]. split; [cbn; rewrite orb_false_r; auto|]. auto.
    - apply reshape_inv in H. destruct H as (a & r & _ & _ & R).
      exists r, [x]. split; [exact R|]. split; [cbn; rewrite orb_false_r; auto|]. auto.
    - apply matmul_inv in H. destruct H as (a & b & c & r & h3 & _ & _ & _ & _ & R & H3).
      unfold mm_tracked in R. rewrite orb_false_r in R.
      exists r, [x; y; h3]. split; [exact R|]. split.
      + intros Ht. cbn. rewrite H3, orb_false_r. exact Ht.
      + intros _. right. exists h3. auto.
    - apply matmul_inv in H. destruct H as (a & b & c & r & h3 & _ & _ & _ & _ & R & H3).
      subst h3. unfold mm_tracked in R. rewrite orb_assoc.
      exists r, [x; y; z]. split; [exact R|]. split; [cbn; rewrite orb_false_r, orb_assoc; auto|]. auto.
    - apply conv_track in H. destruct H as (r & hcv & R & Hcv).
      exists r, [hcv]. split; [exact R|]. split; [cbn; rewrite Hcv, orb_false_r; auto|]. discriminate.
    - apply softmax_track in H. destruct H as (r & he & hsm & R & He & Hs).
      exists r, [he; hsm]. split; [exact R|]. split; [cbn; rewrite He, Hs, orb_false_r, orb_diag; auto|].
      discriminate.
    - apply axpy_track in H. destruct H as (r & hsx & R & Hx).
      exists r, [hsx; y]. split; [exact R|]. split; [cbn; rewrite Hx, orb_false_r; auto|]. discriminate.
    - discriminate Hc.
  Qed.

  (** the statement of C09 (construction), spelled out *)
  Theorem apply_op_tracking : forall (s : state) k hs s' h,
      apply_op O s k hs = Some (s', h) -> is_custom_op k = false -> is_sum0 k = false ->
      e_tracked h = existsb e_tracked hs /\ e_keep h = e_tracked h /\
      S (e_node h) = length (st_nodes s') /\
      exists nd,
        h_node s' h = Some nd /\ n_count nd = 0 /\ n_delta nd = None /\ n_grad nd = None /\
        (e_tracked h = false -> n_children nd = [] /\ p_bop (n_pay nd) = None) /\
        (e_tracked h = true ->
         (exists code, p_bop (n_pay nd) = Some code) /\
         existsb e_tracked (n_children nd) = true /\
         (is_composite k = false ->
          n_children nd = hs \/
          exists h3, n_children nd = hs ++ [h3] /\ e_tracked h3 = false)).
  Proof.
    intros s k hs s' h H Hc Hs0.
    destruct (apply_op_res s k hs s' h H Hc Hs0) as (r & cs & [_ R] & Hcs & Hprim).
    destruct R as (Ht & Hk & Hid & _ & nd & Hn & H1 & H2 & H3 & Hf & Htr).
    split; [exact Ht|]. split; [congruence|]. split; [exact Hid|].
    exists nd. split; [exact Hn|]. repeat (split; [assumption|]). split.
    - intros E. apply Hf. congruence.
    - intros E. assert (Et : existsb e_tracked hs = true) by congruence.
      destruct (Htr Et) as [Hch Hcode]. split; [exact Hcode|]. rewrite Hch.
      split; [apply Hcs; exact Et|exact Hprim].
  Qed.

  (** a user closure is always recorded: the result is tracked whatever the operands are *)
  Theorem apply_op_custom : forall (s : state) c hs s' h,
      apply_op O s (OCustom c) hs = Some (s', h) ->
      exists r, op_res s s' h r true hs.
  Proof.
    intros s c hs s' h H.
    assert (H' : op_custom O s c hs = Some (s', h)) by (destruct hs; exact H).
    apply custom_inv in H'. destruct H' as (args & r & _ & _ & R). exists r. exact R.
  Qed.

  (** [sum(0)] is [self.clone()]: the operand handle itself, nothing is allocated *)
  Theorem apply_op_sum0 : forall (s : state) x s' h,
      apply_op O s (OSum 0) [x] = Some (s', h) -> s' = s /\ h = x.
  Proof. intros s x s' h H. cbn in H. inversion H. auto. Qed.

  (** the operands whose buffer the result may share *)
  Definition reshaped (k : @opk F) (hs : list handle) : list handle :=
    match k, hs with
    | OReshape _, [a] => [a]
    | OConv _ _, [_; b] => [b]
    | _, _ => []
    end.

  (** operations whose result is a new node with a buffer of its own *)
  Definition own_result (k : @opk F) : bool :=
    match k with OReshape _ | OSum 0 => false | _ => true end.

  Lemma own_unary : forall (k : @opk F) fwd code, unary_op O k fwd code -> own_result k = true.
  Proof. intros k fwd code H. destruct H; reflexivity. Qed.

  Lemma own_binary : forall (k : @opk F) fwd code, binary_op O k fwd code -> own_result k = true.
  Proof. intros k fwd code H. destruct H; reflexivity. Qed.

  Theorem apply_op_makes : forall (s : state) k hs r,
      apply_op O s k hs = Some r -> makes (is_custom_op k) (own_result k) hs (reshaped k hs) s r.
  Proof.
    intros s k hs r H. apply apply_op_cases in H.
    destruct H as [k x fwd code Hk H | k x y fwd code Hk H | x y H | k x H | d x H | ta tb x y H
                   | ta tb x y z H | sr sc x y H | x H | alpha x y H | c hs H];
      cbn [is_custom_op own_result reshaped].
    - rewrite (own_unary k _ _ Hk).
      exact (unary_makes _ [x] _ _ x _ _ r (or_introl eq_refl) H).
    - rewrite (own_binary k _ _ Hk).
      exact (binary_makes _ [x; y] _ _ x y _ _ r (or_introl eq_refl) (or_intror (or_introl eq_refl)) H).
    - exact (sub_makes _ [x; y] _ _ x y r (or_introl eq_refl) (or_intror (or_introl eq_refl)) H).
    - destruct k; exact (sum_makes _ [x] _ _ _ x r (or_introl eq_refl) H).
    - exact (reshape_makes _ [x] [x] _ _ x r (or_introl eq_refl) (or_introl eq_refl) H).
    - apply (matmul_makes false [x; y] [] s ta tb x y None r (or_introl eq_refl) (or_intror (or_introl eq_refl)));
        [discriminate|exact H].
    - apply (matmul_makes false [x; y; z] [] s ta tb x y (Some z) r (or_introl eq_refl) (or_intror (or_introl eq_refl)));
        [|exact H]. intros h0 E. apply some_inj in E. subst h0. right. right. left. reflexivity.
    - exact (conv_makes _ [x; y] [y] _ _ _ x y r (or_introl eq_refl) (or_intror (or_introl eq_refl))
                        (or_introl eq_refl) H).
    - exact (softmax_makes _ [x] _ _ x r (or_introl eq_refl) H).
    - exact (axpy_makes _ [x; y] _ _ _ x y r (or_introl eq_refl) (or_intror (or_introl eq_refl)) H).
    - exact (custom_makes hs [] s c hs r (fun h Hh => Hh) H).
  Qed.

  Theorem apply_op_sframe : forall (s : state) k hs s' h,
      apply_op O s k hs = Some (s', h) -> sframe s s'.
  Proof. intros s k hs s' h H. exact (makes_sframe _ _ _ _ _ _ (apply_op_makes _ _ _ _ H)). Qed.
End OpsFacts.

(** * P1: every instruction frames the state *)

Section StepFrame.
  Context {F : Type} (O : ScalarOps F).

  Notation state := (@state F).

  Lemma clear_grad_sk : forall (s : state) h s',
      clear_grad s h = Some s' -> map sk (st_nodes s') = map sk (st_nodes s).
  Proof.
    intros s h s' H. unfold clear_grad in H.
    revert H. apply obind_elim. intros nd Hn H. revert H. apply obind_elim. intros g Hp H.
    apply some_inj in H. subst s'. apply (put_map sk (st_nodes s) (e_node h) nd _ g Hp Hn). reflexivity.
  Qed.

  Lemma clear_grad_sframe : forall (s : state) h s', clear_grad s h = Some s' -> sframe s s'.
  Proof.
    intros s h s' H. pose proof (clear_grad_sk s h s' H) as Hsk. unfold clear_grad in H.
    revert H. apply obind_elim. intros nd _ H. revert H. apply obind_elim. intros g _ H.
    apply some_inj in H. subst s'. apply sframe_with_nodes. apply sk_prefix_eq. exact Hsk.
  Qed.

  (** the optimizer empties gradient slots and appends fresh nodes; no premise needed *)
  Lemma gd_update_sframe : forall (s : state) lr params s' out,
      gd_update O s lr params = Some (s', out) -> sframe s s'.
  Proof.
    intros s lr params s' out H. unfold gd_update in H. cbv zeta in H.
    revert H. apply obind_elim. intros pv _ H. revert H. apply obind_elim. intros pg _ H.
    revert H. apply obind_elim. intros s1 H1 H. revert H. apply obind_elim. intros [[s2 buf] out2] H2 H.
    inversion H. subst s2 out2. clear H.
    apply (sframe_trans s s1 s').
    - refine (fold_opt_inv sframe _ _ sframe_refl sframe_trans _ s s1 H1).
      intros a b a' _ Hc. exact (clear_grad_sframe _ _ _ Hc).
    - refine (fold_opt_inv (fun a a' : state * list F * list handle => sframe (fst (fst a)) (fst (fst a')))
                           _ _ _ _ _ (s1, _, []) (s', buf, out) H2).
      + intros a. apply sframe_refl.
      + intros a b c. apply sframe_trans.
      + intros [[sa ba] oa] [hb fb] [[sc bc] oc] _ Hst. cbn [fst snd] in *.
        destruct fb.
        * inversion Hst. apply sframe_refl.
        * revert Hst. apply obind_elim. intros a _ Hst. cbv zeta in Hst.
          revert Hst. apply obind_elim. intros _ _ Hst.
          revert Hst. apply obind_elim. intros na _ Hst.
          destruct (alloc sa na [] None None) as [s'' h'] eqn:Ea. inversion Hst. subst.
          eapply alloc_sframe. exact Ea.
  Qed.

  Lemma apply_act_makes : forall ops rs (s : state) a h r,
      In h ops -> apply_act O s a h = Some r -> makes false false ops rs s r.
  Proof.
    intros ops rs s a h r Hh H. destruct a; cbn [apply_act] in H.
    - apply some_inj in H. subst r. apply makes_refl. exact Hh.
    - exact (makes_weak _ _ _ _ _ _ (unary_makes _ _ _ _ _ _ _ _ Hh H)).
    - exact (makes_weak _ _ _ _ _ _ (unary_makes _ _ _ _ _ _ _ _ Hh H)).
    - exact (makes_weak _ _ _ _ _ _ (softmax_makes O _ _ _ _ _ _ Hh H)).
  Qed.

  Lemma layer_forward_makes : forall ops rs (s : state) l input r,
      In input ops -> In (l_w l) ops -> In (l_b l) ops -> In (l_w l) rs ->
      layer_forward O s l input = Some r -> makes false false ops rs s r.
  Proof.
    intros ops rs s l input r Hi Hw Hb Hrs H. unfold layer_forward in H.
    destruct (l_conv l) as [[sr sc]|].
    - revert H. apply obind_elim. intros [s1 hc] H1 H.
      revert H. apply obind_elim. intros [s2 h2] H2 H.
      eapply (makes_bind s1 hc); [exact (conv_makes O _ _ _ _ _ _ _ _ _ Hi Hw Hrs H1)|].
      eapply (makes_bind s2 h2).
      + exact (binary_makes false (hc :: ops) rs s1 hc (l_b l) _ _ _ (or_introl eq_refl) (or_intror Hb) H2).
      + exact (apply_act_makes (h2 :: hc :: ops) rs s2 _ h2 r (or_introl eq_refl) H).
    - revert H. apply obind_elim. intros [s1 h1] H1 H.
      eapply (makes_bind s1 h1).
      + apply (matmul_makes O false ops rs s false true input (l_w l) (Some (l_b l)) _ Hi Hw); [|exact H1].
        intros h0 E. apply some_inj in E. subst h0. exact Hb.
      + exact (apply_act_makes (h1 :: ops) rs s1 _ h1 r (or_introl eq_refl) H).
  Qed.

  Lemma layers_makes : forall ls ops rs (s : state) h r,
      In h ops -> (forall l, In l ls -> In (l_w l) ops /\ In (l_b l) ops /\ In (l_w l) rs) ->
      fold_left (fun (acc : option (state * handle)) (l : layer) =>
                   st <- acc ;; let '(s', h') := st in layer_forward O s' l h')
                ls (Some (s, h)) = Some r ->
      makes false false ops rs s r.
  Proof.
    induction ls as [|l ls IH]; intros ops rs s h r Hh Hls H.
    - apply some_inj in H. subst r. apply makes_refl. exact Hh.
    - cbn [fold_left obind] in H. destruct (layer_forward O s l h) as [[s1 h1]|] eqn:E;
        [|rewrite fold_left_none in H by reflexivity; discriminate H].
      destruct (Hls l (or_introl eq_refl)) as (Hw & Hb & Hrs).
      eapply (makes_bind s1 h1); [exact (layer_forward_makes _ _ _ _ _ _ Hh Hw Hb Hrs E)|].
      apply (IH (h1 :: ops) rs s1 h1 r (or_introl eq_refl)); [|exact H].
      intros l0 Hl0. destruct (Hls l0 (or_intror Hl0)) as (A & B & C).
      split; [right; exact A|]. split; [right; exact B|exact C].
  Qed.

  (** [Model::forward]: the layers are applied in turn, then the result becomes the output *)
  Lemma model_forward_makes : forall ops rs (s : state) x s' out,
      In x ops -> (forall l, In l (st_layers s) -> In (l_w l) ops /\ In (l_b l) ops /\ In (l_w l) rs) ->
      model_forward O s x = Some (s', out) ->
      exists s1, makes false false ops rs s (s1, out) /\ s' = with_output s1 (Some out).
  Proof.
    intros ops rs s x s' out Hx Hls H. unfold model_forward in H.
    revert H. apply obind_elim. intros [s1 o1] H1 H. injection H as <- <-.
    exists s1. split; [exact (layers_makes _ _ _ _ _ _ Hx Hls H1)|reflexivity].
  Qed.

  Lemma model_forward_inv : forall (s : state) h s' out,
      model_forward O s h = Some (s', out) ->
      exists s1, sframe s s1 /\ s' = with_output s1 (Some out).
  Proof.
    intros s h s' out H.
    destruct (model_forward_makes (h :: model_params s) (model_params s) s h s' out (or_introl eq_refl))
      as (s1 & M & E); [|exact H|].
    - intros l Hl. assert (Hp : In (l_w l) (model_params s) /\ In (l_b l) (model_params s))
        by (split; apply in_flat_map; exists l; cbn [In]; auto).
      destruct Hp as [Hw Hb]. split; [right; exact Hw|]. split; [right; exact Hb|exact Hw].
    - exists s1. split; [exact (makes_sframe _ _ _ _ _ _ M)|exact E].
  Qed.

  Lemma cost_apply_makes : forall ops rs (s : state) c ho ht r,
      In ho ops -> In ht ops -> cost_apply O s c ho ht = Some r -> makes false true ops rs s r.
  Proof.
    intros ops rs s c ho ht r Ho Ht H. unfold cost_apply in H.
    revert H. apply obind_elim. intros o _ H. destruct c.
    - cbv zeta in H. revert H. apply obind_elim. intros [s1 d] H1 H.
      revert H. apply obind_elim. intros [s2 p] H2 H.
      eapply (makes_bind s1 d); [exact (sub_makes O _ _ _ _ _ _ _ Ht Ho H1)|].
      eapply (makes_bind s2 p); [exact (unary_makes false (d :: ops) rs s1 d _ _ _ (or_introl eq_refl) H2)|].
      exact (unary_makes false (p :: d :: ops) rs s2 p _ _ r (or_introl eq_refl) H).
    - revert H. apply obind_elim. intros batch _ H.
      revert H. apply obind_elim. intros [s1 nt] H1 H.
      revert H. apply obind_elim. intros [s2 lo] H2 H.
      revert H. apply obind_elim. intros [s3 m] H3 H.
      eapply (makes_bind s1 nt); [exact (unary_makes _ _ _ _ _ _ _ _ Ht H1)|].
      eapply (makes_bind s2 lo); [exact (unary_makes false (nt :: ops) rs s1 ho _ _ _ (or_intror Ho) H2)|].
      eapply (makes_bind s3 m).
      + exact (binary_makes false (lo :: nt :: ops) rs s2 nt lo _ _ _ (or_intror (or_introl eq_refl))
                            (or_introl eq_refl) H3).
      + exact (unary_makes false (m :: lo :: nt :: ops) rs s3 m _ _ r (or_introl eq_refl) H).
  Qed.

  Lemma cost_apply_sframe : forall (s : state) c ho ht s' h,
      cost_apply O s c ho ht = Some (s', h) -> sframe s s'.
  Proof.
    intros s c ho ht s' h H.
    exact (makes_sframe _ _ _ _ _ _ (cost_apply_makes [ho; ht] [] s c ho ht _ (or_introl eq_refl)
                                                    (or_intror (or_introl eq_refl)) H)).
  Qed.

  Lemma model_backward_sframe : forall (s : state) h s' loss,
      model_backward O s h = Some (s', loss) -> sframe s s'.
  Proof.
    intros s h s' loss H. unfold model_backward in H.
    revert H. apply obind_elim. intros output _ H.
    revert H. apply obind_elim. intros [s1 err] H1 H.
    revert H. apply obind_elim. intros [g lg] Hb H.
    revert H. apply obind_elim. intros ea _ H. inversion H. subst. clear H.
    apply cost_apply_sframe in H1. eapply sframe_trans; [exact H1|].
    apply sframe_with_nodes. apply sk_prefix_eq. cbn [fst].
    apply (run_backward_sk (E O) _ _ _ _ _ _ Hb).
  Qed.

  Lemma model_update_inv : forall (s s' : state),
      model_update O s = Some s' -> exists s1 ls, sframe s s1 /\ s' = with_layers s1 ls.
  Proof.
    intros s s' H. unfold model_update in H.
    revert H. apply obind_elim. intros [s1 hs] H1 H. inversion H. subst.
    exists s1. eexists. split; [|reflexivity]. eapply gd_update_sframe. exact H1.
  Qed.

  Lemma make_layer_sframe : forall (s : state) l s' ly, make_layer s l = Some (s', ly) -> sframe s s'.
  Proof.
    intros s l s' ly H. destruct l; cbn [make_layer] in H.
    - revert H. apply obind_elim. intros wa _ H. revert H. apply obind_elim. intros ba _ H.
      destruct (alloc s wa [] None None) as [s1 hw] eqn:E1.
      destruct (alloc s1 ba [] None None) as [s2 hb] eqn:E2. inversion H. subst.
      eapply sframe_trans; eapply alloc_sframe; eassumption.
    - revert H. apply obind_elim. intros wa _ H. revert H. apply obind_elim. intros ba _ H.
      destruct (alloc s wa [] None None) as [s1 hw] eqn:E1.
      destruct (alloc s1 ba [] None None) as [s2 hb] eqn:E2. inversion H. subst.
      eapply sframe_trans; eapply alloc_sframe; eassumption.
  Qed.

  Lemma make_layers_sframe : forall ls (s s1 : state) layers,
      make_layers s ls = Some (s1, layers) -> sframe s s1.
  Proof.
    intros ls s s1 layers H.
    refine (fold_opt_inv (fun a a' : state * list layer => sframe (fst a) (fst a')) _ ls _ _ _
                         (s, []) (s1, layers) H).
    - intros a. apply sframe_refl.
    - intros a b c. apply sframe_trans.
    - intros [sa la] l0 [sb lb] _ Hl. cbn [fst].
      revert Hl. apply obind_elim. intros [s'' ly] Hm Hl. injection Hl as <- _.
      eapply make_layer_sframe. exact Hm.
  Qed.

  Definition rebound (i : @instr F) : list nat :=
    match i with
    | IDrop h | ITakeVec h | ITracked h | IUntracked h | IStart h | IStop h => [h]
    | IUpdate _ hs => hs
    | _ => []
    end.

  Definition changes_layers (i : @instr F) : bool :=
    match i with IModel _ _ _ | IModelUpdate => true | _ => false end.
  Definition changes_config (i : @instr F) : bool :=
    match i with IModel _ _ _ => true | _ => false end.
  Definition changes_output (i : @instr F) : bool :=
    match i with IForward _ => true | _ => false end.

  Definition pframe (L : list nat) (cl cc co : bool) (s s1 : state) : Prop :=
    sk_prefix (st_nodes s) (st_nodes s1) /\
    length (st_pool s1) = length (st_pool s) /\
    (forall j, ~ In j L -> nth_error (st_pool s1) j = nth_error (st_pool s) j) /\
    st_tag s1 = st_tag s /\
    (cl = false -> st_layers s1 = st_layers s) /\
    (cc = false -> st_cost s1 = st_cost s /\ st_lr s1 = st_lr s) /\
    (co = false -> st_output s1 = st_output s).

  Lemma sframe_pframe : forall L cl cc co (s s1 : state), sframe s s1 -> pframe L cl cc co s s1.
  Proof.
    intros L cl cc co s s1 (A1 & A2 & A3 & A4 & A5 & A6 & A7). unfold pframe.
    rewrite A1. repeat split; auto.
  Qed.

  Lemma pframe_refl : forall L cl cc co (s : state), pframe L cl cc co s s.
  Proof. intros. apply sframe_pframe. apply sframe_refl. Qed.

  Lemma pframe_trans : forall L cl cc co (s1 s2 s3 : state),
      pframe L cl cc co s1 s2 -> pframe L cl cc co s2 s3 -> pframe L cl cc co s1 s3.
  Proof.
    intros L cl cc co s1 s2 s3 (A1 & A2 & A3 & A4 & A5 & A6 & A7) (B1 & B2 & B3 & B4 & B5 & B6 & B7).
    unfold pframe. split; [eapply sk_prefix_trans; eassumption|].
    split; [congruence|]. split; [intros j Hj; rewrite (B3 j Hj); apply A3; exact Hj|].
    split; [congruence|]. split; [intros E1; rewrite (B5 E1); apply A5; exact E1|].
    split; [intros E1; destruct (A6 E1), (B6 E1); split; congruence|].
    intros E1. rewrite (B7 E1). apply A7. exact E1.
  Qed.

  Lemma set_var_pframe : forall L cl cc co (s : state) i x s1,
      set_var s i x = Some s1 -> In i L -> pframe L cl cc co s s1.
  Proof.
    intros L cl cc co s i x s1 H Hin. apply set_var_inv in H. destruct H as [Hi ->].
    unfold pframe. cbn [st_nodes st_pool st_tag st_layers st_cost st_lr st_output with_pool].
    split; [apply sk_prefix_refl|]. split; [apply set_nth_length; exact Hi|].
    split; [|repeat split; reflexivity].
    intros j Hj. rewrite set_nth_spec by exact Hi.
    destruct (j =? i) eqn:E; [|reflexivity]. apply Nat.eqb_eq in E. subst j. contradiction.
  Qed.

  Lemma set_var_slot : forall (s : state) i x s1,
      set_var s i x = Some s1 -> nth_error (st_pool s1) i = Some x.
  Proof.
    intros s i x s1 H. apply set_var_inv in H. destruct H as [Hi ->]. cbn [st_pool with_pool].
    rewrite set_nth_spec by exact Hi. rewrite Nat.eqb_refl. reflexivity.
  Qed.

  Lemma rebind_rebound : forall (s : state) i h v o, rebind s i = Some (h, v, o) -> rebound i = [h].
  Proof.
    intros s i h v o H. destruct i; try discriminate H; cbn [rebind] in H;
      apply obind_some in H; destruct H as (x & _ & H).
    - injection H as <- _ _. reflexivity.
    - injection H as <- _ _. reflexivity.
    - injection H as <- _ _. reflexivity.
    - injection H as <- _ _. reflexivity.
    - injection H as <- _ _. reflexivity.
    - revert H. apply obind_elim. intros a _ H. revert H. apply obind_elim. intros u _ H.
      injection H as <- _ _. reflexivity.
  Qed.

  (** the shape of every successful step: some framed state, then one pushed slot *)
  Lemma step_shape : forall (s : state) i s' o,
      step O s i = Some (s', o) ->
      exists s1 x, s' = push s1 x /\
                   pframe (rebound i) (changes_layers i) (changes_config i) (changes_output i)
                          (with_tag s (length (st_pool s))) s1.
  Proof.
    intros s0 i s' o H. apply step_cases in H. destruct H as (s1 & x & C & ->).
    exists s1, x. split; [reflexivity|]. set (s := with_tag s0 (length (st_pool s0))) in *.
    destruct C as [i a t o Hl | i o Hq | h x Hx | i h v o s1 Hr Hs1 | k args hs s1 h a Hhs Hop Ha
                   | h seed x sd r Hx Hsd Hr | h x s1 Hx Hs1 | lr hs params s1 out s2 Hp Hg Hs2
                   | ls c lr s1 layers Hm | h x s1 out a Hx Hm Ha | h x s1 loss Hx Hm | s1 Hm].
    - apply sframe_pframe. apply (alloc_sframe s a [] None None _ (snd (alloc s a [] None None))).
      apply surjective_pairing.
    - apply pframe_refl.
    - apply pframe_refl.
    - apply (set_var_pframe _ _ _ _ s h v s1 Hs1). rewrite (rebind_rebound _ _ _ _ _ Hr). left. reflexivity.
    - apply sframe_pframe. exact (apply_op_sframe O _ _ _ _ _ Hop).
    - apply sframe_pframe. apply sframe_with_nodes. apply sk_prefix_eq.
      destruct r as [g lg]. exact (run_backward_sk (E O) _ _ _ _ _ _ Hr).
    - apply sframe_pframe. exact (clear_grad_sframe _ _ _ Hs1).
    - apply (pframe_trans _ _ _ _ s s1 s2); [apply sframe_pframe; exact (gd_update_sframe _ _ _ _ _ Hg)|].
      revert Hs2.
      apply (fold_opt_inv (pframe hs false false false)
                          (fun (st : state) (p : nat * handle) => set_var st (fst p) (Some (snd p)))).
      + apply pframe_refl.
      + apply pframe_trans.
      + intros a [j hj] a' Hin Hsv. eapply set_var_pframe; [exact Hsv|]. exact (in_combine_l _ _ _ _ Hin).
    - destruct (make_layers_sframe _ _ _ _ Hm) as (A1 & A2 & A3 & A4 & A5 & A6 & A7). unfold pframe.
      cbn [st_nodes st_pool st_tag st_layers st_cost st_lr st_output with_config with_layers
                    changes_layers changes_config changes_output].
      rewrite A1. repeat split; auto; discriminate.
    - apply model_forward_inv in Hm. destruct Hm as (s2 & (A1 & A2 & A3 & A4 & A5 & A6 & A7) & ->).
      unfold pframe. cbn [st_nodes st_pool st_tag st_layers st_cost st_lr st_output with_output
                                   changes_layers changes_config changes_output].
      rewrite A1. repeat split; auto; discriminate.
    - apply sframe_pframe. exact (model_backward_sframe _ _ _ _ Hm).
    - apply model_update_inv in Hm. destruct Hm as (s2 & ls & (A1 & A2 & A3 & A4 & A5 & A6 & A7) & ->).
      unfold pframe. cbn [st_nodes st_pool st_tag st_layers st_cost st_lr st_output with_layers
                                   changes_layers changes_config changes_output].
      rewrite A1. repeat split; auto; discriminate.
  Qed.

  (** P1 (C08): no instruction changes the payload (dimensions, values, closure, buffer
      identity) or the child entries of an existing node; nodes are only appended; exactly
      one pool slot is appended and only the slots [rebound i] may be rebound *)
  Theorem step_frame : forall (s : state) i s' o,
      step O s i = Some (s', o) ->
      (forall id nd, nth_error (st_nodes s) id = Some nd ->
         exists nd', nth_error (st_nodes s') id = Some nd' /\ n_pay nd' = n_pay nd /\
                     n_children nd' = n_children nd) /\
      length (st_nodes s) <= length (st_nodes s') /\
      length (st_pool s') = S (length (st_pool s)) /\
      (forall j, j < length (st_pool s) -> ~ In j (rebound i) ->
                 nth_error (st_pool s') j = nth_error (st_pool s) j) /\
      st_tag s' = length (st_pool s) /\
      (changes_layers i = false -> st_layers s' = st_layers s) /\
      (changes_config i = false -> st_cost s' = st_cost s /\ st_lr s' = st_lr s) /\
      (changes_output i = false -> st_output s' = st_output s).
  Proof.
    intros s i s' o H. apply step_shape in H.
    destruct H as (s1 & x & -> & (A1 & A2 & A3 & A4 & A5 & A6 & A7)).
    cbn [st_nodes st_pool st_tag st_layers st_cost st_lr st_output with_tag push with_pool] in *.
    split; [intros id nd Hn; eapply sk_prefix_nth; eassumption|].
    split; [apply sk_prefix_length; exact A1|].
    split; [rewrite app_length, A2; cbn [length]; lia|].
    split; [|auto].
    intros j Hj Hn. rewrite nth_error_app1 by (rewrite A2; exact Hj). apply A3. exact Hn.
  Qed.

  (** consequently every live handle in a slot that is not rebound denotes the same array *)
  Corollary step_live_handle : forall (s : state) i s' o j x,
      step O s i = Some (s', o) -> var s j = Some x -> ~ In j (rebound i) ->
      var s' j = Some x /\ forall a, h_arr s x = Some a -> h_arr s' x = Some a.
  Proof.
    intros s i s' o j x H Hv Hn. destruct (step_frame s i s' o H) as (B1 & _ & _ & B4 & _).
    assert (Hj : j < length (st_pool s)).
    { unfold var in Hv. apply nth_error_Some. destruct (nth_error (st_pool s) j); [discriminate|discriminate Hv]. }
    split.
    - unfold var in *. rewrite (B4 j Hj Hn). exact Hv.
    - intros a Ha. unfold h_arr, h_node in *.
      destruct (nth_error (st_nodes s) (e_node x)) as [nd|] eqn:En; [|discriminate].
      destruct (B1 _ _ En) as (nd' & En' & Hp & _). rewrite En'. cbn [obind] in *. rewrite Hp. exact Ha.
  Qed.

  Fixpoint exec (s : state) (p : list (@instr F)) : option (state * list (@obs F)) :=
    match p with
    | [] => Some (s, [])
    | i :: p' =>
      r <- step O s i ;;
      let '(s1, o) := r in
      r2 <- exec s1 p' ;;
      let '(s2, os) := r2 in Some (s2, o :: os)
    end.

  (** [run_from] executes the longest panic-free prefix *)
  Lemma run_from_exec : forall p (s : state) os b,
      run_from O s p = (os, b) ->
      exists s', exec s (firstn (length os) p) = Some (s', os) /\
                 (b = false -> length os = length p).
  Proof.
    induction p as [|i p IH]; intros s os b H; cbn [run_from] in H.
    - inversion H. subst. exists s. split; [reflexivity|reflexivity].
    - destruct (step O s i) as [[s1 o]|] eqn:Es.
      + destruct (run_from O s1 p) as [os1 b1] eqn:Er. inversion H. subst.
        destruct (IH s1 os1 b Er) as (s' & He & Hb). exists s'.
        cbn [length firstn exec]. rewrite Es. cbn [obind]. rewrite He. cbn [obind].
        split; [reflexivity|]. intros E. rewrite (Hb E). reflexivity.
      + inversion H. subst. exists s. split; [reflexivity|discriminate].
  Qed.

  Theorem run_frame : forall p (s : state) s' os,
      exec s p = Some (s', os) ->
      (forall id nd, nth_error (st_nodes s) id = Some nd ->
         exists nd', nth_error (st_nodes s') id = Some nd' /\ n_pay nd' = n_pay nd /\
                     n_children nd' = n_children nd) /\
      length (st_nodes s) <= length (st_nodes s') /\
      length (st_pool s') = length (st_pool s) + length p /\
      (forall j, j < length (st_pool s) -> ~ In j (flat_map rebound p) ->
                 nth_error (st_pool s') j = nth_error (st_pool s) j).
  Proof.
    induction p as [|i p IH]; intros s s' os H; cbn [exec] in H.
    - inversion H. subst. split; [intros id nd Hn; exists nd; auto|].
      split; [lia|]. split; [cbn; lia|]. auto.
    - revert H. apply obind_elim. intros [s1 o] Hs H.
      revert H. apply obind_elim. intros [s2 os2] He H. inversion H. subst. clear H.
      destruct (step_frame s i s1 o Hs) as (B1 & B2 & B3 & B4 & _).
      destruct (IH s1 s' os2 He) as (C1 & C2 & C3 & C4).
      split; [|split; [lia|split; [rewrite C3, B3; cbn [length]; lia|]]].
      + intros id nd Hn. destruct (B1 id nd Hn) as (nd1 & Hn1 & Hp1 & Hc1).
        destruct (C1 id nd1 Hn1) as (nd2 & Hn2 & Hp2 & Hc2). exists nd2.
        split; [exact Hn2|]. split; congruence.
      + intros j Hj Hn. cbn [flat_map] in Hn. rewrite C4.
        * apply B4; [exact Hj|]. intros Hin. apply Hn. apply in_or_app. left. exact Hin.
        * rewrite B3. lia.
        * intros Hin. apply Hn. apply in_or_app. right. exact Hin.
  Qed.
End StepFrame.

(** * Slots: drops, flag changes, clones, passes; P3 (C12): handles are transparent *)

Section Handles.
  Context {F : Type} (O : ScalarOps F).

  Notation state := (@state F).

  Definition retag (s : state) : state := with_tag s (length (st_pool s)).

  Lemma var_retag : forall (s : state) i, var (retag s) i = var s i.
  Proof. reflexivity. Qed.

  (** the instructions that rewrite one slot in place, and what they write *)
  Definition slot_of (i : @instr F) : option nat :=
    match i with
    | IDrop h | ITracked h | IUntracked h | IStart h | IStop h => Some h
    | _ => None
    end.

  Definition new_slot (i : @instr F) (x : handle) : option handle :=
    match i with
    | ITracked _ => Some (mkh (e_node x) true true)
    | IUntracked _ => Some (mkh (e_node x) false false)
    | IStart _ => Some (mkh (e_node x) true (e_keep x))
    | IStop _ => Some (mkh (e_node x) false (e_keep x))
    | _ => None
    end.

  Definition set_slot (s : state) (h : nat) (v : option handle) : state :=
    with_pool s (firstn h (st_pool s) ++ v :: skipn (S h) (st_pool s)).

  (** P3 (d) and the flag instructions, exactly: slot [h] is overwritten (emptied by [IDrop],
      the same node with new flags otherwise), one empty slot is pushed, and nothing else
      (nodes, other slots, layers, output) changes *)
  Theorem step_slot : forall (s : state) i h s' o,
      slot_of i = Some h -> step O s i = Some (s', o) ->
      exists x, var s h = Some x /\ h < length (st_pool s) /\
                s' = push (set_slot (retag s) h (new_slot i x)) None.
  Proof.
    intros s i h s' o Hs H. unfold step in H. cbv zeta in H. fold (retag s) in H.
    destruct i; try discriminate Hs; inversion Hs; subst; cbn [new_slot];
      apply obind_some in H; destruct H as (x & Hx & H); apply obind_some in H; destruct H as (s1 & Hsv & H);
        inversion H; subst; exists x; (split; [exact Hx|]);
          apply set_var_inv in Hsv; destruct Hsv as [Hlt ->]; (split; [exact Hlt|reflexivity]).
  Qed.

  (** [ITakeVec] (moving the buffer out of a uniquely owned array) empties the slot like a
      drop; the observation is the value vector *)
  Theorem step_takevec : forall (s : state) h s' o,
      step O s (ITakeVec h) = Some (s', o) ->
      exists x a, var s h = Some x /\ h_arr s x = Some a /\ h < length (st_pool s) /\
                  s' = push (set_slot (retag s) h None) None /\ o = [(7, [], vals a)].
  Proof.
    intros s h s' o H. unfold step in H. cbv zeta in H. fold (retag s) in H.
    revert H. apply obind_elim. intros x Hx H. revert H. apply obind_elim. intros a Ha H.
    revert H. apply obind_elim. intros _ _ H. revert H. apply obind_elim. intros s1 Hsv H.
    inversion H. subst. exists x, a. split; [exact Hx|]. split; [exact Ha|].
    apply set_var_inv in Hsv. destruct Hsv as [Hlt ->]. split; [exact Hlt|]. split; reflexivity.
  Qed.

  Corollary step_drop : forall (s : state) h s' o,
      step O s (IDrop h) = Some (s', o) ->
      st_nodes s' = st_nodes s /\ st_layers s' = st_layers s /\ st_output s' = st_output s /\
      nth_error (st_pool s') h = Some None /\
      forall j, j < length (st_pool s) -> j <> h -> nth_error (st_pool s') j = nth_error (st_pool s) j.
  Proof.
    intros s h s' o H. destruct (step_slot s (IDrop h) h s' o eq_refl H) as (x & Hx & Hlt & ->).
    cbn [st_nodes st_layers st_output st_pool push set_slot with_pool retag with_tag new_slot].
    repeat (split; [reflexivity|]). split.
    - rewrite nth_error_app1 by (rewrite set_nth_length by exact Hlt; exact Hlt).
      rewrite set_nth_spec by exact Hlt. rewrite Nat.eqb_refl. reflexivity.
    - intros j Hj Hne. rewrite nth_error_app1 by (rewrite set_nth_length by exact Hlt; exact Hj).
      rewrite set_nth_spec by exact Hlt. apply Nat.eqb_neq in Hne. rewrite Hne. reflexivity.
  Qed.

  (** flag changes through one handle: the slot keeps its node, every other slot (other
      clones of the same node included) and every node are untouched *)
  Corollary clone_flag_independent : forall (s : state) i h s' o,
      slot_of i = Some h -> i <> IDrop h -> step O s i = Some (s', o) ->
      st_nodes s' = st_nodes s /\
      (exists x y, var s h = Some x /\ var s' h = Some y /\ e_node y = e_node x) /\
      forall j, j < length (st_pool s) -> j <> h -> nth_error (st_pool s') j = nth_error (st_pool s) j.
  Proof.
    intros s i h s' o Hs Hnd H. destruct (step_slot s i h s' o Hs H) as (x & Hx & Hlt & ->).
    cbn [st_nodes st_pool push set_slot with_pool retag with_tag].
    split; [reflexivity|]. split.
    - assert (Hy : exists y, new_slot i x = Some y /\ e_node y = e_node x).
      { destruct i; try discriminate Hs; inversion Hs; subst; cbn [new_slot];
          try (eexists; split; [reflexivity|reflexivity]). contradiction Hnd. reflexivity. }
      destruct Hy as (y & Hy & Hn). exists x, y. split; [exact Hx|]. split; [|exact Hn].
      unfold var. cbn [st_pool push set_slot with_pool retag with_tag].
      rewrite nth_error_app1 by (rewrite set_nth_length by exact Hlt; exact Hlt).
      rewrite set_nth_spec by exact Hlt. rewrite Nat.eqb_refl. cbn [obind]. exact Hy.
    - intros j Hj Hne. rewrite nth_error_app1 by (rewrite set_nth_length by exact Hlt; exact Hj).
      rewrite set_nth_spec by exact Hlt. apply Nat.eqb_neq in Hne. rewrite Hne. reflexivity.
  Qed.

  (** P3 (a): [Clone] pushes the handle of the slot, flags included, and nothing else *)
  Theorem step_clone : forall (s : state) h s' o,
      step O s (IClone h) = Some (s', o) <->
      exists x, var s h = Some x /\ s' = push (retag s) (Some x) /\ o = [].
  Proof.
    intros s h s' o. unfold step. cbv zeta. fold (retag s). rewrite var_retag. split.
    - intros H. revert H. apply obind_elim. intros x Hx H. inversion H. subst. eauto.
    - intros (x & Hx & -> & ->). rewrite Hx. reflexivity.
  Qed.

  (** a pass leaves the pool alone, and the payload and child entries (flags included) of
      every node; only counts, deltas and gradients move *)
  Theorem step_backward : forall (s : state) h seed s' o,
      step O s (IBackward h seed) = Some (s', o) ->
      st_pool s' = st_pool s ++ [None] /\ st_layers s' = st_layers s /\
      st_output s' = st_output s /\
      map n_pay (st_nodes s') = map n_pay (st_nodes s) /\
      map n_children (st_nodes s') = map n_children (st_nodes s).
  Proof.
    intros s h seed s' o H. unfold step in H. cbv zeta in H.
    revert H. apply obind_elim. intros x _ H. revert H. apply obind_elim. intros sd _ H.
    revert H. apply obind_elim. intros [g lg] Hb H. inversion H. subst. clear H.
    cbn [st_pool st_layers st_output st_nodes push with_pool with_nodes with_tag fst].
    repeat (split; [reflexivity|]). unfold run_backward in Hb. split.
    - exact (backward_pay (E O) _ _ _ _ _ _ _ _ Hb).
    - exact (backward_children (E O) _ _ _ _ _ _ _ _ Hb).
  Qed.

  (** ** P3 (b): values, gradients and clearing depend only on the node of a handle *)

  Lemma h_arr_node_only : forall (s : state) h1 h2, e_node h1 = e_node h2 -> h_arr s h1 = h_arr s h2.
  Proof. intros s h1 h2 E1. unfold h_arr, h_node. rewrite E1. reflexivity. Qed.

  Lemma grad_of_node_only : forall (s : state) h1 h2,
      e_node h1 = e_node h2 -> grad_of s h1 = grad_of s h2.
  Proof. intros s h1 h2 E1. unfold grad_of, h_node. rewrite E1. reflexivity. Qed.

  Lemma clear_grad_node_only : forall (s : state) h1 h2,
      e_node h1 = e_node h2 -> clear_grad s h1 = clear_grad s h2.
  Proof. intros s h1 h2 E1. unfold clear_grad, h_node. rewrite E1. reflexivity. Qed.

  (** a gradient cleared through one handle is cleared for every clone *)
  Lemma clear_grad_seen : forall (s : state) h1 h2 s',
      clear_grad s h1 = Some s' -> e_node h2 = e_node h1 -> grad_of s' h2 = None.
  Proof.
    intros s h1 h2 s' H E1. unfold clear_grad in H.
    revert H. apply obind_elim. intros nd _ H. revert H. apply obind_elim. intros g Hp H.
    inversion H. subst. unfold grad_of, h_node. cbn [st_nodes with_nodes]. rewrite E1.
    pose proof (put_nth_eq _ _ _ _ Hp) as Hq. unfold Program.gnode in *. rewrite Hq. reflexivity.
  Qed.

  (** a gradient deposited by a pass is read through any handle of the node: the
      observation of [IGrad] depends on the slot only through the node *)
  Lemma step_grad_node_only : forall (s : state) i j x y,
      var s i = Some x -> var s j = Some y -> e_node x = e_node y ->
      step O s (IGrad i) = step O s (IGrad j).
  Proof.
    intros s i j x y Hx Hy E1. unfold step. cbv zeta. fold (retag s). rewrite !var_retag, Hx, Hy.
    cbn [obind]. rewrite (grad_of_node_only (retag s) x y E1). reflexivity.
  Qed.

  (** ** P3 (c): instructions read their operands only through [var] *)

  Theorem step_op_args : forall (s : state) k args args',
      mapM (var s) args = mapM (var s) args' -> step O s (IOp k args) = step O s (IOp k args').
  Proof.
    intros s k args args' H. unfold step. cbv zeta.
    change (mapM (var (with_tag s (length (st_pool s)))) args) with (mapM (var s) args).
    change (mapM (var (with_tag s (length (st_pool s)))) args') with (mapM (var s) args').
    rewrite H. reflexivity.
  Qed.

  Lemma mapM_var_replace : forall (s : state) i j args,
      var s i = var s j ->
      mapM (var s) (map (fun a => if a =? i then j else a) args) = mapM (var s) args.
  Proof.
    intros s i j args H. induction args as [|a args IH]; [reflexivity|].
    cbn [map mapM]. rewrite IH. destruct (a =? i) eqn:E1; [|reflexivity].
    apply Nat.eqb_eq in E1. subst a. rewrite H. reflexivity.
  Qed.

  (** an operand slot may be replaced by any slot holding an equal handle (a clone) *)
  Corollary step_op_clone : forall (s : state) k args i j,
      var s i = var s j ->
      step O s (IOp k (map (fun a => if a =? i then j else a) args)) = step O s (IOp k args).
  Proof. intros s k args i j H. apply step_op_args. apply mapM_var_replace. exact H. Qed.

  Definition reads_one (c : nat -> @instr F) : Prop :=
    (exists seed, c = fun h => IBackward h seed) \/ c = IGrad \/ c = IClearGrad \/ c = IFetchGrad \/
    (exists idx, c = fun h => IIndex h idx) \/ (exists n, c = fun h => IIndexFlat h n) \/
    c = IObs \/ c = ISumAll \/ c = IClone \/ c = IForward \/ c = IModelBackward \/
    (exists h2, c = fun h => IEq h h2) \/ (exists h1, c = fun h => IEq h1 h).

  Theorem step_read_clone : forall (s : state) c i j,
      reads_one c -> var s i = var s j -> step O s (c i) = step O s (c j).
  Proof.
    intros s c i j Hc H.
    assert (H' : var (retag s) i = var (retag s) j) by exact H.
    destruct Hc as [(seed & ->)|[->|[->|[->|[(idx & ->)|[(n & ->)|[->|[->|[->|[->|[->|[(h2 & ->)|(h1 & ->)]]]]]]]]]]]];
      unfold step; cbv zeta; fold (retag s); rewrite H'; reflexivity.
  Qed.
End Handles.

Print Assumptions backward_sk.
Print Assumptions apply_op_res.
Print Assumptions apply_op_tracking.
Print Assumptions apply_op_custom.
Print Assumptions gd_update_sframe.
Print Assumptions step_frame.
Print Assumptions step_live_handle.
Print Assumptions run_frame.
Print Assumptions step_slot.
Print Assumptions step_takevec.
Print Assumptions clone_flag_independent.
Print Assumptions step_clone.
Print Assumptions step_backward.
Print Assumptions step_op_clone.
Print Assumptions step_read_clone.

