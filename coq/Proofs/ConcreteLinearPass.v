(** (C17, concrete) a pass of the real engine is linear in its seed, on every graph whose
    closures are proved linear ([ConcreteLinear.bop_linear]).

    [SweepLinear.sweep_linear_ok] asks for the linearity of [eo_bop] for ALL payloads; we
    apply it to the instance [E2], which is [E'] with the closures outside a chosen set
    [LP] switched off.  On a graph all of whose closures are in [LP] the sweep of [E2] is
    the sweep of [E']. *)

From Coq Require Import List Arith Bool Lia PeanoNat.
From Corgi Require Import Lib.OptionMonad Lib.Sums Model.Scalar Model.Arr Model.SlicedOp
     Model.Elementwise Model.Ops Model.Engine Model.Program
     Proofs.ArrFacts Proofs.EngineDefs Proofs.EngineBase Proofs.EngineInv Proofs.AdjointSpec
     Proofs.SweepFacts Proofs.EngineValue Proofs.PassTheorems Proofs.OptimSpec Proofs.OpsWf
     Proofs.HistoryInv Proofs.ValueConcrete Proofs.ConcretePasses Proofs.ConcreteLinear.
Import ListNotations.

Section LinearPass.
  Context {F : Type} (O : ScalarOps F) (R : is_cring O).
  Variable alpha beta : F.

  Local Notation pay := (@pay F).
  Local Notation gnode := (@gnode F).
  Local Notation E := (Program.E O).
  Local Notation E' := (ValueConcrete.E' O).
  Local Notation acomb := (ConcreteLinear.acomb O alpha beta).
  Local Notation lc := (ConcreteLinear.lc O alpha beta).
  Local Notation ok := (@ConcreteLinear.ok F).

  (** the closures assumed linear *)
  Variable LP : bop_code F -> bool.
  Hypothesis HLP : forall code, LP code = true -> bop_linear O alpha beta code.

  (** * accumulation and flattening commute with the combination *)

  Lemma zipw_lin : forall a b c d : list F,
      length a = length b -> length c = length d ->
      zipw (fadd O) (map2 lc a b) (map2 lc c d)
      = map2 lc (zipw (fadd O) a c) (zipw (fadd O) b d).
  Proof.
    unfold zipw.
    induction a as [|u a IH]; intros [|v b] c d Hab Hcd; simpl in *; try reflexivity;
      try discriminate Hab.
    destruct c as [|w c], d as [|z d]; simpl in *; try reflexivity; try discriminate Hcd.
    rewrite (lc_add O R). f_equal. apply IH; lia.
  Qed.

  Lemma wfb_ok : forall x y : arr F, ok x y -> wfb y = wfb x.
  Proof. intros x y (Hd & Hl). unfold wfb. rewrite Hd, Hl. reflexivity. Qed.

  Lemma wfb_acomb : forall x y : arr F, ok x y -> wfb (acomb x y) = wfb x.
  Proof. intros x y H. apply wfb_ok. apply ok_acomb. exact H. Qed.

  Lemma add'_lin : forall x1 x2 y1 y2 x y,
      ok x1 y1 -> ok x2 y2 ->
      add' O x1 x2 = Some x -> add' O y1 y2 = Some y ->
      add' O (acomb x1 y1) (acomb x2 y2) = Some (acomb x y) /\ ok x y.
  Proof.
    intros x1 x2 y1 y2 x y H1 H2 Hx Hy. unfold add' in *.
    rewrite (wfb_acomb x1 y1 H1), (wfb_acomb x2 y2 H2). cbn [dims ConcreteLinear.acomb].
    rewrite (wfb_ok x1 y1 H1), (wfb_ok x2 y2 H2) in Hy.
    pose proof H1 as (Hd1 & Hl1). pose proof H2 as (Hd2 & Hl2). rewrite <- Hd1, <- Hd2 in Hy.
    destruct (wfb x1 && wfb x2 && dims_eqb (dims x1) (dims x2)).
    - injection Hx as Hx. injection Hy as Hy. subst x y. split.
      + f_equal. unfold padd, ConcreteLinear.acomb, lcomb. cbn [dims vals]. f_equal.
        apply zipw_lin; assumption.
      + split; [cbn [padd dims]; exact Hd1 |]. cbn [padd vals]. rewrite !zipw_length. lia.
    - injection Hx as Hx. injection Hy as Hy. subst x y. split; [reflexivity | exact H1].
  Qed.

  Lemma flat'_lin : forall x y (p : pay) x' y',
      ok x y -> flat' O x p = Some x' -> flat' O y p = Some y' ->
      flat' O (acomb x y) p = Some (acomb x' y') /\ ok x' y'.
  Proof.
    intros x y p x' y' Hok Hx Hy. unfold flat' in *.
    rewrite (wfb_acomb x y Hok). rewrite (wfb_ok x y Hok) in Hy.
    destruct (wfb x); [| discriminate Hx].
    apply (flatten_to_lin O R alpha beta x y (p_dims p) x' y' Hok Hx Hy).
  Qed.

  (** * the restricted instance *)

  Definition E2 : eops pay (arr F) := {|
    eo_ones := eo_ones E';
    eo_flat := eo_flat E';
    eo_add := eo_add E';
    eo_hasop := eo_hasop E';
    eo_bop := fun p cs t x =>
                code <- p_bop p ;;
                if LP code then run_bop O code (map pay_arr cs) t x else None |}.

  Lemma H_bop2 : forall p pays saved x y dx dy,
      ok x y ->
      eo_bop E2 p pays saved x = Some dx -> eo_bop E2 p pays saved y = Some dy ->
      eo_bop E2 p pays saved (acomb x y) = Some (map2o acomb dx dy) /\
      (forall i a b, nth_error dx i = Some (Some a) -> nth_error dy i = Some (Some b) -> ok a b).
  Proof.
    intros p pays saved x y dx dy Hok Hx Hy. cbn [eo_bop E2] in *.
    destruct (p_bop p) as [code|]; [| discriminate Hx]. cbn [obind] in *.
    destruct (LP code) eqn:Hlp; [| discriminate Hx].
    apply (HLP code Hlp (map pay_arr pays) saved x y dx dy Hok Hx Hy).
  Qed.

  (** every closure occurring in the graph is in [LP] *)
  Definition graph_lp (g : list gnode) : Prop :=
    forall id nd code, nth_error g id = Some nd -> p_bop (n_pay nd) = Some code -> LP code = true.

  Lemma contribs_E2 : forall (g : list gnode) n delta,
      graph_lp g -> contribs E2 g n delta = contribs E' g n delta.
  Proof.
    intros g n delta Hlp. unfold contribs, graph_lp, Program.gnode in *.
    destruct (nth_error g n) as [nd|] eqn:Hnd; [| reflexivity]. cbn [obind].
    change (eo_hasop E2 (n_pay nd)) with (eo_hasop E' (n_pay nd)).
    destruct (eo_hasop E' (n_pay nd)) eqn:Hop; [| reflexivity].
    destruct (mapM (fun e : entry => c <- nth_error g (e_node e) ;; Some (n_pay c)) (n_children nd))
      as [pays|]; [| reflexivity]. cbn [obind].
    assert (Hb : eo_bop E2 (n_pay nd) pays (map e_tracked (n_children nd)) delta
                 = eo_bop E' (n_pay nd) pays (map e_tracked (n_children nd)) delta).
    { cbn [eo_bop E2 ValueConcrete.E' Program.E]. simpl in Hop.
      destruct (p_bop (n_pay nd)) as [code|] eqn:Hc; [| reflexivity]. cbn [obind].
      rewrite (Hlp n nd code Hnd Hc). reflexivity. }
    rewrite Hb. reflexivity.
  Qed.

  Lemma sweep_E2 : forall (g : list gnode) ids tab,
      graph_lp g -> sweep E2 g ids tab = sweep E' g ids tab.
  Proof.
    intros g ids. induction ids as [|n ids IH]; intros tab Hlp; [reflexivity |].
    simpl. destruct (nth n tab None) as [delta|]; [| apply IH; exact Hlp].
    rewrite (contribs_E2 g n delta Hlp).
    destruct (contribs E' g n delta) as [cs|]; [| reflexivity]. cbn [obind].
    change (tab_add_all E2 tab cs) with (tab_add_all E' tab cs).
    destruct (tab_add_all E' tab cs) as [tab'|]; [| reflexivity]. cbn [obind].
    apply IH. exact Hlp.
  Qed.

  Lemma adjoints_E2 : forall (g : list gnode) r s,
      graph_lp g -> adjoints E2 g r s = adjoints E' g r s.
  Proof. intros g r s Hlp. unfold adjoints. apply sweep_E2. exact Hlp. Qed.

  Lemma contract_E2 : forall g : list gnode, bop_contract E g -> bop_contract E2 g.
  Proof.
    intros g Hbc id nd pays delta ds Hnd Hb. apply (Hbc id nd pays delta ds Hnd).
    cbn [eo_bop E2 Program.E] in *.
    destruct (p_bop (n_pay nd)) as [code|]; [| discriminate Hb]. cbn [obind] in *.
    destruct (LP code); [exact Hb | discriminate Hb].
  Qed.

  Lemma grad_ok_ok : forall (p : pay) x y, grad_ok p x -> grad_ok p y -> ok x y.
  Proof.
    intros p x y ((_ & Hlx) & Hdx) ((_ & Hly) & Hdy). split; [congruence |].
    rewrite <- Hlx, <- Hly, Hdx, Hdy. reflexivity.
  Qed.

  Lemma grad_ok_acomb : forall (p : pay) x y, grad_ok p x -> grad_ok p y -> grad_ok p (acomb x y).
  Proof.
    intros p x y Hx Hy. pose proof (grad_ok_ok p x y Hx Hy) as Hok. destruct Hx as (Hw & Hd).
    split; [apply acomb_wf; assumption | exact Hd].
  Qed.

  (** * the adjoint table is linear in the seed *)
  Theorem adjoints_linear_concrete : forall (g : list gnode) r (ndr : gnode) s1 s2 t1 t2,
      store_good g -> graph_lp g -> nth_error g r = Some ndr ->
      grad_ok (n_pay ndr) s1 -> grad_ok (n_pay ndr) s2 ->
      adjoints E' g r s1 = Some t1 -> adjoints E' g r s2 = Some t2 ->
      adjoints E' g r (acomb s1 s2) = Some (map2o acomb t1 t2) /\
      (forall j, nth j t1 None = None <-> nth j t2 None = None).
  Proof.
    intros g r ndr s1 s2 t1 t2 Hg Hlp Hndr Hs1 Hs2 Ht1 Ht2.
    rewrite <- (adjoints_E2 g r s1 Hlp) in Ht1. rewrite <- (adjoints_E2 g r s2 Hlp) in Ht2.
    rewrite <- (adjoints_E2 g r (acomb s1 s2) Hlp).
    destruct (sweep_linear_ok E2 acomb ok H_bop2
                              (fun x y p x' y' Hok Hx Hy => flat'_lin x y p x' y' Hok Hx Hy)
                              add'_lin g r s1 s2 t1 t2
                              (contract_E2 g (store_good_contract O g Hg))
                              (grad_ok_ok _ s1 s2 Hs1 Hs2) Ht1 Ht2) as (H1 & _ & H2 & _).
    split; assumption.
  Qed.

  (** an explicit seed of the root's shape is admissible *)
  Lemma cseed_ok_some : forall (g : list gnode) r (ndr : gnode) s,
      nth_error g r = Some ndr -> grad_ok (n_pay ndr) s -> cseed_ok g r (Some s).
  Proof.
    intros g r ndr s Hndr Hs. split; [eapply Propagate.nth_lt; exact Hndr |].
    intros sd nd Hsd Hnd. injection Hsd as <-. unfold Program.gnode in *.
    rewrite Hndr in Hnd. injection Hnd as <-. exact Hs.
  Qed.

  (** a pass of the real engine with seed [s] leaves in an empty leaf slot the entry of the
      adjoint table of [s] *)
  Lemma pass_empty_leaf : forall (g : list gnode) r keep (ndr : gnode) s g' l id (nd nd' : gnode),
      store_good g -> nth_error g r = Some ndr -> grad_ok (n_pay ndr) s ->
      run_backward E g r keep (Some s) = Some (g', l) ->
      nth_error g id = Some nd -> n_children nd = [] -> n_grad nd = None ->
      nth_error g' id = Some nd' ->
      exists tab, adjoints E' g r s = Some tab /\ n_grad nd' = nth id tab None.
  Proof.
    intros g r keep ndr s g' l id nd nd' Hg Hndr Hs Hrun Hn Hch Hgn Hn'.
    destruct (pass_bridge O g r keep (Some s) _ Hg (cseed_ok_some g r ndr s Hndr Hs) Hrun)
      as (Hp & Hrun' & s0 & Hso).
    assert (s0 = s) by (destruct Hso as (_ & Hseed & _); simpl in Hseed; congruence). subst s0.
    destruct (pass_leaf E' shape (@sh F) (@psh F) (add_ok' O) (add_comm' O R) (add_assoc' O R)
                        (flat_sh' O) g r keep (Some s) s g' l Hp Hso Hrun')
      as (tab & Htab & _ & _ & Hlf).
    exists tab. split; [exact Htab |].
    pose proof (Hlf id nd nd' Hn Hn' Hch) as Hst. rewrite Hgn in Hst.
    apply stored_opt_none in Hst. exact Hst.
  Qed.

  (** (C17) three passes of the REAL engine from the same sound store with seeds [s1], [s2]
      and [alpha*s1 + beta*s2]: every leaf whose slot was empty receives the same
      combination of the two gradients *)
  Theorem pass_linear_concrete :
    forall (g : list gnode) r keep (ndr : gnode) s1 s2 g1 l1 g2 l2 g3 l3,
      store_good g -> graph_lp g -> nth_error g r = Some ndr ->
      grad_ok (n_pay ndr) s1 -> grad_ok (n_pay ndr) s2 ->
      run_backward E g r keep (Some s1) = Some (g1, l1) ->
      run_backward E g r keep (Some s2) = Some (g2, l2) ->
      run_backward E g r keep (Some (acomb s1 s2)) = Some (g3, l3) ->
      forall id (nd nd1 nd2 nd3 : gnode),
        nth_error g id = Some nd -> nth_error g1 id = Some nd1 ->
        nth_error g2 id = Some nd2 -> nth_error g3 id = Some nd3 ->
        n_children nd = [] -> n_grad nd = None ->
        (n_grad nd1 = None /\ n_grad nd2 = None /\ n_grad nd3 = None) \/
        (exists x1 x2, n_grad nd1 = Some x1 /\ n_grad nd2 = Some x2 /\
                       n_grad nd3 = Some (acomb x1 x2)).
  Proof.
    intros g r keep ndr s1 s2 g1 l1 g2 l2 g3 l3 Hg Hlp Hndr Hs1 Hs2 Hrun1 Hrun2 Hrun3
           id nd nd1 nd2 nd3 Hn Hn1 Hn2 Hn3 Hch Hgn.
    destruct (pass_empty_leaf g r keep ndr s1 g1 l1 id nd nd1 Hg Hndr Hs1 Hrun1 Hn Hch Hgn Hn1)
      as (t1 & Ht1 & ->).
    destruct (pass_empty_leaf g r keep ndr s2 g2 l2 id nd nd2 Hg Hndr Hs2 Hrun2 Hn Hch Hgn Hn2)
      as (t2 & Ht2 & ->).
    destruct (pass_empty_leaf g r keep ndr _ g3 l3 id nd nd3 Hg Hndr (grad_ok_acomb _ s1 s2 Hs1 Hs2)
                              Hrun3 Hn Hch Hgn Hn3) as (t3 & Ht3 & ->).
    destruct (adjoints_linear_concrete g r ndr s1 s2 t1 t2 Hg Hlp Hndr Hs1 Hs2 Ht1 Ht2)
      as (Hlin & Hnone).
    assert (Ht : t3 = map2o acomb t1 t2) by congruence.
    rewrite Ht, map2o_nth.
    destruct (nth id t1 None) as [x1|] eqn:Hx1.
    - destruct (nth id t2 None) as [x2|] eqn:Hx2.
      + right. exists x1, x2. simpl. tauto.
      + exfalso. pose proof (proj2 (Hnone id) Hx2) as Hcon. congruence.
    - left. simpl. split; [reflexivity |]. split; [apply (Hnone id); exact Hx1 | reflexivity].
  Qed.
End LinearPass.

(** the instance with the closures proved linear in [ConcreteLinear.v] *)
Theorem pass_linear_proved :
  forall (F : Type) (O : ScalarOps F) (R : is_cring O) (alpha beta : F)
         (g : list (@gnode F)) r keep (ndr : @gnode F) s1 s2 g1 l1 g2 l2 g3 l3,
    store_good g -> graph_lp linear_proved g -> nth_error g r = Some ndr ->
    grad_ok (n_pay ndr) s1 -> grad_ok (n_pay ndr) s2 ->
    run_backward (Program.E O) g r keep (Some s1) = Some (g1, l1) ->
    run_backward (Program.E O) g r keep (Some s2) = Some (g2, l2) ->
    run_backward (Program.E O) g r keep (Some (acomb O alpha beta s1 s2)) = Some (g3, l3) ->
    forall id (nd nd1 nd2 nd3 : @gnode F),
      nth_error g id = Some nd -> nth_error g1 id = Some nd1 ->
      nth_error g2 id = Some nd2 -> nth_error g3 id = Some nd3 ->
      n_children nd = [] -> n_grad nd = None ->
      (n_grad nd1 = None /\ n_grad nd2 = None /\ n_grad nd3 = None) \/
      (exists x1 x2, n_grad nd1 = Some x1 /\ n_grad nd2 = Some x2 /\
                     n_grad nd3 = Some (acomb O alpha beta x1 x2)).
Proof.
  intros F O R alpha beta. apply (pass_linear_concrete O R alpha beta linear_proved).
  apply (linear_proved_linear O R alpha beta).
Qed.

Print Assumptions adjoints_linear_concrete.
Print Assumptions pass_linear_concrete.
Print Assumptions pass_linear_proved.
