(** [backward] as named pieces with their inversion lemmas ([backward_S_inv], [bw_body_inv],
    [deliver_inv], [finish_inv]), the pass invariant and the pass specification [pass_spec],
    and totality of a pass over a predicate on nodes ([root_total]), of which
    [run_backward_total] is the unconditional instance. *)

From Coq Require Import List Arith Bool Lia PeanoNat.
From Corgi Require Import Lib.OptionMonad Model.Engine Proofs.EngineDefs
     Proofs.EngineBase Proofs.Propagate.
Import ListNotations.

Lemma pos_in_app_l : forall a l l' i, pos_in a l = Some i -> pos_in a (l ++ l') = Some i.
Proof.
  intros a l. induction l as [|x l IH]; intros l' i H; simpl in H.
  - discriminate H.
  - simpl. destruct (x =? a); [exact H |].
    destruct (pos_in a l) as [k|] eqn:Hk; [|discriminate H].
    rewrite (IH l' k eq_refl). exact H.
Qed.

Lemma pos_in_In : forall a l, In a l -> exists i, pos_in a l = Some i /\ i < length l.
Proof.
  intros a l. induction l as [|x l IH]; intro H.
  - destruct H.
  - simpl. destruct (x =? a) eqn:Hxa.
    + exists 0. split; [reflexivity | lia].
    + destruct H as [H|H]; [apply Nat.eqb_neq in Hxa; congruence |].
      destruct (IH H) as (i & Hi & Hlt). rewrite Hi. exists (S i). split; [reflexivity | lia].
Qed.

Lemma pos_in_last : forall b l, ~ In b l -> pos_in b (l ++ [b]) = Some (length l).
Proof.
  intros b l. induction l as [|x l IH]; intro H.
  - simpl. rewrite Nat.eqb_refl. reflexivity.
  - simpl. destruct (x =? b) eqn:Hxb.
    + apply Nat.eqb_eq in Hxb. exfalso. apply H. left. exact Hxb.
    + rewrite IH; [reflexivity |]. intro Hin. apply H. right. exact Hin.
Qed.

Lemma before_app : forall l l' a b, before l a b -> before (l ++ l') a b.
Proof.
  intros l l' a b (i & j & Hi & Hj & Hlt). exists i, j.
  split; [apply pos_in_app_l; exact Hi |]. split; [apply pos_in_app_l; exact Hj | exact Hlt].
Qed.

Lemma before_last : forall l a b, In a l -> ~ In b l -> before (l ++ [b]) a b.
Proof.
  intros l a b Ha Hb. destruct (pos_in_In a l Ha) as (i & Hi & Hlt).
  exists i, (length l). split; [apply pos_in_app_l; exact Hi |].
  split; [apply pos_in_last; exact Hb | exact Hlt].
Qed.

Section Inv.
  Context {P D : Type}.
  Variable E : eops P D.
  Variable g0 : store P D.
  Variable r : nat.
  Hypothesis Hwf : wfg E g0.
  Hypothesis Hbc : bop_contract E g0.
  Hypothesis Hr : r < length g0.

  Definition rec_t : Type :=
    store P D -> nat -> bool -> option D -> @trace D -> option (store P D * @trace D).

  Definition deliver (rec : rec_t) (acc : option (store P D * @trace D)) (p : entry * option D)
    : option (store P D * @trace D) :=
    st <- acc ;;
    let '(g, lg) := st in
    let e := fst p in
    match snd p with
    | None => Some (g, lg)
    | Some d =>
      c <- nth_error g (e_node e) ;;
      d' <- eo_flat E d (n_pay c) ;;
      nw <- match n_delta c with
            | Some x => eo_add E x d'
            | None => Some d'
            end ;;
      let cc := n_count c in
      check (1 <=? cc) ;;
      g' <- put g (e_node e) (set_count (set_delta c (Some nw)) (cc - 1)) ;;
      if cc =? 1 then rec g' (e_node e) (e_keep e) None lg
      else Some (g', lg)
    end.

  Definition finish (g2 : store P D) (id : nat) (keep : bool) (delta : D) (log2 : @trace D)
    : option (store P D * @trace D) :=
    nd2 <- nth_error g2 id ;;
    if (match n_children nd2 with [] => true | _ => false end) || keep then
      ng <- match n_grad nd2 with
            | Some x => eo_add E x delta
            | None => Some delta
            end ;;
      g3 <- put g2 id (set_grad nd2 (Some ng)) ;;
      Some (g3, log2)
    else Some (g2, log2).

  Definition bw_body (rec : rec_t) (g1 : store P D) (id : nat) (keep : bool) (delta : D)
             (log : @trace D) : option (store P D * @trace D) :=
    nd1 <- nth_error g1 id ;;
    let es := n_children nd1 in
    gl <- (if eo_hasop E (n_pay nd1) then
             let saved := map e_tracked es in
             g1a <- put g1 id (set_children nd1 (clear_flags es)) ;;
             pays <- mapM (fun e => c <- nth_error g1a (e_node e) ;; Some (n_pay c)) es ;;
             ds <- eo_bop E (n_pay nd1) pays saved delta ;;
             nd1a <- nth_error g1a id ;;
             g1b <- put g1a id (set_children nd1a (restore_flags (n_children nd1a) saved)) ;;
             check (length ds <=? length es) ;;
             fold_left (deliver rec) (combine es ds) (Some (g1b, log ++ [(id, delta)]))
           else
             check (match es with [] => true | _ => false end) ;;
             Some (g1, log)) ;;
    let '(g2, log2) := gl in
    finish g2 id keep delta log2.

  Lemma backward_S : forall f (g : store P D) id keep seed log,
      backward E (S f) g id keep seed log =
      (nd <- nth_error g id ;;
       gd <- match n_delta nd with
             | Some x => g1 <- put g id (set_delta nd None) ;; Some (g1, x)
             | None =>
               g1 <- propagate (S id) g id ;;
               Some (g1, match seed with Some s => s | None => eo_ones E (n_pay nd) end)
             end ;;
       let '(g1, delta) := gd in
       bw_body (backward E f) g1 id keep delta log).
  Proof. reflexivity. Qed.

  Lemma deliver_acc_none : forall rec p, deliver rec None p = None.
  Proof. reflexivity. Qed.

  Lemma deliver_skip : forall rec g lg e, deliver rec (Some (g, lg)) (e, None) = Some (g, lg).
  Proof. reflexivity. Qed.

  Lemma deliver_inv : forall rec g lg e d res,
      deliver rec (Some (g, lg)) (e, Some d) = Some res ->
      exists c d' nw g',
        nth_error g (e_node e) = Some c /\ eo_flat E d (n_pay c) = Some d' /\
        (match n_delta c with Some x => eo_add E x d' | None => Some d' end) = Some nw /\
        1 <= n_count c /\
        put g (e_node e) (set_count (set_delta c (Some nw)) (n_count c - 1)) = Some g' /\
        (if n_count c =? 1 then rec g' (e_node e) (e_keep e) None lg else Some (g', lg))
        = Some res.
  Proof.
    intros rec g lg e d res H. unfold deliver in H. cbn [obind fst snd] in H.
    revert H. apply obind_elim. intros c Hc H.
    revert H. apply obind_elim. intros d' Hd' H.
    revert H. apply obind_elim. intros nw Hnw H.
    revert H. apply obind_elim. intros u Hu H.
    revert H. apply obind_elim. intros g' Hg' H.
    apply guard_some in Hu. apply Nat.leb_le in Hu.
    exists c, d', nw, g'. exact (conj Hc (conj Hd' (conj Hnw (conj Hu (conj Hg' H))))).
  Qed.

  Lemma deliver_fwd : forall rec (g : store P D) lg e d c d' nw g1,
      nth_error g (e_node e) = Some c -> eo_flat E d (n_pay c) = Some d' ->
      match n_delta c with Some x => eo_add E x d' | None => Some d' end = Some nw ->
      1 <= n_count c ->
      put g (e_node e) (set_count (set_delta c (Some nw)) (n_count c - 1)) = Some g1 ->
      deliver rec (Some (g, lg)) (e, Some d) =
      if n_count c =? 1 then rec g1 (e_node e) (e_keep e) None lg else Some (g1, lg).
  Proof.
    intros rec g lg e d c d' nw g1 Hc Hd' Hnw Hle Hput.
    unfold deliver. cbn [obind fst snd]. rewrite Hc. cbn [obind]. rewrite Hd'. cbn [obind].
    rewrite Hnw. cbn [obind]. apply Nat.leb_le in Hle. rewrite Hle. cbn [guard obind].
    rewrite Hput. reflexivity.
  Qed.

  Lemma fold_deliver_none : forall rec ps, fold_left (deliver rec) ps None = None.
  Proof. intros rec ps. apply fold_left_none. intro b. reflexivity. Qed.

  Lemma fold_deliver_cons : forall rec p ps st res,
      fold_left (deliver rec) (p :: ps) (Some st) = Some res ->
      exists st1, deliver rec (Some st) p = Some st1 /\
                  fold_left (deliver rec) ps (Some st1) = Some res.
  Proof.
    intros rec p ps st res H. cbn [fold_left] in H.
    destruct (deliver rec (Some st) p) as [st1|].
    - exists st1. split; [reflexivity | exact H].
    - rewrite fold_deliver_none in H. discriminate H.
  Qed.

  Lemma finish_inv : forall g2 id keep delta log2 g' log',
      finish g2 id keep delta log2 = Some (g', log') ->
      log' = log2 /\ exists nd2, nth_error g2 id = Some nd2 /\
        if (match n_children nd2 with [] => true | _ => false end) || keep
        then exists ng,
            (match n_grad nd2 with Some x => eo_add E x delta | None => Some delta end)
            = Some ng /\ put g2 id (set_grad nd2 (Some ng)) = Some g'
        else g' = g2.
  Proof.
    intros g2 id keep delta log2 g' log' H. unfold finish in H.
    revert H. apply obind_elim. intros nd2 Hnd2 H.
    destruct ((match n_children nd2 with [] => true | _ => false end) || keep) eqn:Hb.
    - revert H. apply obind_elim. intros ng Hng H.
      revert H. apply obind_elim. intros g3 Hput H.
      injection H as Hg Hl. subst g3 log'. split; [reflexivity |].
      exists nd2. rewrite Hb. split; [exact Hnd2 |]. exists ng. exact (conj Hng Hput).
    - injection H as Hg Hl. subst g' log'. split; [reflexivity |].
      exists nd2. rewrite Hb. exact (conj Hnd2 eq_refl).
  Qed.

  (** The closure branch clears the children's flags, runs the closure and restores them:
      the deliveries start from [g1] again, and the payloads read in between are those
      of [g1]. *)
  Lemma bw_body_eq : forall rec (g1 : store P D) id keep delta log nd1,
      nth_error g1 id = Some nd1 ->
      bw_body rec g1 id keep delta log =
      (gl <- (if eo_hasop E (n_pay nd1) then
                pays <- mapM (fun e => c <- nth_error g1 (e_node e) ;; Some (n_pay c))
                             (n_children nd1) ;;
                ds <- eo_bop E (n_pay nd1) pays (map e_tracked (n_children nd1)) delta ;;
                check (length ds <=? length (n_children nd1)) ;;
                fold_left (deliver rec) (combine (n_children nd1) ds)
                          (Some (g1, log ++ [(id, delta)]))
              else
                check (match n_children nd1 with [] => true | _ => false end) ;;
                Some (g1, log)) ;;
       let '(g2, log2) := gl in finish g2 id keep delta log2).
  Proof.
    intros rec g1 id keep delta log nd1 Hnd1.
    unfold bw_body. rewrite Hnd1. cbn [obind].
    destruct (eo_hasop E (n_pay nd1)); [| reflexivity]. cbv zeta.
    destruct (put_some g1 id (set_children nd1 (clear_flags (n_children nd1)))) as (g1a & Hg1a);
      [eapply nth_lt; exact Hnd1 |].
    rewrite Hg1a. cbn [obind].
    rewrite (mapM_ext (fun e => c <- nth_error g1a (e_node e) ;; Some (n_pay c))
                         (fun e => c <- nth_error g1 (e_node e) ;; Some (n_pay c))).
    2:{ intros e _. pose proof (put_inv g1 id _ g1a Hg1a) as (_ & _ & Hn). rewrite Hn.
        destruct (e_node e =? id) eqn:He; [| reflexivity].
        apply Nat.eqb_eq in He. rewrite He, Hnd1. reflexivity. }
    destruct (mapM (fun e => c <- nth_error g1 (e_node e) ;; Some (n_pay c)) (n_children nd1))
      as [pays|]; cbn [obind]; [| reflexivity].
    destruct (eo_bop E (n_pay nd1) pays (map e_tracked (n_children nd1)) delta) as [ds|];
      cbn [obind]; [| reflexivity].
    rewrite (put_nth_eq g1 id _ g1a Hg1a). cbn [obind].
    simpl n_children. rewrite restore_clear, set_children_twice, set_children_id.
    destruct (put_some g1a id nd1) as (g1b & Hg1b);
      [rewrite (put_length g1 id _ g1a Hg1a); eapply nth_lt; exact Hnd1 |].
    rewrite Hg1b. cbn [obind].
    rewrite (put_same g1 id nd1 g1b (put_put g1 id _ _ g1a g1b Hg1a Hg1b) Hnd1). reflexivity.
  Qed.

  Lemma bw_body_inv : forall rec (g1 : store P D) id keep delta log res,
      bw_body rec g1 id keep delta log = Some res ->
      exists nd1 g2 log2,
        nth_error g1 id = Some nd1 /\
        (if eo_hasop E (n_pay nd1) then
           exists pays ds,
             mapM (fun e => c <- nth_error g1 (e_node e) ;; Some (n_pay c)) (n_children nd1)
             = Some pays /\
             eo_bop E (n_pay nd1) pays (map e_tracked (n_children nd1)) delta = Some ds /\
             length ds <= length (n_children nd1) /\
             fold_left (deliver rec) (combine (n_children nd1) ds)
                       (Some (g1, log ++ [(id, delta)])) = Some (g2, log2)
         else n_children nd1 = [] /\ g2 = g1 /\ log2 = log) /\
        finish g2 id keep delta log2 = Some res.
  Proof.
    intros rec g1 id keep delta log res H.
    destruct (nth_error g1 id) as [nd1|] eqn:Hnd1;
      [| unfold bw_body in H; rewrite Hnd1 in H; discriminate H].
    rewrite (bw_body_eq rec g1 id keep delta log nd1 Hnd1) in H.
    revert H. apply obind_elim. intros [g2 log2] Hgl H.
    exists nd1, g2, log2. split; [reflexivity |]. split; [| exact H].
    destruct (eo_hasop E (n_pay nd1)).
    - revert Hgl. apply obind_elim. intros pays Hpays Hgl.
      revert Hgl. apply obind_elim. intros ds Hds Hgl.
      revert Hgl. apply obind_elim. intros u Hu Hgl.
      apply guard_some in Hu. apply Nat.leb_le in Hu. exists pays, ds.
      exact (conj Hpays (conj Hds (conj Hu Hgl))).
    - revert Hgl. apply obind_elim. intros u Hu Hgl. apply guard_some in Hu.
      injection Hgl as Hg Hl. subst g2 log2.
      destruct (n_children nd1); [repeat split | discriminate Hu].
  Qed.

  Lemma backward_S_pop : forall f (g : store P D) id keep seed log nd x g1,
      nth_error g id = Some nd -> n_delta nd = Some x -> put g id (set_delta nd None) = Some g1 ->
      backward E (S f) g id keep seed log = bw_body (backward E f) g1 id keep x log.
  Proof.
    intros f g id keep seed log nd x g1 Hnd Hx Hput.
    rewrite backward_S, Hnd. cbn [obind]. rewrite Hx, Hput. reflexivity.
  Qed.

  Lemma backward_S_inv : forall f (g : store P D) id keep seed log res,
      backward E (S f) g id keep seed log = Some res ->
      exists nd g1 delta,
        nth_error g id = Some nd /\
        match n_delta nd with
        | Some x => delta = x /\ put g id (set_delta nd None) = Some g1
        | None => propagate (S id) g id = Some g1 /\
                  delta = match seed with Some s => s | None => eo_ones E (n_pay nd) end
        end /\
        bw_body (backward E f) g1 id keep delta log = Some res.
  Proof.
    intros f g id keep seed log res H. rewrite backward_S in H.
    revert H. apply obind_elim. intros nd Hnd H.
    revert H. apply obind_elim. intros [g1 delta] Hgd H.
    exists nd, g1, delta. split; [exact Hnd |]. split; [| exact H].
    destruct (n_delta nd); apply obind_some in Hgd; destruct Hgd as (g1' & Hg1 & Hgd);
      injection Hgd as Ha Hb; subst g1'; split; congruence.
  Qed.

  Definition act (g : store P D) (n : nat) : bool := negb (cnt g n =? 0).

  Definition Inv (g : store P D) (X : list nat) : Prop :=
    forall m, cnt g m = indeg g0 (act g) m + occ m X.

  Definition DInv (g : store P D) : Prop := forall m, cnt g m = 0 -> dlt g m = None.
  Definition DInvX (g : store P D) (id : nat) : Prop :=
    forall m, m <> id -> cnt g m = 0 -> dlt g m = None.

  Definition opb (m : nat) : bool :=
    match nth_error g0 m with Some nd => hasop E nd | None => false end.

  Definition ids (log : @trace D) : list nat := map fst log.

  Definition Logged (Z : nat -> Prop) (log : @trace D) : Prop :=
    NoDup (ids log) /\
    forall m, In m (ids log) <-> (reach g0 r m /\ opb m = true /\ Z m).

  Definition LInv (g : store P D) (log : @trace D) : Prop := Logged (fun m => cnt g m = 0) log.
  Definition LInvX (g : store P D) (log : @trace D) (id : nat) : Prop :=
    Logged (fun m => cnt g m = 0 /\ m <> id) log.

  Definition OInv (log : @trace D) : Prop :=
    forall n m, reach g0 r n -> tedge g0 n m -> In m (ids log) -> before (ids log) n m.

  Definition SK (g : store P D) : Prop := map sk g = map sk g0.

  Definition GOut (g g' : store P D) : Prop :=
    forall m, ~ reach g0 r m -> grd g' m = grd g m.

  Definition SI (g : store P D) (X : list nat) (lg : @trace D) : Prop :=
    SK g /\ Inv g X /\ DInv g /\ LInv g lg /\ OInv lg.

  (** node [id] is about to run: its consumers have all delivered, it is not yet logged *)
  Definition Firing (g : store P D) (id : nat) (X : list nat) (log : @trace D) : Prop :=
    SK g /\ cnt g id = 0 /\ Inv g (tkn g0 id ++ X) /\ DInvX g id /\ LInvX g log id /\ OInv log.

  Lemma GOut_refl : forall g, GOut g g.
  Proof. intros g m _. reflexivity. Qed.

  Lemma GOut_trans : forall g1 g2 g3, GOut g1 g2 -> GOut g2 g3 -> GOut g1 g3.
  Proof. intros g1 g2 g3 H1 H2 m Hm. rewrite (H2 m Hm). apply H1. exact Hm. Qed.

  Lemma GOut_grd : forall g g', (forall m, grd g' m = grd g m) -> GOut g g'.
  Proof. intros g g' H m _. apply H. Qed.

  Lemma ids_snoc : forall (log : @trace D) id delta, ids (log ++ [(id, delta)]) = ids log ++ [id].
  Proof. intros log id delta. unfold ids. rewrite map_app. reflexivity. Qed.

  Lemma Inv_ext : forall g g' X, (forall m, cnt g' m = cnt g m) -> Inv g X -> Inv g' X.
  Proof.
    intros g g' X Hc HI m. rewrite Hc, (HI m). f_equal.
    apply indeg_ext. intros n _. unfold act. rewrite Hc. reflexivity.
  Qed.

  Lemma Logged_ext : forall (Z Z' : nat -> Prop) log,
      (forall m, Z m <-> Z' m) -> Logged Z log -> Logged Z' log.
  Proof.
    intros Z Z' log HZ (Hnd & HL). split; [exact Hnd |]. intro m. split.
    - intro H. apply HL in H. destruct H as (H1 & H2 & H3).
      exact (conj H1 (conj H2 (proj1 (HZ m) H3))).
    - intros (H1 & H2 & H3). apply HL. exact (conj H1 (conj H2 (proj2 (HZ m) H3))).
  Qed.

  Lemma LInv_ext : forall g g' lg, (forall m, cnt g' m = cnt g m) -> LInv g lg -> LInv g' lg.
  Proof.
    intros g g' lg Hc. apply Logged_ext. intro m. rewrite Hc. reflexivity.
  Qed.

  Lemma LInvX_ext : forall g g' lg id,
      (forall m, cnt g' m = cnt g m) -> LInvX g lg id -> LInvX g' lg id.
  Proof.
    intros g g' lg id Hc. apply Logged_ext. intro m. rewrite Hc. reflexivity.
  Qed.

  Lemma SK_eq : forall g g', map sk g' = map sk g -> SK g -> SK g'.
  Proof. intros g g' H HS. unfold SK. rewrite H. exact HS. Qed.

  Lemma SI_ext : forall g g' X lg,
      map sk g' = map sk g -> (forall m, cnt g' m = cnt g m) -> (forall m, dlt g' m = dlt g m) ->
      SI g X lg -> SI g' X lg.
  Proof.
    intros g g' X lg Hsk Hc Hd (HS & HI & HD & HL & HO).
    split; [eapply SK_eq; eassumption |].
    split; [eapply Inv_ext; eassumption |].
    split; [intros m Hm; rewrite Hd; apply HD; rewrite <- Hc; exact Hm |].
    split; [eapply LInv_ext; eassumption | exact HO].
  Qed.

  Lemma SK_nth : forall g id nd, SK g -> nth_error g id = Some nd ->
      exists nd0, nth_error g0 id = Some nd0 /\ n_pay nd = n_pay nd0 /\
                  n_children nd = n_children nd0.
  Proof.
    intros g id nd HS Hn. destruct (map_eq_nth sk g g0 id nd HS Hn) as (nd0 & Hn0 & Hsk).
    exists nd0. unfold sk in Hsk. split; [exact Hn0 |]. split; congruence.
  Qed.

  Lemma SK_length : forall g, SK g -> length g = length g0.
  Proof. intros g HS. apply (map_eq_length sk). exact HS. Qed.

  Lemma SK_some : forall g id, SK g -> id < length g0 -> exists nd, nth_error g id = Some nd.
  Proof.
    intros g id HS Hid. destruct (nth_error g id) as [nd|] eqn:Hn; [exists nd; reflexivity |].
    apply nth_error_None in Hn. rewrite (SK_length g HS) in Hn. lia.
  Qed.

  Lemma SK_pay : forall g j, SK g ->
      (c <- nth_error g j ;; Some (n_pay c)) = (c <- nth_error g0 j ;; Some (n_pay c)).
  Proof.
    intros g j HS. pose proof (map_eq_lookup sk g g0 j HS) as H.
    destruct (nth_error g j), (nth_error g0 j); simpl in H; try discriminate H; [| reflexivity].
    injection H as H _. simpl. rewrite H. reflexivity.
  Qed.

  Lemma inv_fire : forall g g1 c X,
      c < length g0 -> cnt g c = 1 ->
      (forall m, cnt g1 m = if m =? c then 0 else cnt g m) ->
      Inv g (c :: X) -> Inv g1 (tkn g0 c ++ X).
  Proof.
    intros g g1 c X Hc Hc1 Hg1 HI m.
    rewrite occ_app, <- mult_occ.
    assert (Hfl : indeg g0 (act g) m = mult g0 c m + indeg g0 (act g1) m).
    { apply indeg_flip; [exact Hc | | |].
      - unfold act. rewrite Hg1, Nat.eqb_refl. reflexivity.
      - unfold act. rewrite Hc1. reflexivity.
      - intros n Hn. unfold act. rewrite Hg1. apply Nat.eqb_neq in Hn. rewrite Hn. reflexivity. }
    pose proof (HI m) as Hm. rewrite occ_cons, Hfl in Hm. rewrite Hg1.
    destruct (m =? c) eqn:Hmc.
    - apply Nat.eqb_eq in Hmc. subst m. lia.
    - lia.
  Qed.

  Lemma inv_dec : forall g g1 c X,
      2 <= cnt g c ->
      (forall m, cnt g1 m = if m =? c then cnt g c - 1 else cnt g m) ->
      Inv g (c :: X) -> Inv g1 X.
  Proof.
    intros g g1 c X Hc Hg1 HI m.
    rewrite (indeg_ext g0 (act g1) (act g) m).
    - pose proof (HI m) as Hm. rewrite occ_cons in Hm. rewrite Hg1.
      destruct (m =? c) eqn:Hmc.
      + apply Nat.eqb_eq in Hmc. subst m. lia.
      + lia.
    - intros n _. unfold act. rewrite Hg1. destruct (n =? c) eqn:Hnc; [|reflexivity].
      apply Nat.eqb_eq in Hnc. subst n.
      destruct (cnt g c - 1) as [|k] eqn:Hk; [lia |].
      destruct (cnt g c) as [|k']; [lia | reflexivity].
  Qed.

  (** by induction downwards from [length g0]: a node has no active consumer left *)
  Lemma inv_nil_zero : forall g, Inv g [] -> forall m, cnt g m = 0.
  Proof.
    intros g HI.
    assert (H : forall k m, length g0 <= m + k -> cnt g m = 0).
    { induction k as [|k IH]; intros m Hm; rewrite (HI m), occ_nil, Nat.add_0_r;
        apply indeg_zero; intros n Hn Ha.
      - apply (mult_zero_ge E g0 Hwf). lia.
      - destruct (le_lt_dec n m) as [Hle|Hlt]; [apply (mult_zero_ge E g0 Hwf); exact Hle |].
        unfold act in Ha. rewrite (IH n) in Ha; [discriminate Ha | lia]. }
    intro m. apply (H (length g0) m). lia.
  Qed.

  Lemma tedge_opb : forall n m, tedge g0 n m -> opb n = true.
  Proof.
    intros n m (nd & e & Hn & Hin & _ & _). unfold opb. rewrite Hn.
    destruct (hasop E nd) eqn:Hop; [reflexivity |].
    destruct (Hwf n nd Hn) as (_ & Hch). rewrite (Hch Hop) in Hin. destruct Hin.
  Qed.

  Lemma LInvX_notin : forall g log id, LInvX g log id -> ~ In id (ids log).
  Proof.
    intros g log id (_ & HL) H. apply HL in H. destruct H as (_ & _ & _ & H). apply H. reflexivity.
  Qed.

  (** logging node [id] at the moment it fires: its consumers have all fired, since its
      count is 0 and every active consumer contributes to it *)
  Lemma oinv_log : forall g id X log delta,
      Inv g (tkn g0 id ++ X) -> cnt g id = 0 -> LInvX g log id -> OInv log ->
      OInv (log ++ [(id, delta)]).
  Proof.
    intros g id X log delta HI Hc0 HLX HO n m Hrn Hte Hin.
    rewrite ids_snoc in *. apply in_app_or in Hin. destruct Hin as [Hin|Hin].
    - apply before_app. apply HO; assumption.
    - destruct Hin as [Hin|[]]. subst m.
      apply before_last; [| eapply LInvX_notin; exact HLX].
      destruct HLX as (_ & HL).
      apply HL. split; [exact Hrn |]. split; [eapply tedge_opb; exact Hte |].
      pose proof (tedge_lt E g0 Hwf n id Hte) as (Hlt & Hn).
      split; [| lia].
      pose proof (HI id) as Hid. rewrite Hc0 in Hid.
      destruct (cnt g n) as [|k] eqn:Hcn; [reflexivity |].
      assert (Ha : act g n = true) by (unfold act; rewrite Hcn; reflexivity).
      pose proof (indeg_ge g0 (act g) n id Hn Ha) as Hge.
      apply mult_pos_tedge in Hte. lia.
  Qed.

  Lemma Logged_snoc : forall (Z : nat -> Prop) log id delta,
      reach g0 r id -> opb id = true -> Z id ->
      Logged (fun m => Z m /\ m <> id) log -> Logged Z (log ++ [(id, delta)]).
  Proof.
    intros Z log id delta Hrid Hop HZ (Hnd & HL). unfold Logged. rewrite ids_snoc.
    assert (Hnot : ~ In id (ids log)).
    { intro H. apply HL in H. destruct H as (_ & _ & _ & H). apply H. reflexivity. }
    split; [apply NoDup_snoc; assumption |]. intro m. split.
    - intro H. apply in_app_or in H. destruct H as [H|[H|[]]].
      + apply HL in H. destruct H as (H1 & H2 & H3 & _). exact (conj H1 (conj H2 H3)).
      + subst m. exact (conj Hrid (conj Hop HZ)).
    - intros (H1 & H2 & H3). apply in_or_app. destruct (Nat.eq_dec m id) as [Heq|Hne].
      + right. left. symmetry. exact Heq.
      + left. apply HL. exact (conj H1 (conj H2 (conj H3 Hne))).
  Qed.

  Lemma linv_log : forall g id log delta,
      reach g0 r id -> opb id = true -> cnt g id = 0 ->
      LInvX g log id -> LInv g (log ++ [(id, delta)]).
  Proof. intros g id log delta. apply (Logged_snoc (fun m => cnt g m = 0)). Qed.

  Lemma linv_nolog : forall g id log, opb id = false -> LInvX g log id -> LInv g log.
  Proof.
    intros g id log Hop (Hnd & HL). split; [exact Hnd |]. intro m. split.
    - intro H. apply HL in H. destruct H as (H1 & H2 & H3 & _). exact (conj H1 (conj H2 H3)).
    - intros (H1 & H2 & H3). apply HL. repeat split; try assumption. congruence.
  Qed.

  Lemma deliver_state : forall (g : store P D) c cn nw (g1 : store P D),
      nth_error g c = Some cn ->
      put g c (set_count (set_delta cn (Some nw)) (n_count cn - 1)) = Some g1 ->
      map sk g1 = map sk g /\
      (forall m, cnt g1 m = if m =? c then cnt g c - 1 else cnt g m) /\
      (forall m, dlt g1 m = if m =? c then Some nw else dlt g m) /\
      (forall m, grd g1 m = grd g m).
  Proof.
    intros g c cn nw g1 Hcn Hput. split; [|split; [|split]].
    - eapply put_map; [exact Hput | exact Hcn | reflexivity].
    - intro m. rewrite (put_cnt g c _ g1 m Hput), (cnt_nth g c cn Hcn). reflexivity.
    - intro m. apply (put_dlt g c _ g1 m Hput).
    - exact (put_keep n_grad None g c cn _ g1 Hput Hcn eq_refl).
  Qed.

  Lemma si_fire : forall g g1 c X lg nw,
      SI g (c :: X) lg -> c < length g0 -> cnt g c = 1 ->
      map sk g1 = map sk g ->
      (forall m, cnt g1 m = if m =? c then cnt g c - 1 else cnt g m) ->
      (forall m, dlt g1 m = if m =? c then Some nw else dlt g m) ->
      Firing g1 c X lg /\ dlt g1 c = Some nw.
  Proof.
    intros g g1 c X lg nw (HS & HI & HD & HL & HO) Hc Hc1 Hsk Hcnt Hdlt.
    rewrite Hc1 in Hcnt. simpl in Hcnt.
    split; [| rewrite Hdlt, Nat.eqb_refl; reflexivity].
    split; [eapply SK_eq; eassumption |].
    split; [rewrite Hcnt, Nat.eqb_refl; reflexivity |].
    split; [apply (inv_fire g g1 c X Hc Hc1 Hcnt HI) |].
    split.
    { intros m Hne Hm. rewrite Hdlt. rewrite Hcnt in Hm. apply Nat.eqb_neq in Hne.
      rewrite Hne in *. apply HD. exact Hm. }
    split; [| exact HO].
    apply (Logged_ext (fun m => cnt g m = 0)); [| exact HL].
    intro m. rewrite Hcnt. destruct (m =? c) eqn:Hmc.
    - apply Nat.eqb_eq in Hmc. subst m. rewrite Hc1. split; [discriminate | intros (_ & H); congruence].
    - apply Nat.eqb_neq in Hmc. split; [intro H; exact (conj H Hmc) | intros (H & _); exact H].
  Qed.

  Lemma si_dec : forall g g1 c X lg nw,
      SI g (c :: X) lg -> 2 <= cnt g c ->
      map sk g1 = map sk g ->
      (forall m, cnt g1 m = if m =? c then cnt g c - 1 else cnt g m) ->
      (forall m, dlt g1 m = if m =? c then Some nw else dlt g m) ->
      SI g1 X lg.
  Proof.
    intros g g1 c X lg nw (HS & HI & HD & HL & HO) Hc2 Hsk Hcnt Hdlt.
    split; [eapply SK_eq; eassumption |].
    split; [apply (inv_dec g g1 c X Hc2 Hcnt HI) |].
    split.
    { intros m Hm. rewrite Hdlt. rewrite Hcnt in Hm. destruct (m =? c) eqn:Hmc.
      - lia.
      - apply HD. exact Hm. }
    split; [| exact HO].
    apply (Logged_ext (fun m => cnt g m = 0)); [| exact HL].
    intro m. rewrite Hcnt. destruct (m =? c) eqn:Hmc; [| reflexivity].
    apply Nat.eqb_eq in Hmc. subst m. lia.
  Qed.

  Lemma deliver_step : forall g c cn nw g1 X lg,
      SI g (c :: X) lg -> c < length g0 -> nth_error g c = Some cn ->
      put g c (set_count (set_delta cn (Some nw)) (n_count cn - 1)) = Some g1 ->
      1 <= n_count cn /\ GOut g g1 /\
      if n_count cn =? 1 then Firing g1 c X lg /\ dlt g1 c = Some nw else SI g1 X lg.
  Proof.
    intros g c cn nw g1 X lg HSI Hc Hcn Hput.
    destruct (deliver_state g c cn nw g1 Hcn Hput) as (Hsk & Hcnt & Hdlt & Hgrd).
    pose proof (cnt_nth g c cn Hcn) as Hcc.
    assert (Hle : 1 <= n_count cn).
    { destruct HSI as (_ & HI & _). pose proof (HI c) as Hi.
      rewrite occ_cons, Nat.eqb_refl in Hi. lia. }
    split; [exact Hle |]. split; [apply GOut_grd; exact Hgrd |].
    destruct (n_count cn =? 1) eqn:H1.
    - apply Nat.eqb_eq in H1. apply (si_fire g g1 c X lg nw); try assumption. lia.
    - apply Nat.eqb_neq in H1. apply (si_dec g g1 c X lg nw); try assumption. lia.
  Qed.

  Lemma pop_state : forall (g : store P D) id nd g1,
      nth_error g id = Some nd -> put g id (set_delta nd None) = Some g1 ->
      map sk g1 = map sk g /\ (forall m, cnt g1 m = cnt g m) /\
      (forall m, dlt g1 m = if m =? id then None else dlt g m) /\
      (forall m, grd g1 m = grd g m).
  Proof.
    intros g id nd g1 Hnd Hput. split; [|split; [|split]].
    - eapply put_map; [exact Hput | exact Hnd | reflexivity].
    - exact (put_keep n_count 0 g id nd _ g1 Hput Hnd eq_refl).
    - intro m. apply (put_dlt g id _ g1 m Hput).
    - exact (put_keep n_grad None g id nd _ g1 Hput Hnd eq_refl).
  Qed.

  Lemma pop_inv : forall g id nd g1 X log,
      nth_error g id = Some nd -> put g id (set_delta nd None) = Some g1 ->
      Firing g id X log -> Firing g1 id X log /\ dlt g1 id = None /\ GOut g g1.
  Proof.
    intros g id nd g1 X log Hnd Hput (HS & Hc0 & HI & HDX & HLX & HO).
    destruct (pop_state g id nd g1 Hnd Hput) as (Hsk & Hcnt & Hdlt & Hgrd).
    split; [| split; [rewrite Hdlt, Nat.eqb_refl; reflexivity | apply GOut_grd; exact Hgrd]].
    split; [eapply SK_eq; eassumption |]. split; [rewrite Hcnt; exact Hc0 |].
    split; [eapply Inv_ext; eassumption |].
    split; [| split; [eapply LInvX_ext; eassumption | exact HO]].
    intros m Hmid Hm. rewrite Hdlt. apply Nat.eqb_neq in Hmid. rewrite Hmid.
    apply Nat.eqb_neq in Hmid. apply HDX; [exact Hmid |]. rewrite <- Hcnt. exact Hm.
  Qed.

  Lemma Firing_DInv : forall g id X log, Firing g id X log -> dlt g id = None -> DInv g.
  Proof.
    intros g id X log (_ & _ & _ & HDX & _) Hd m Hm.
    destruct (Nat.eq_dec m id) as [Heq|Hne]; [subst m; exact Hd | apply HDX; assumption].
  Qed.

  Definition rec_spec (rec : rec_t) (bound : nat) : Prop :=
    forall g id keep seed log X x g' log',
      id < bound -> reach g0 r id -> Firing g id X log -> dlt g id = Some x ->
      rec g id keep seed log = Some (g', log') ->
      SI g' X log' /\ GOut g g'.

  Lemma fold_spec : forall rec bound, rec_spec rec bound ->
      forall ps g lg X g' lg',
        (forall c, In c (dl ps) -> c < bound /\ reach g0 r c) ->
        SI g (dl ps ++ X) lg ->
        fold_left (deliver rec) ps (Some (g, lg)) = Some (g', lg') ->
        SI g' X lg' /\ GOut g g'.
  Proof.
    intros rec bound Hrec ps. induction ps as [|[e od] ps IH]; intros g lg X g' lg' Hps HSI Hf.
    - injection Hf as Hg Hl. subst g' lg'. split; [exact HSI | apply GOut_refl].
    - apply fold_deliver_cons in Hf. destruct Hf as ([g2 lg2] & Hd & Hf).
      destruct od as [d|]; [| injection Hd as Hg Hl; subst g2 lg2; apply (IH g lg X g' lg'); assumption].
      cbn [dl app] in Hps, HSI. set (c := e_node e) in *.
      assert (Hps' : forall c', In c' (dl ps) -> c' < bound /\ reach g0 r c')
        by (intros c' Hin; apply Hps; right; exact Hin).
      destruct (Hps c (or_introl eq_refl)) as (Hcb & Hcr).
      apply deliver_inv in Hd.
      destruct Hd as (cn & d' & nw & g1 & Hcn & _ & _ & _ & Hput & Hres). fold c in Hcn, Hput, Hres.
      assert (Hclt : c < length g0) by (apply (reach_lt E g0 r Hwf); assumption).
      destruct (deliver_step g c cn nw g1 (dl ps ++ X) lg HSI Hclt Hcn Hput) as (_ & HG1 & Hst).
      destruct (n_count cn =? 1).
      + destruct Hst as (HF1 & Hd1).
        destruct (Hrec g1 c (e_keep e) None lg (dl ps ++ X) nw g2 lg2 Hcb Hcr HF1 Hd1 Hres)
          as (HSI2 & HG2).
        destruct (IH g2 lg2 X g' lg' Hps' HSI2 Hf) as (HSI3 & HG3).
        split; [exact HSI3 |].
        eapply GOut_trans; [exact HG1 |]. eapply GOut_trans; [exact HG2 | exact HG3].
      + injection Hres as Hg2 Hl2. subst g2 lg2.
        destruct (IH g1 lg X g' lg' Hps' Hst Hf) as (HSI3 & HG3).
        split; [exact HSI3 |]. eapply GOut_trans; [exact HG1 | exact HG3].
  Qed.

  Lemma finish_state : forall g2 id keep delta log2 g' log',
      finish g2 id keep delta log2 = Some (g', log') ->
      log' = log2 /\ map sk g' = map sk g2 /\
      (forall m, cnt g' m = cnt g2 m) /\ (forall m, dlt g' m = dlt g2 m) /\
      (forall m, m <> id -> grd g' m = grd g2 m).
  Proof.
    intros g2 id keep delta log2 g' log' H. apply finish_inv in H.
    destruct H as (Hl & nd2 & Hnd2 & H). split; [exact Hl |].
    destruct (_ || keep).
    - destruct H as (ng & _ & Hput). split; [|split; [|split]].
      + eapply put_map; [exact Hput | exact Hnd2 | reflexivity].
      + exact (put_keep n_count 0 g2 id nd2 _ g' Hput Hnd2 eq_refl).
      + exact (put_keep n_delta None g2 id nd2 _ g' Hput Hnd2 eq_refl).
      + intros m Hm. rewrite (put_grd g2 id _ g' m Hput).
        apply Nat.eqb_neq in Hm. rewrite Hm. reflexivity.
    - subst g'. repeat split; reflexivity.
  Qed.

  Lemma tkn_nth : forall id nd0, nth_error g0 id = Some nd0 -> tkn g0 id = tks (n_children nd0).
  Proof. intros id nd0 H. unfold tkn. rewrite H. reflexivity. Qed.

  Lemma body_fire : forall g1 id log X delta nd0 pays ds,
      reach g0 r id -> Firing g1 id X log -> dlt g1 id = None ->
      nth_error g0 id = Some nd0 -> hasop E nd0 = true ->
      eo_bop E (n_pay nd0) pays (map e_tracked (n_children nd0)) delta = Some ds ->
      (forall c, In c (dl (combine (n_children nd0) ds)) -> c < id /\ reach g0 r c) /\
      SI g1 (dl (combine (n_children nd0) ds) ++ X) (log ++ [(id, delta)]).
  Proof.
    intros g1 id log X delta nd0 pays ds Hrid HF Hd0 Hnd0 Hop Hds.
    pose proof (Firing_DInv g1 id X log HF Hd0) as HD1.
    destruct HF as (HS1 & Hc0 & HI1 & _ & HLX & HO).
    destruct (Hbc id nd0 pays delta ds Hnd0 Hds) as (Hlen & Hflags).
    rewrite (dl_combine (n_children nd0) ds Hlen Hflags), <- (tkn_nth id nd0 Hnd0). split.
    - intros c Hin. apply tkn_tedge in Hin. split; [apply (tedge_lt E g0 Hwf id c Hin) |].
      eapply reach_tedge; eassumption.
    - assert (Hopb : opb id = true) by (unfold opb; rewrite Hnd0; exact Hop).
      split; [exact HS1 |]. split; [exact HI1 |]. split; [exact HD1 |].
      split; [apply linv_log; assumption | eapply oinv_log; eassumption].
  Qed.

  Lemma body_spec : forall rec bound, rec_spec rec bound ->
      forall g1 id keep delta log X g' log',
        id <= bound -> reach g0 r id -> Firing g1 id X log -> dlt g1 id = None ->
        bw_body rec g1 id keep delta log = Some (g', log') ->
        SI g' X log' /\ GOut g1 g'.
  Proof.
    intros rec bound Hrec g1 id keep delta log X g' log' Hidb Hrid HF Hd0 Hb.
    apply bw_body_inv in Hb. destruct Hb as (nd1 & g2 & log2 & Hnd1 & Hmid & Hfin).
    pose proof HF as (HS1 & _ & HI1 & _ & HLX & HO).
    destruct (SK_nth g1 id nd1 HS1 Hnd1) as (nd0 & Hnd0 & Hpay & Hch).
    rewrite Hpay, Hch in Hmid.
    assert (Hmid' : SI g2 X log2 /\ GOut g1 g2).
    { destruct (eo_hasop E (n_pay nd0)) eqn:Hop.
      - destruct Hmid as (pays & ds & _ & Hds & _ & Hfold).
        destruct (body_fire g1 id log X delta nd0 pays ds Hrid HF Hd0 Hnd0 Hop Hds) as (Hps & HSI).
        apply (fold_spec rec bound Hrec (combine (n_children nd0) ds) g1 (log ++ [(id, delta)])
                         X g2 log2); [| exact HSI | exact Hfold].
        intros c Hin. destruct (Hps c Hin) as (Hlt & Hrc). split; [lia | exact Hrc].
      - destruct Hmid as (Hnil & Hg2 & Hl2). subst g2 log2.
        rewrite (tkn_nth id nd0 Hnd0), Hnil in HI1.
        assert (Hopb : opb id = false) by (unfold opb; rewrite Hnd0; exact Hop).
        split; [| apply GOut_refl].
        split; [exact HS1 |]. split; [exact HI1 |].
        split; [eapply Firing_DInv; eassumption |].
        split; [eapply linv_nolog; eassumption | exact HO]. }
    destruct Hmid' as (HSI2 & HG2).
    apply finish_state in Hfin. destruct Hfin as (Hl & Hsk & Hcnt & Hdlt & Hgrd). subst log'.
    split; [apply (SI_ext g2 g' X log2 Hsk Hcnt Hdlt HSI2) |].
    eapply GOut_trans; [exact HG2 |]. intros m Hm. apply Hgrd.
    intro Heq. subst m. apply Hm. exact Hrid.
  Qed.

  Lemma backward_rec_spec : forall f, rec_spec (backward E f) f.
  Proof.
    induction f as [|f IHf]; intros g id keep seed log X x g' log' Hid Hrid HF Hdx Hb; [lia |].
    apply backward_S_inv in Hb. destruct Hb as (nd & g1 & delta & Hnd & Hpop & Hb).
    rewrite <- (dlt_nth g id nd Hnd), Hdx in Hpop. destruct Hpop as (_ & Hput).
    destruct (pop_inv g id nd g1 X log Hnd Hput HF) as (HF1 & Hd1 & HG1).
    destruct (body_spec (backward E f) f IHf g1 id keep delta log X g' log'
                        ltac:(lia) Hrid HF1 Hd1 Hb) as (HSI & HG).
    split; [exact HSI | eapply GOut_trans; eassumption].
  Qed.

  (** * Totality

      A pass does not panic when every primitive step succeeds on the values that occur.
      Which values occur is described by a node predicate [Q] kept by every write, by
      [okd p x] (a node of payload [p] may fire with adjoint [x]) and by [dk p d] (a
      closure output [d] can be delivered to a child of payload [p]). *)

  Section Total.
    Variable Q : node P D -> Prop.
    Variable okd : P -> D -> Prop.
    Variable dk : P -> D -> Prop.

    Hypothesis T_pop : forall nd x,
        Q nd -> n_delta nd = Some x -> Q (set_delta nd None) /\ okd (n_pay nd) x.
    Hypothesis T_deliver : forall c d,
        Q c -> dk (n_pay c) d ->
        exists d' nw, eo_flat E d (n_pay c) = Some d' /\
          (match n_delta c with Some x => eo_add E x d' | None => Some d' end) = Some nw /\
          forall k, Q (set_count (set_delta c (Some nw)) k).
    Hypothesis T_finish : forall nd delta,
        Q nd -> okd (n_pay nd) delta ->
        exists ng,
          (match n_grad nd with Some x => eo_add E x delta | None => Some delta end) = Some ng /\
          Q (set_grad nd (Some ng)).
    Hypothesis T_bop : forall id nd pays delta,
        nth_error g0 id = Some nd -> eo_hasop E (n_pay nd) = true ->
        mapM (fun e : entry => c <- nth_error g0 (e_node e) ;; Some (n_pay c)) (n_children nd)
        = Some pays ->
        okd (n_pay nd) delta ->
        exists ds, eo_bop E (n_pay nd) pays (map e_tracked (n_children nd)) delta = Some ds /\
          forall i e d c, nth_error (n_children nd) i = Some e -> nth_error ds i = Some (Some d) ->
                          nth_error g0 (e_node e) = Some c -> dk (n_pay c) d.

    Definition rec_total (rec : rec_t) (bound : nat) : Prop :=
      forall g id keep seed log X x,
        id < bound -> reach g0 r id -> Firing g id X log -> dlt g id = Some x ->
        all_nodes Q g ->
        exists g' log', rec g id keep seed log = Some (g', log') /\ all_nodes Q g'.

    Lemma deliveries_total : forall rec bound, rec_spec rec bound -> rec_total rec bound ->
        forall ps g lg X,
          (forall c, In c (dl ps) -> c < bound /\ reach g0 r c) ->
          (forall e d c0, In (e, Some d) ps -> nth_error g0 (e_node e) = Some c0 ->
                          dk (n_pay c0) d) ->
          SI g (dl ps ++ X) lg -> all_nodes Q g ->
          exists g' lg', fold_left (deliver rec) ps (Some (g, lg)) = Some (g', lg') /\
                         all_nodes Q g'.
    Proof.
      intros rec bound Hrec Htot ps.
      induction ps as [|[e od] ps IH]; intros g lg X Hps Hdk HSI HQ.
      - exists g, lg. split; [reflexivity | exact HQ].
      - assert (Hdk' : forall e0 d0 c0, In (e0, Some d0) ps ->
                         nth_error g0 (e_node e0) = Some c0 -> dk (n_pay c0) d0)
          by (intros e0 d0 c0 Hin; apply Hdk; right; exact Hin).
        cbn [fold_left].
        destruct od as [d|]; [| rewrite deliver_skip; apply (IH g lg X); assumption].
        cbn [dl app] in Hps, HSI. set (c := e_node e) in *.
        assert (Hps' : forall c', In c' (dl ps) -> c' < bound /\ reach g0 r c')
          by (intros c' Hin; apply Hps; right; exact Hin).
        destruct (Hps c (or_introl eq_refl)) as (Hcb & Hcr).
        assert (Hclt : c < length g0) by (apply (reach_lt E g0 r Hwf); assumption).
        pose proof HSI as (HS & _).
        destruct (SK_some g c HS Hclt) as (cn & Hcn).
        destruct (SK_nth g c cn HS Hcn) as (c0 & Hc0 & Hpay & _).
        destruct (T_deliver cn d (HQ c cn Hcn)) as (d' & nw & Hd' & Hnw & HQn).
        { rewrite Hpay. apply (Hdk e d c0 (or_introl eq_refl) Hc0). }
        destruct (put_some g c (set_count (set_delta cn (Some nw)) (n_count cn - 1)))
          as (g1 & Hput); [rewrite (SK_length g HS); exact Hclt |].
        destruct (deliver_step g c cn nw g1 (dl ps ++ X) lg HSI Hclt Hcn Hput) as (Hle & _ & Hst).
        rewrite (deliver_fwd rec g lg e d cn d' nw g1 Hcn Hd' Hnw Hle Hput). fold c.
        pose proof (all_nodes_put Q g c _ g1 HQ Hput (HQn _)) as HQ1.
        destruct (n_count cn =? 1).
        + destruct Hst as (HF1 & Hd1).
          destruct (Htot g1 c (e_keep e) None lg (dl ps ++ X) nw Hcb Hcr HF1 Hd1 HQ1)
            as (g2 & lg2 & Hres & HQ2).
          rewrite Hres.
          destruct (Hrec g1 c (e_keep e) None lg (dl ps ++ X) nw g2 lg2 Hcb Hcr HF1 Hd1 Hres)
            as (HSI2 & _).
          apply (IH g2 lg2 X Hps' Hdk' HSI2 HQ2).
        + apply (IH g1 lg X Hps' Hdk' Hst HQ1).
    Qed.

    Lemma finish_total : forall (g2 : store P D) id keep delta log2 nd2,
        all_nodes Q g2 -> nth_error g2 id = Some nd2 -> okd (n_pay nd2) delta ->
        exists g' log', finish g2 id keep delta log2 = Some (g', log') /\ all_nodes Q g'.
    Proof.
      intros g2 id keep delta log2 nd2 HQ Hnd2 Hok.
      unfold finish. rewrite Hnd2. cbn [obind].
      destruct ((match n_children nd2 with [] => true | _ :: _ => false end) || keep);
        [| exists g2, log2; split; [reflexivity | exact HQ]].
      destruct (T_finish nd2 delta (HQ id nd2 Hnd2) Hok) as (ng & Hng & HQn).
      rewrite Hng. cbn [obind].
      destruct (put_some g2 id (set_grad nd2 (Some ng))) as (g3 & Hput);
        [eapply nth_lt; exact Hnd2 |].
      rewrite Hput. exists g3, log2. split; [reflexivity |].
      apply (all_nodes_put Q g2 id _ g3 HQ Hput HQn).
    Qed.

    Lemma body_total : forall rec bound, rec_spec rec bound -> rec_total rec bound ->
        forall g1 id keep delta log X,
          id <= bound -> reach g0 r id -> Firing g1 id X log -> dlt g1 id = None ->
          all_nodes Q g1 ->
          (forall nd0, nth_error g0 id = Some nd0 -> okd (n_pay nd0) delta) ->
          exists g' log', bw_body rec g1 id keep delta log = Some (g', log') /\ all_nodes Q g'.
    Proof.
      intros rec bound Hrec Htot g1 id keep delta log X Hidb Hrid HF Hd0 HQ1 Hdelta.
      assert (Hidlt : id < length g0) by (apply (reach_lt E g0 r Hwf); assumption).
      pose proof HF as (HS1 & _).
      destruct (SK_some g1 id HS1 Hidlt) as (nd1 & Hnd1).
      destruct (SK_nth g1 id nd1 HS1 Hnd1) as (nd0 & Hnd0 & Hpay & Hch).
      destruct (Hwf id nd0 Hnd0) as (Hchlt & Hnoop).
      specialize (Hdelta nd0 Hnd0).
      rewrite (bw_body_eq rec g1 id keep delta log nd1 Hnd1), Hpay, Hch.
      destruct (eo_hasop E (n_pay nd0)) eqn:Hop.
      - rewrite (mapM_ext _ (fun e : entry => c <- nth_error g0 (e_node e) ;; Some (n_pay c)))
          by (intros e _; apply SK_pay; exact HS1).
        destruct (mapM_some (fun e : entry => c <- nth_error g0 (e_node e) ;; Some (n_pay c))
                            (n_children nd0)) as (pays & Hpays).
        { intros e Hin. specialize (Hchlt e Hin).
          destruct (nth_error g0 (e_node e)) as [c|] eqn:Hc; [exists (n_pay c); reflexivity |].
          apply nth_error_None in Hc. lia. }
        rewrite Hpays. cbn [obind].
        destruct (T_bop id nd0 pays delta Hnd0 Hop Hpays Hdelta) as (ds & Hds & Hdk).
        rewrite Hds. cbn [obind].
        destruct (Hbc id nd0 pays delta ds Hnd0 Hds) as (Hlenc & _).
        apply Nat.leb_le in Hlenc. rewrite Hlenc. cbn [guard obind].
        destruct (body_fire g1 id log X delta nd0 pays ds Hrid HF Hd0 Hnd0 Hop Hds) as (Hps & HSI).
        assert (Hps' : forall c, In c (dl (combine (n_children nd0) ds)) ->
                                 c < bound /\ reach g0 r c).
        { intros c Hin. destruct (Hps c Hin) as (Hlt & Hrc). split; [lia | exact Hrc]. }
        destruct (deliveries_total rec bound Hrec Htot (combine (n_children nd0) ds) g1
                             (log ++ [(id, delta)]) X Hps') as (g2 & log2 & Hfold & HQ2);
          [| exact HSI | exact HQ1 |].
        { intros e d c0 Hin Hc0'. apply in_combine_nth in Hin. destruct Hin as (i & Hei & Hdi).
          apply (Hdk i e d c0 Hei Hdi Hc0'). }
        destruct (fold_spec rec bound Hrec _ g1 _ X g2 log2 Hps' HSI Hfold) as ((HS2 & _) & _).
        destruct (SK_some g2 id HS2 Hidlt) as (nd2 & Hnd2).
        erewrite obind_eq by exact Hfold. cbv beta iota.
        apply (finish_total g2 id keep delta log2 nd2 HQ2 Hnd2).
        destruct (SK_nth g2 id nd2 HS2 Hnd2) as (nd0' & Hnd0' & Hpay2 & _).
        rewrite Hpay2. congruence.
      - rewrite (Hnoop Hop). cbn [guard obind].
        apply (finish_total g1 id keep delta log nd1 HQ1 Hnd1). rewrite Hpay. exact Hdelta.
    Qed.

    Lemma backward_rec_total : forall f, rec_total (backward E f) f.
    Proof.
      induction f as [|f IHf]; intros g id keep seed log X x Hid Hrid HF Hdx HQ; [lia |].
      assert (Hidlt : id < length g0) by (apply (reach_lt E g0 r Hwf); assumption).
      pose proof HF as (HS & _).
      destruct (SK_some g id HS Hidlt) as (nd & Hnd).
      rewrite (dlt_nth g id nd Hnd) in Hdx.
      destruct (put_some g id (set_delta nd None)) as (g1 & Hput);
        [rewrite (SK_length g HS); exact Hidlt |].
      rewrite (backward_S_pop f g id keep seed log nd x g1 Hnd Hdx Hput).
      destruct (pop_inv g id nd g1 X log Hnd Hput HF) as (HF1 & Hd1 & _).
      destruct (T_pop nd x (HQ id nd Hnd) Hdx) as (HQn & Hokx).
      apply (body_total (backward E f) f (backward_rec_spec f) IHf g1 id keep x log X);
        try assumption; [lia | apply (all_nodes_put Q g id _ g1 HQ Hput HQn) |].
      intros nd0 Hnd0. destruct (SK_nth g id nd HS Hnd) as (nd0' & Hnd0' & Hpay & _).
      rewrite Hnd0 in Hnd0'. injection Hnd0' as Hnd0'. subst nd0'. rewrite <- Hpay. exact Hokx.
    Qed.

    Lemma root_total : forall g1 keep delta,
        Firing g1 r [] [] -> dlt g1 r = None -> all_nodes Q g1 ->
        (forall nd0, nth_error g0 r = Some nd0 -> okd (n_pay nd0) delta) ->
        exists g' log', bw_body (backward E r) g1 r keep delta [] = Some (g', log') /\
                        all_nodes Q g'.
    Proof.
      intros g1 keep delta HF Hd HQ1 Hdelta.
      apply (body_total (backward E r) r (backward_rec_spec r) (backward_rec_total r)
                        g1 r keep delta [] []); try assumption; [apply le_n | apply reach_root].
    Qed.
  End Total.
End Inv.

Section Pass.
  Context {P D : Type}.
  Variable E : eops P D.

  (** The consumer-count pass, stated with an arbitrary decision function for the
      reachable set: every count becomes the number of tracked in-edges from
      reachable nodes, nothing else changes. *)
  Theorem propagate_count : forall (g : store P D) r,
      wfg E g -> clean g -> r < length g ->
      exists g1, propagate (S r) g r = Some g1 /\
        map nc g1 = map nc g /\
        forall rb : nat -> bool, (forall n, rb n = true <-> reach g r n) ->
          forall m, cnt g1 m = wsum (length g) (fun n => if rb n then mult g n m else 0).
  Proof.
    intros g r Hwf Hclean Hr.
    destruct (propagate_spec E g r Hwf Hclean Hr) as (g1 & Hprop & Hnc & Hreach & Hcr & Hind).
    exists g1. split; [exact Hprop |]. split; [exact Hnc |].
    intros rb Hrb m. rewrite Hind. apply indeg_ext. intros n _.
    apply eq_true_iff_eq. rewrite Hrb, <- Hreach. apply pact_true.
  Qed.

  Lemma root_state : forall (g : store P D) r,
      wfg E g -> clean g -> r < length g ->
      exists g1, propagate (S r) g r = Some g1 /\ map nc g1 = map nc g /\
        (forall n, (0 < cnt g1 n \/ n = r) <-> reach g r n) /\
        Firing E g r g1 r [] [] /\ forall m, dlt g1 m = None.
  Proof.
    intros g r Hwf Hclean Hr.
    destruct (propagate_spec E g r Hwf Hclean Hr) as (g1 & Hprop & Hnc & Hreach & Hcr & Hind).
    assert (Hdl : forall m, dlt g1 m = None)
      by (intro m; rewrite (nc_dlt g1 g m Hnc); apply clean_dlt; exact Hclean).
    exists g1. split; [exact Hprop |]. split; [exact Hnc |]. split; [exact Hreach |].
    split; [| exact Hdl].
    split; [apply nc_sk; exact Hnc |]. split; [exact Hcr |].
    split.
    { intro m. rewrite app_nil_r, <- mult_occ, Hind.
      rewrite (indeg_flip g (act g1) (pact r g1) r m Hr).
      - lia.
      - unfold act. rewrite Hcr. reflexivity.
      - unfold pact. rewrite Nat.eqb_refl. apply orb_true_r.
      - intros n Hn. unfold pact, act. apply Nat.eqb_neq in Hn. rewrite Hn. apply orb_false_r. }
    split; [intros m _ _; apply Hdl |].
    split; [| intros n m _ _ []].
    split; [constructor |]. intro m. simpl. split; [tauto |].
    intros (Hrm & _ & Hc & Hne). apply Hreach in Hrm.
    destruct Hrm as [Hrm|Hrm]; [lia | congruence].
  Qed.

  Lemma run_backward_root : forall (g : store P D) r keep seed nd,
      clean g -> nth_error g r = Some nd ->
      run_backward E g r keep seed =
      (g1 <- propagate (S r) g r ;;
       bw_body E (backward E r) g1 r keep
               (match seed with Some s => s | None => eo_ones E (n_pay nd) end) []).
  Proof.
    intros g r keep seed nd Hclean Hnd. unfold run_backward. rewrite backward_S, Hnd. cbn [obind].
    destruct (Hclean r nd Hnd) as (_ & Hdn). rewrite Hdn.
    destruct (propagate (S r) g r); reflexivity.
  Qed.

  Theorem pass_spec : forall (g : store P D) r keep seed g' log,
      wfg E g -> clean g -> bop_contract E g -> r < length g ->
      run_backward E g r keep seed = Some (g', log) ->
      (* (a) no residue *)
      clean g' /\ length g' = length g /\
      (* (b) nothing but gradients changes *)
      (forall id nd nd', nth_error g id = Some nd -> nth_error g' id = Some nd' ->
           n_pay nd' = n_pay nd /\ n_children nd' = n_children nd) /\
      (* (c) gradient slots outside the differentiated sub-graph are untouched *)
      (forall id nd nd', nth_error g id = Some nd -> nth_error g' id = Some nd' ->
           ~ reach g r id -> n_grad nd' = n_grad nd) /\
      (* (d) every closure of the differentiated sub-graph runs exactly once, nothing else *)
      NoDup (map fst log) /\
      (forall id, In id (map fst log) <->
                  (reach g r id /\ exists nd, nth_error g id = Some nd /\ hasop E nd = true)) /\
      (* (e) a closure runs only after the closures of all its consumers in the sub-graph *)
      (forall n m, reach g r n -> tedge g n m ->
           (exists nd, nth_error g m = Some nd /\ hasop E nd = true) ->
           before (map fst log) n m).
  Proof.
    intros g r keep seed g' log Hwf Hclean Hbc Hr Hrun.
    destruct (nth_error g r) as [nd|] eqn:Hnd; [| apply nth_error_None in Hnd; lia].
    rewrite (run_backward_root g r keep seed nd Hclean Hnd) in Hrun.
    destruct (root_state g r Hwf Hclean Hr) as (g1 & Hprop & Hnc & Hreach & HF & Hdl).
    rewrite Hprop in Hrun. cbn [obind] in Hrun.
    destruct (body_spec E g r Hwf Hbc Hr (backward E r) r (backward_rec_spec E g r Hwf Hbc Hr r)
                        g1 r keep _ [] [] g' log (le_n r) (reach_root g r) HF (Hdl r) Hrun)
      as ((HS' & HI' & HD' & (Hnd' & HL') & HO') & HG).
    assert (Hz : forall m, cnt g' m = 0) by (eapply inv_nil_zero; eassumption).
    assert (Hopb : forall id, opb E g id = true <->
                              exists x, nth_error g id = Some x /\ hasop E x = true).
    { intro id. unfold opb. destruct (nth_error g id) as [x|].
      - split; [intro H; exists x; exact (conj eq_refl H) | intros (x' & Hx' & H); congruence].
      - split; [discriminate | intros (x' & Hx' & _); discriminate Hx']. }
    split.
    { intros id x Hx. split.
      - rewrite <- (cnt_nth g' id x Hx). apply Hz.
      - rewrite <- (dlt_nth g' id x Hx). apply HD'. apply Hz. }
    split; [apply (map_eq_length sk); exact HS' |].
    split.
    { intros id x x' Hx Hx'. destruct (SK_nth g g' id x' HS' Hx') as (y & Hy & Hsk).
      rewrite Hx in Hy. injection Hy as Hy. subst y. exact Hsk. }
    split.
    { intros id x x' Hx Hx' Hnr.
      rewrite <- (grd_nth g' id x' Hx'), <- (grd_nth g id x Hx).
      rewrite (HG id Hnr). apply nc_grd. exact Hnc. }
    split; [exact Hnd' |].
    split.
    { intro id. fold (ids log). split.
      - intro H. apply HL' in H. destruct H as (H1 & H2 & _). exact (conj H1 (proj1 (Hopb id) H2)).
      - intros (H1 & H2). apply HL'. exact (conj H1 (conj (proj2 (Hopb id) H2) (Hz id))). }
    intros n m Hrn Hte Hm. apply HO'; [exact Hrn | exact Hte |].
    apply HL'. split; [eapply reach_tedge; eassumption |].
    split; [apply Hopb; exact Hm | apply Hz].
  Qed.

  Theorem run_backward_total : forall (g : store P D) r keep seed,
      wfg E g -> clean g -> bop_contract E g -> r < length g ->
      (forall d p, eo_flat E d p <> None) ->
      (forall x y, eo_add E x y <> None) ->
      (forall p pays saved d, eo_bop E p pays saved d <> None) ->
      run_backward E g r keep seed <> None.
  Proof.
    intros g r keep seed Hwf Hclean Hbc Hr Hflat Hadd Hbop.
    assert (Hoadd : forall (o : option D) d,
               exists z, match o with Some x => eo_add E x d | None => Some d end = Some z).
    { intros [x|] d; [| exists d; reflexivity].
      destruct (eo_add E x d) as [z|] eqn:Hz; [exists z; reflexivity | destruct (Hadd x d Hz)]. }
    destruct (root_state g r Hwf Hclean Hr) as (g1 & Hprop & Hnc & Hreach & HF & Hdl).
    destruct (nth_error g r) as [nd|] eqn:Hnd; [| apply nth_error_None in Hnd; lia].
    rewrite (run_backward_root g r keep seed nd Hclean Hnd), Hprop. cbn [obind].
    destruct (root_total E g r Hwf Hbc Hr (fun _ => True) (fun _ _ => True) (fun _ _ => True))
      with (g1 := g1) (keep := keep)
           (delta := match seed with Some s => s | None => eo_ones E (n_pay nd) end)
      as (g' & log' & Hres & _); try assumption; try (intros; exact I); try apply Hdl.
    - intros x d _ _. split; exact I.
    - intros c d _ _. destruct (eo_flat E d (n_pay c)) as [d'|] eqn:Hd'; [| destruct (Hflat _ _ Hd')].
      destruct (Hoadd (n_delta c) d') as (nw & Hnw). exists d', nw. repeat split. exact Hnw.
    - intros x delta _ _. destruct (Hoadd (n_grad x) delta) as (ng & Hng). exists ng.
      split; [exact Hng | exact I].
    - intros id x pays delta _ _ _ _.
      destruct (eo_bop E (n_pay x) pays (map e_tracked (n_children x)) delta) as [ds|] eqn:Hds;
        [| destruct (Hbop _ _ _ _ Hds)].
      exists ds. split; [reflexivity | intros; exact I].
    - intros id x _. exact I.
    - rewrite Hres. discriminate.
  Qed.
End Pass.

Print Assumptions propagate_count.
Print Assumptions pass_spec.
Print Assumptions run_backward_total.
