(** Per-closure support for C01: the local transpose identity ([Proofs/LocalAdjoint.v])
    re-stated for a fixed [bop_code] against [fwd_of_code], and "liftability": when the
    forward operation succeeds on the values it also succeeds on their dual-number lifts,
    with the same values.  Both are proved for the closures whose local identity is
    available; the end-to-end theorem takes them as hypotheses on the codes of the graph. *)

From Coq Require Import List Arith Bool Lia PeanoNat.
From Corgi Require Import Lib.OptionMonad Lib.Sums Model.Scalar Model.Arr Model.SlicedOp
     Model.Elementwise Model.Linalg Model.Image Model.Ops
     Proofs.ArrFacts Proofs.BroadcastDims Proofs.EwSpec Proofs.ReduceSpec Proofs.FlattenSpec
     Proofs.DualLift Proofs.LocalAdjoint Proofs.OpsWf Proofs.FwdCode Proofs.ShapeParametric Proofs.RingHom.
Import ListNotations.

Section CodeSupport.
  Context {F : Type} (O : ScalarOps F).
  Local Notation D2 := (dual_ops O).

  (** side condition on the operands (beyond what the forward success gives) *)
  Definition code_pre (code : bop_code F) (cs : list (arr F)) : Prop :=
    match code with
    | BSum k _ => k <= length (dims (nth 0 cs dummy_arr))
    | _ => True
    end.

  (** the local transpose identity of the closure [code] *)
  Definition code_supported (code : bop_code F) (d : list nat) : Prop :=
    forall (cs ts : list (arr F)) (flags : list bool) (delta : arr F)
           (RD : arr (@dual F)) (ds : list (option (arr F))),
      length cs = arity code -> Forall wf cs -> Forall2 tangent_for cs ts -> code_pre code cs ->
      fwd_of_code D2 (inj2 O) code d (lift_children O 0 flags cs ts) = Some RD ->
      code_fits code cs (primal RD) ->
      wf delta -> dims delta = dims RD ->
      run_bop O code cs flags delta = Some ds ->
      exists xs, child_terms O 0 flags cs ts ds xs /\
                 dot O (vals delta) (vals (tangent RD)) = vsum O xs.

  (** the forward operation lifts to dual numbers *)
  Definition code_liftable (code : bop_code F) (d : list nat) : Prop :=
    forall (cs ts : list (arr F)) (flags : list bool) (v : arr F),
      length cs = arity code -> Forall wf cs -> Forall2 tangent_for cs ts -> code_pre code cs ->
      fwd_of_code O (fun s => s) code d cs = Some v ->
      exists RD, fwd_of_code D2 (inj2 O) code d (lift_children O 0 flags cs ts) = Some RD /\
                 primal RD = v.

  Definition code_ok (code : bop_code F) (d : list nat) : Prop :=
    code_supported code d /\ code_liftable code d.

  (** a local identity ([Proofs/LocalAdjoint.v]) for the forward operation and the closure of
      [code], under a side condition that [P] and the captured data provide, is the transpose
      identity of [code] under [P] *)
  Lemma local_supported : forall (P : list (arr F) -> Prop) code d pre fwdD codef,
      local_identity O (arity code) pre fwdD codef ->
      (forall cs v, P cs -> code_fits code cs v -> pre cs) ->
      (forall l, fwd_of_code D2 (inj2 O) code d l = fwdD l) ->
      (forall l RD cs, fwdD l = Some RD -> code_fits code cs (primal RD) -> codef cs (primal RD) = code) ->
      forall (cs ts : list (arr F)) (flags : list bool) (delta : arr F)
             (RD : arr (@dual F)) (ds : list (option (arr F))),
        length cs = arity code -> Forall wf cs -> Forall2 tangent_for cs ts -> P cs ->
        fwd_of_code D2 (inj2 O) code d (lift_children O 0 flags cs ts) = Some RD ->
        code_fits code cs (primal RD) ->
        wf delta -> dims delta = dims RD ->
        run_bop O code cs flags delta = Some ds ->
        exists xs, child_terms O 0 flags cs ts ds xs /\
                   dot O (vals delta) (vals (tangent RD)) = vsum O xs.
  Proof.
    intros P code d pre fwdD codef Hloc Hpre Hfwd Hcode cs ts flags delta RD ds
           Hlen Hwf Hts HP HRD Hfit Hwd Hdd Hrun.
    rewrite Hfwd in HRD.
    apply (Hloc cs ts flags delta RD ds Hlen (Hpre cs _ HP Hfit) Hwf Hts HRD Hwd Hdd).
    rewrite (Hcode _ RD cs HRD Hfit). exact Hrun.
  Qed.

  Lemma lift_children_length : forall flags cs ts i,
      length cs = length ts -> length (lift_children O i flags cs ts) = length cs.
  Proof.
    intros flags cs. induction cs as [|c cs IH]; intros [|t ts] i H; simpl in *; try lia.
    f_equal. apply IH. lia.
  Qed.

  (** the first projection of the dual numbers preserves every scalar operation, so
      ([Proofs/ShapeParametric.v], through [Proofs/RingHom.v]) every forward operation run
      on dual-number arrays succeeds exactly when it does on their primal parts, with the
      primal part of the result *)
  Local Notation prim := (hs (@fst F F)).

  Lemma fst_ring_hom : ring_hom D2 O fst.
  Proof. constructor; reflexivity. Qed.

  Lemma fst_rel1 : forall (g : F -> F) (gD : @dual F -> @dual F),
      (forall X, fst (gD X) = g (fst X)) -> rel1 prim gD g.
  Proof. intros g gD H X x ->. unfold hs. symmetry. apply H. Qed.

  Lemma fst_rel2 : forall (g : F -> F -> F) (gD : @dual F -> @dual F -> @dual F),
      (forall X Y, fst (gD X Y) = g (fst X) (fst Y)) -> rel2 prim gD g.
  Proof. intros g gD H X x Y y -> ->. unfold hs. symmetry. apply H. Qed.

  Lemma arel_lift : forall a t : arr F, wf a -> tangent_for a t -> arel prim (lift a t) a.
  Proof.
    intros a t Hw Ht. rewrite <- (primal_lift a t (tangent_for_length a t Hw Ht)) at 2.
    exact (arel_phi fst (lift a t)).
  Qed.

  Lemma arel_lift_children : forall flags cs ts i,
      Forall wf cs -> Forall2 tangent_for cs ts ->
      Forall2 (arel prim) (lift_children O i flags cs ts) cs.
  Proof.
    intros flags cs ts i Hwf Hts. revert i. induction Hts as [|c t cs ts Ht Hts IH]; intro i.
    - constructor.
    - inversion Hwf as [|? ? Hc Hwf']; subst. cbn [lift_children]. constructor.
      + apply arel_lift; [exact Hc | apply mask_tangent_for; exact Ht].
      + apply IH. exact Hwf'.
  Qed.

  Theorem fwd_of_code_fst : forall code d (Cs : list (arr (@dual F))) (cs : list (arr F)),
      Forall2 (arel prim) Cs cs ->
      orel (arel prim) (fwd_of_code D2 (inj2 O) code d Cs) (fwd_of_code O (fun s => s) code d cs).
  Proof.
    intros code d Cs cs H. pose proof (ring_hom_rel D2 O fst fst_ring_hom) as HR.
    destruct code as [ | | | |s| |e| |cached|k target| |ta tb|depth rows cols sr sc fr fc
                      |fcount stride| |cached|cu];
      try exact (custom_forward_relF prim D2 O HR cu Cs cs H);
      destruct H as [|A a Cs1 cs1 Ha [|B b Cs2 cs2 Hb [|C c Cs3 cs3 Hc [|? ? ? ? ? ?]]]];
      cbn [fwd_of_code]; try exact I.
    - apply (element_wise_op_relF prim D2 O HR); try assumption. apply fst_rel2. reflexivity.
    - apply (element_wise_op_relF prim D2 O HR); try assumption. apply fst_rel2. reflexivity.
    - apply (element_wise_op_relF prim D2 O HR); try assumption. apply fst_rel2. reflexivity.
    - apply map_arr_relF; [| exact Ha]. apply fst_rel1. reflexivity.
    - apply map_arr_relF; [| exact Ha]. apply fst_rel1. reflexivity.
    - apply map_arr_relF; [| exact Ha]. apply fst_rel1. reflexivity.
    - apply map_arr_relF; [| exact Ha]. apply fst_rel1. reflexivity.
    - apply map_arr_relF; [| exact Ha]. apply fst_rel1. reflexivity.
    - apply map_arr_relF; [| exact Ha]. apply fst_rel1. reflexivity.
    - exact (a_sum_relF prim D2 O HR k A a Ha).
    - exact (a_reshape_relF prim d A a Ha).
    - exact (a_matmul_relF prim D2 O HR A a ta B b tb (Some C) (Some c) Ha Hb Hc).
    - exact (unroll_blocks_relF prim D2 O HR A a sr sc fr fc Ha).
    - exact (expand_conv_relF prim D2 O HR A a _ _ Ha).
    - apply map_arr_relF; [| exact Ha]. apply fst_rel1. intro X. cbn [fgt0 dual_ops].
      destruct (fgt0 O (fst X)); reflexivity.
    - apply map_arr_relF; [| exact Ha]. apply fst_rel1. reflexivity.
  Qed.

  Theorem fwd_liftable : forall code d (cs ts : list (arr F)) flags v,
      Forall wf cs -> Forall2 tangent_for cs ts ->
      fwd_of_code O (fun s => s) code d cs = Some v ->
      exists RD, fwd_of_code D2 (inj2 O) code d (lift_children O 0 flags cs ts) = Some RD /\
                 primal RD = v.
  Proof.
    intros code d cs ts flags v Hwf Hts Hv.
    pose proof (fwd_of_code_fst code d _ cs (arel_lift_children flags cs ts 0 Hwf Hts)) as H.
    rewrite Hv in H. destruct (fwd_of_code D2 (inj2 O) code d _) as [RD|]; [| destruct H].
    exists RD. split; [reflexivity |]. symmetry. exact (arel_ha fst RD v H).
  Qed.

  Corollary all_liftable : forall code d, code_liftable code d.
  Proof. intros code d cs ts flags v _ Hwf Hts _ Hv. exact (fwd_liftable code d cs ts flags v Hwf Hts Hv). Qed.

  Definition proven_code (code : bop_code F) : bool :=
    match code with
    | BAdd | BMul | BNeg | BScale _ | BReshape | BSum _ _ | BPowf _ | BExp _ | BRelu => true
    | _ => false
    end.

  Definition proven_code_div (code : bop_code F) : bool :=
    match code with
    | BDiv | BLn | BRecip => true
    | _ => false
    end.

  Section Ring.
    Hypothesis R : is_cring O.

    Lemma fwd2_eq : forall {G} (f : arr G -> arr G -> option (arr G)) (l : list (arr G)) x,
        match l with [a; b] => f a b | _ => None end = x -> fwd2 f l = x.
    Proof. intros G f l x H. exact H. Qed.

    Theorem proven_supported : forall code d, proven_code code = true -> code_supported code d.
    Proof.
      intros code d Hp. unfold code_supported.
      destruct code as [ | | | |s| |e| |cached|k target| | | | | | | ]; try discriminate Hp; clear Hp;
        [ apply (local_supported _ BAdd d _ _ _ (add_local O R))
        | apply (local_supported _ BMul d _ _ _ (mul_local O R))
        | apply (local_supported _ BNeg d _ _ _ (neg_local O R))
        | apply (local_supported _ (BScale s) d _ _ _ (scale_local O R s))
        | apply (local_supported _ (BPowf e) d _ _ _ (powf_local O R e))
        | apply (local_supported _ (BExp cached) d _ _ _ (exp_local O R))
        | apply (local_supported _ (BSum k target) d _ _ _ (sum_local O R k))
        | apply (local_supported _ BReshape d _ _ _ (reshape_local O R d))
        | apply (local_supported _ BRelu d _ _ _ (relu_local O R)) ];
        try reflexivity; try (intros; exact I).
      - (* BExp: the cached values are those of the result *)
        intros l RD cs _ Hfit. cbn [code_fits] in Hfit. rewrite Hfit. reflexivity.
      - intros cs v Hpre [Hk _]. cbn [code_pre] in Hpre. unfold sum_pre. lia.
      - intros l RD cs _ [_ Hfit]. unfold sum_code. rewrite Hfit. reflexivity.
    Qed.

    Corollary proven_ok : forall code d, proven_code code = true -> code_ok code d.
    Proof. intros code d H. split; [apply proven_supported; exact H | apply all_liftable]. Qed.

    Hypothesis Hdiv : forall a b, fdiv O a b = fmul O a (fdiv O (f1 O) b).
    Hypothesis Hinv_mul : forall a b,
        fdiv O (f1 O) (fmul O a b) = fmul O (fdiv O (f1 O) a) (fdiv O (f1 O) b).
    Hypothesis Hpow2 : forall x, fpow O x (two O) = fmul O x x.

    Theorem proven_div_ok : forall code d, proven_code_div code = true -> code_ok code d.
    Proof.
      intros code d Hp. split.
      - unfold code_supported. destruct code; try discriminate Hp; clear Hp;
          [ apply (local_supported _ BDiv d _ _ _ (div_local O R Hdiv Hpow2))
          | apply (local_supported _ BRecip d _ _ _ (recip_local O R Hdiv Hinv_mul Hpow2))
          | apply (local_supported _ BLn d _ _ _ (ln_local O R Hdiv)) ];
          try reflexivity; intros; exact I.
      - apply all_liftable.
    Qed.
  End Ring.
End CodeSupport.

Print Assumptions proven_ok.
Print Assumptions proven_div_ok.
