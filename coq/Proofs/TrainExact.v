(** C14, end to end: one training iteration (forward on a batch, one backward against a
    target, one update) changes the parameters by [lr] times the EXACT gradient of this
    iteration's summed cost, whatever the store contains from earlier iterations.

    In pairing form, for EVERY direction [tau] in parameter space:

      sum over the parameters p of <theta_p - theta'_p, tau_p>
        = lr * <ones, forward (dual-number) tangent of the cost node along tau>

    i.e. theta' = theta - lr * grad(sum of the cost array). *)

From Coq Require Import List Arith Bool Lia PeanoNat Ring_theory Ring Permutation.
From Corgi Require Import Lib.OptionMonad Lib.Sums Model.Scalar Model.Arr Model.SlicedOp
     Model.Elementwise Model.Linalg Model.Ops Model.Engine Model.Program
     Proofs.ArrFacts Proofs.EngineDefs Proofs.EngineBase Proofs.Propagate Proofs.AdjointSpec
     Proofs.SweepBase Proofs.EngineValue Proofs.OptimSpec
     Proofs.FlattenSpec Proofs.DualLift Proofs.LocalAdjoint Proofs.OpsWf
     Proofs.HistoryInv Proofs.ValueConcrete Proofs.FwdCode Proofs.CodeSupport2
     Proofs.HistoryVC Proofs.C01Concrete Proofs.C01Gen Proofs.CodeSupport3 Proofs.HistoryPre3
     Proofs.C01Reach Proofs.TrainLoop.
Import ListNotations.

Section TrainExact.
  Context {F : Type} (O : ScalarOps F) (R : is_cring O).

  Local Notation pay := (@pay F).
  Local Notation gnode := (@gnode F).
  Local Notation state := (@state F).
  Local Notation E := (Program.E O).
  Local Notation E' := (ValueConcrete.E' O).
  Local Notation D2 := (dual_ops O).

  Let Rth : ring_theory (f0 O) (f1 O) (fadd O) (fmul O) (fsub O) (fneg O) (@eq F) := R.
  Add Ring train_exact_ring : Rth.

  Lemma dot_nil_r : forall x : list F, dot O x [] = f0 O.
  Proof. intro x. unfold dot. rewrite combine_nil. reflexivity. Qed.

  Lemma dot_step : forall (lr : F) (x g t : list F),
      length g = length x ->
      dot O (zipw (fsub O) x (map2 (fun a b => fsub O a (fmul O lr b)) x g)) t
      = fmul O lr (dot O g t).
  Proof.
    intros lr x. induction x as [|a x IH]; intros g t Hl.
    - destruct g; [| discriminate Hl]. cbn [map2 zipw combine map]. rewrite !(dot_nil_l O). ring.
    - destruct g as [|b g]; [discriminate Hl |]. destruct t as [|c t].
      + rewrite !dot_nil_r. ring.
      + cbn [map2]. change (zipw (fsub O) (a :: x) (fsub O a (fmul O lr b) :: map2 (fun a0 b0 => fsub O a0 (fmul O lr b0)) x g))
          with (fsub O a (fsub O a (fmul O lr b)) :: zipw (fsub O) x (map2 (fun a0 b0 => fsub O a0 (fmul O lr b0)) x g)).
        rewrite !(dot_cons O R), IH by (simpl in Hl; lia). ring.
  Qed.

  Lemma dot_sub_self : forall (x t : list F), dot O (zipw (fsub O) x x) t = f0 O.
  Proof.
    intro x. induction x as [|a x IH]; intro t.
    - apply (dot_nil_l O).
    - destruct t as [|c t]; [apply dot_nil_r |].
      change (zipw (fsub O) (a :: x) (a :: x)) with (fsub O a a :: zipw (fsub O) x x).
      rewrite (dot_cons O R), IH. ring.
  Qed.

  Lemma vsum_map_nth : forall {A} (f : A -> F) (l : list A),
      vsum O (map f l)
      = vsum O (map (fun i => match nth_error l i with Some x => f x | None => f0 O end)
                    (seq 0 (length l))).
  Proof.
    intros A f l. induction l as [|a l IH]; [reflexivity |].
    cbn [length map seq]. rewrite <- seq_shift. cbn [map nth_error]. rewrite map_map.
    rewrite !(vsum_cons O R), IH. reflexivity.
  Qed.

  Lemma vsum_outside : forall (f : nat -> F) (L P : list nat),
      (forall m, In m L -> ~ In m P -> f m = f0 O) ->
      vsum O (map f (filter (fun m => negb (existsb (Nat.eqb m) P)) L)) = f0 O.
  Proof.
    intros f L P H. apply (vsum_zeros O R). intros y Hy.
    apply in_map_iff in Hy. destruct Hy as (m & <- & Hm). apply filter_In in Hm.
    destruct Hm as [Hm Hn]. apply H; [exact Hm |]. intro Hin. apply existsb_eqb_In in Hin.
    rewrite Hin in Hn. discriminate Hn.
  Qed.

  (** two duplicate-free index lists on whose difference the summand vanishes: each sum is the
      sum over the common part *)
  Lemma vsum_support : forall (f : nat -> F) (P L : list nat),
      NoDup L -> NoDup P ->
      (forall m, In m L -> ~ In m P -> f m = f0 O) ->
      (forall m, In m P -> ~ In m L -> f m = f0 O) ->
      vsum O (map f L) = vsum O (map f P).
  Proof.
    intros f P L HL HP H1 H2.
    rewrite (vsum_filter_split O R (fun m => existsb (Nat.eqb m) P) f L), (vsum_outside f L P H1).
    rewrite (vsum_filter_split O R (fun m => existsb (Nat.eqb m) L) f P), (vsum_outside f P L H2).
    f_equal. apply (vsum_perm O R), Permutation_map.
    apply NoDup_Permutation; try (apply NoDup_filter; assumption).
    intro m. rewrite !filter_In, !existsb_eqb_In. tauto.
  Qed.

  Definition param_ids (s : state) : list nat := map e_node (model_params s).

  Definition is_param (s : state) (m : nat) : bool := existsb (Nat.eqb m) (param_ids s).

  Lemma is_param_spec : forall s m, is_param s m = true <-> In m (param_ids s).
  Proof.
    intros s m. apply existsb_eqb_In.
  Qed.

  (** a direction: one tangent per parameter node, of the parameter's shape *)
  Definition tau_ok (s : state) (tau : nat -> arr F) : Prop :=
    forall h nd, In h (model_params s) -> h_node s h = Some nd ->
                 tangent_for (pay_arr (n_pay nd)) (tau (e_node h)).

  (** ... extended by zero to every other leaf of the store [g] *)
  Definition lt_params (s : state) (g : list gnode) (tau : nat -> arr F) (m : nat) : arr F :=
    if is_param s m then tau m else zeros_like O (nval g m).

  (** <theta_i - theta'_i, tau_i> for the [i]-th parameter of the model *)
  Definition param_step_term (s s3 : state) (tau : nat -> arr F) (i : nat) : F :=
    match nth_error (model_params s) i, nth_error (model_params s3) i with
    | Some h, Some h3 =>
      dot O (zipw (fsub O) (vals (nval (st_nodes s) (e_node h)))
                           (vals (nval (st_nodes s3) (e_node h3))))
            (vals (tau (e_node h)))
    | _, _ => f0 O
    end.

  Definition param_step_pairing (s s3 : state) (tau : nat -> arr F) : F :=
    vsum O (map (param_step_term s s3 tau) (seq 0 (length (model_params s)))).

  Lemma lt_params_ok : forall (s : state) (g : list gnode) tau,
      store_good g -> tau_ok s tau ->
      (forall h, In h (model_params s) -> nth_error g (e_node h) = h_node s h) ->
      leaf_tangents_ok g (lt_params s g tau).
  Proof.
    intros s g tau Hg Htau Hsame l nd Hndl _. unfold lt_params. destruct (is_param s l) eqn:Hip.
    - apply is_param_spec in Hip. unfold param_ids in Hip. apply in_map_iff in Hip.
      destruct Hip as (h & <- & Hh). apply (Htau h nd Hh). rewrite <- (Hsame h Hh). exact Hndl.
    - rewrite (nval_nth g l nd Hndl). destruct (Hg l nd Hndl) as (_ & _ & _ & _ & Hw & _).
      split; [apply zeros_like_wf; exact Hw | reflexivity].
  Qed.

  Lemma param_step_term_updated : forall (s s2 s3 : state) tau i h nd nd2,
      nth_error (model_params s) i = Some h -> h_node s h = Some nd ->
      n_pay nd2 = n_pay nd -> st_lr s2 = st_lr s ->
      (forall gr, n_grad nd2 = Some gr -> length (vals gr) = length (p_vals (n_pay nd))) ->
      updated_param O s2 s3 i h nd2 ->
      param_step_term s s3 tau i
      = fmul O (st_lr s) (match n_grad nd2 with
                          | Some gr => dot O (vals gr) (vals (tau (e_node h)))
                          | None => f0 O
                          end).
  Proof.
    intros s s2 s3 tau i h nd nd2 Hhi Hn Hpay2 Hlr Hlen Hupd.
    unfold param_step_term, updated_param, Program.handle in *.
    rewrite Hhi, (nval_nth (st_nodes s) (e_node h) nd Hn). destruct (n_grad nd2) as [gr|].
    - destruct Hupd as (h3 & Hh3 & _ & _ & _ & Hn3 & _).
      rewrite Hh3, (nval_nth (st_nodes s3) (e_node h3) _ Hn3).
      cbn [pay_arr n_pay p_vals vals]. rewrite Hpay2, Hlr. apply dot_step. apply (Hlen gr eq_refl).
    - destruct Hupd as (Hh3 & Hn3). rewrite Hh3, (nval_nth (st_nodes s3) (e_node h) _ Hn3), Hpay2.
      rewrite dot_sub_self. ring.
  Qed.

  (** the invariants of C01 hold of the store in which [model_backward] runs its pass *)
  Lemma cost_store_invariants : forall (s : state) x s1 out t sc err,
      good_all O s -> hvalid (st_nodes s) x -> layers_ok_all O s (st_layers s) x ->
      model_forward O s x = Some (s1, out) -> hvalid (st_nodes s1) t ->
      cost_apply O s1 (st_cost s) out t = Some (sc, err) ->
      value_consistent O (st_nodes sc) /\ pre_ok_all (st_nodes sc).
  Proof.
    intros s x s1 out t sc err [[[Hg Hrv] Hvc] Hpre] Hx Hlok Hf Ht Hcost.
    unfold model_forward in Hf.
    revert Hf. apply obind_elim. intros [s1' out2] Hfold Hf. injection Hf as <- <-.
    pose proof (fun l Hl => rvalid_layers s l Hrv Hl) as Hlv.
    pose proof (fold_layers_post O (st_layers s) s x s1' out2 Hg Hx Hlv Hfold) as (_ & Hg1 & Ho1).
    pose proof (fold_layers_vc O (st_layers s) s x s1' out2 Hg Hvc Hx Hlv Hfold) as Hvc1.
    pose proof (HistoryPre3.fold_layers_pre O (st_layers s) s x s1' out2 Hg Hpre Hx Hlv Hlok Hfold)
      as Hpre1.
    cbn [fst snd] in *. split.
    - exact (cost_apply_vc O (with_output s1' (Some out2)) (st_cost s) out2 t (sc, err)
                           Hg1 Hvc1 Ho1 Ht Hcost).
    - exact (HistoryPre3.cost_apply_pre O (with_output s1' (Some out2)) (st_cost s) out2 t (sc, err)
                                        Hg1 Hpre1 Ho1 Ht Hcost).
  Qed.

  (** the leaf sum of the pairing identity, re-indexed by the parameters: the direction
      vanishes on the other leaves, and every parameter is a leaf at or below the root or has
      an empty table entry *)
  Lemma tab_leaf_sum_params : forall (s : state) (g : list gnode) tau tab r,
      NoDup (param_ids s) ->
      (forall m, r < m -> nth m tab None = None) ->
      (forall m, In m (param_ids s) -> is_leaf g m = true) ->
      vsum O (map (tab_term O tab (lt_params s g tau)) (filter (is_leaf g) (seq 0 (S r))))
      = vsum O (map (tab_term O tab (lt_params s g tau)) (param_ids s)).
  Proof.
    intros s g tau tab r Hnd Hbeyond Hleaf.
    apply vsum_support; [apply NoDup_filter, seq_NoDup | exact Hnd | |].
    - intros m _ Hnp. unfold tab_term. destruct (nth m tab None) as [d|]; [| reflexivity].
      unfold lt_params. destruct (is_param s m) eqn:Hip; [apply is_param_spec in Hip; contradiction |].
      apply (dot_zeros_like O R).
    - intros m Hm Hnl. unfold tab_term.
      destruct (le_lt_dec m r) as [Hle | Hgt]; [| rewrite (Hbeyond m Hgt); reflexivity].
      exfalso. apply Hnl. apply filter_In. split; [apply in_seq; lia | apply (Hleaf m Hm)].
  Qed.

  Section Scalars.
    Hypothesis Hdiv : forall a b, fdiv O a b = fmul O a (fdiv O (f1 O) b).
    Hypothesis Hinv_mul : forall a b,
        fdiv O (f1 O) (fmul O a b) = fmul O (fdiv O (f1 O) a) (fdiv O (f1 O) b).
    Hypothesis Hpow2 : forall x, fpow O x (two O) = fmul O x x.
    Hypothesis Hsig_fst : forall x x', fst (sigmoid_fn D2 (x, x')) = sigmoid_fn O x.
    Hypothesis Hsig : forall x x',
        snd (sigmoid_fn D2 (x, x'))
        = fmul O (fmul O (sigmoid_fn O x) (fsub O (f1 O) (sigmoid_fn O x))) x'.

    Theorem train_step_exact : forall (s : state) x s1 out t s2 loss s3 tau,
        ready s -> good_all O s ->
        hvalid (st_nodes s) x -> layers_ok_all O s (st_layers s) x ->
        model_forward O s x = Some (s1, out) ->
        hvalid (st_nodes s1) t ->
        model_backward O s1 t = Some (s2, loss) ->
        model_update O s2 = Some s3 ->
        tau_ok s tau ->
        exists sc err ndr,
          cost_apply O s1 (st_cost s) out t = Some (sc, err) /\
          nth_error (st_nodes sc) (e_node err) = Some ndr /\
          loss = a_sum_all O (pay_arr (n_pay ndr)) /\
          param_step_pairing s s3 tau
          = fmul O (st_lr s)
                 (dot O (vals (eo_ones E (n_pay ndr)))
                      (vals (tan O (st_nodes sc) (lt_params s (st_nodes sc) tau) (e_node err)))) /\
          ready s3.
    Proof.
      intros s x s1 out t s2 loss s3 tau Hready Hgall Hx Hlok Hf Ht Hb Hu Htau.
      destruct (train_iteration_run O R s x s1 out t s2 loss s3 Hready Hx Hf Ht Hb Hu)
        as (sc & err & ndr & g' & log & tab &
            [Hout Hcost Hndr Hloss Hgc Hsame Hrun Hs2 Htab Hlenp Hparams Hlr Hr3]).
      exists sc, err, ndr. split; [exact Hcost |]. split; [exact Hndr |]. split; [exact Hloss |].
      split; [| exact Hr3].
      pose proof Hready as ((Hgd & Hpl & Hnd) & Hempty).
      destruct (cost_store_invariants s x s1 out t sc err Hgall Hx Hlok Hf Ht Hcost) as [Hvcc Hprec].
      set (g := st_nodes sc) in *. set (r := e_node err) in *.
      assert (Hr : r < length g) by (eapply nth_lt; exact Hndr).
      assert (Hseed : seed_of E g r None = Some (eo_ones E (n_pay ndr))).
      { unfold seed_of. pose proof Hndr as Hn'. unfold Program.gnode in Hn'. fold g r in Hn'.
        rewrite Hn'. reflexivity. }
      destruct (backward_table_all O R Hdiv Hinv_mul Hpow2 Hsig_fst Hsig g (lt_params s g tau) r
                                   (e_keep err) None (eo_ones E (n_pay ndr)) ndr g' log Hgc Hvcc Hprec
                                   (lt_params_ok s g tau Hgc Htau Hsame) Hr Hndr Hseed)
        as (tab' & Htab' & Hlen & Hid & _ & _ & _).
      { intros sd Hsd. discriminate Hsd. }
      { exact Hrun. }
      assert (tab' = tab) by congruence. subst tab'.
      rewrite Hid.
      (* the table beyond the root is empty; the parameters are leaves of [g] *)
      destruct (adjoints_shape E' g r _ tab (store_good_wfg O g Hgc) Hr Htab) as (_ & _ & Hbeyond).
      rewrite (tab_leaf_sum_params s g tau tab r Hnd Hbeyond).
      2:{ intros m Hm. unfold param_ids in Hm. apply in_map_iff in Hm. destruct Hm as (h & <- & Hh).
          destruct (Hpl h Hh) as (_ & _ & nd & Hn & _ & Hbn). unfold is_leaf.
          pose proof (Hsame h Hh) as Hgn. unfold h_node in Hgn at 1. fold g in Hgn.
          unfold Program.gnode in *. rewrite Hgn, Hn, Hbn. reflexivity. }
      unfold param_ids. rewrite map_map, vsum_map_nth.
      rewrite <- (vsum_map_scale_l O R). unfold param_step_pairing.
      apply (vsum_map_ext O). intros i Hi. apply in_seq in Hi.
      destruct (nth_error (model_params s) i) as [h|] eqn:Hhi;
        [| apply nth_error_None in Hhi; nlia].
      assert (Hh : In h (model_params s)) by (eapply nth_error_In; exact Hhi).
      destruct (Hpl h Hh) as (_ & _ & nd & Hn & _).
      destruct (Hparams i h nd Hhi Hn) as (nd2 & Hn2 & Hpay2 & Hslot & Hupd).
      pose proof Hhi as Hhi'. unfold Program.handle in Hhi' |- *. rewrite Hhi'.
      unfold tab_term, lt_params.
      assert (Hip : is_param s (e_node h) = true)
        by (apply is_param_spec; unfold param_ids; apply in_map; exact Hh).
      rewrite Hip, <- Hslot.
      apply (param_step_term_updated s s2 s3 tau i h nd nd2 Hhi Hn Hpay2 Hlr); [| exact Hupd].
      (* the stored gradient has the parameter's length *)
      intros gr Hgr.
      assert (Hg' : store_good g').
      { destruct (pass_good O g r (e_keep err) None g' log Hgc Hr) as [Hg'' _]; [| exact Hrun | exact Hg''].
        intros sd nd0 Hsd. discriminate Hsd. }
      assert (Hn2' : nth_error g' (e_node h) = Some nd2).
      { unfold h_node in Hn2. rewrite Hs2 in Hn2. exact Hn2. }
      destruct (Hg' _ nd2 Hn2') as (_ & _ & _ & _ & [_ Hlw] & Hgok).
      destruct (Hgok gr Hgr) as [[_ Hlg] Hdg].
      rewrite Hpay2 in Hlw, Hdg. cbn [pay_arr dims vals] in Hlw. rewrite <- Hlg, Hdg. exact Hlw.
    Qed.

    (** the same for a state of a history: [good_all] holds in every state reached under the
        instruction side conditions ([HistoryPre3.run_good_all]) *)
    Corollary train_step_exact_history :
      forall (p : list (@instr F)) (s : state) x s1 out t s2 loss s3 tau,
        reachable_ok_all O p s -> ready s ->
        hvalid (st_nodes s) x -> layers_ok_all O s (st_layers s) x ->
        model_forward O s x = Some (s1, out) ->
        hvalid (st_nodes s1) t ->
        model_backward O s1 t = Some (s2, loss) ->
        model_update O s2 = Some s3 ->
        tau_ok s tau ->
        exists sc err ndr,
          cost_apply O s1 (st_cost s) out t = Some (sc, err) /\
          nth_error (st_nodes sc) (e_node err) = Some ndr /\
          loss = a_sum_all O (pay_arr (n_pay ndr)) /\
          param_step_pairing s s3 tau
          = fmul O (st_lr s)
                 (dot O (vals (eo_ones E (n_pay ndr)))
                      (vals (tan O (st_nodes sc) (lt_params s (st_nodes sc) tau) (e_node err)))) /\
          ready s3.
    Proof.
      intros p s x s1 out t s2 loss s3 tau Hre Hready. 
      apply train_step_exact; [exact Hready | exact (run_good_all O p s Hre)].
    Qed.
  End Scalars.
End TrainExact.

Print Assumptions train_step_exact.
Print Assumptions train_step_exact_history.
