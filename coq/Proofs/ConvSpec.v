(** C06: convolution equals the direct sliding-window definition.

    [conv] (Model/Image.v) = [unroll_blocks] (im2col) ; [reshape] of the filters ;
    [a_matmul unrolled false fm true None] ; [expand_conv].

    - [unroll_blocks_spec]: the unrolled matrix, element by element;
    - [expand_conv_spec]:   the per-image transposition;
    - [conv_spec]:          the value of every output element, in the literal summation order
                            of the model (no assumption on the scalar operations);
    - [conv_spec_triple]:   the same as the textbook triple sum (commutative ring);
    - refusal facts. *)

From Coq Require Import List Arith Bool Lia PeanoNat.
From Corgi Require Import Lib.OptionMonad Lib.IdxDefs Lib.Idx Model.Scalar Model.Arr
     Model.SlicedOp Model.Elementwise Lib.Sums Model.Linalg Model.Image
     Proofs.ArrFacts Proofs.BroadcastDims Proofs.SpecDefs Proofs.SlicedOpSpec Proofs.EwSpec
     Proofs.ReduceSpec Proofs.MatmulSpec.
Import ListNotations.

Lemma stride_bound : forall X f s c, 1 <= s -> f <= X -> c < (X - f) / s + 1 -> s * c + f <= X.
Proof.
  intros X f s c Hs Hf Hc.
  assert (H1 : c <= (X - f) / s) by lia.
  pose proof (Nat.mul_div_le (X - f) s ltac:(lia)) as H2. nia.
Qed.

Lemma mul_add_lt : forall a b A B, a < A -> b < B -> a * B + b < A * B.
Proof. intros a b A B Ha Hb. nia. Qed.

Lemma decode5 : forall r c k m n B C D E,
    c < B -> k < C -> m < D -> n < E ->
    let oi := (((r * B + c) * C + k) * D + m) * E + n in
    oi mod E = n /\ (oi / E) mod D = m /\ (oi / (E * D)) mod C = k /\
    (oi / (E * D * C)) mod B = c /\ oi / (E * D * C * B) = r.
Proof.
  intros r c k m n B C D E Hc Hk Hm Hn oi.
  destruct (divmod_pos (((r * B + c) * C + k) * D + m) n E Hn) as [H1 H1'].
  destruct (divmod_pos ((r * B + c) * C + k) m D Hm) as [H2 H2'].
  destruct (divmod_pos (r * B + c) k C Hk) as [H3 H3'].
  destruct (divmod_pos r c B Hc) as [H4 H4'].
  fold oi in H1, H1'.
  assert (NE : E <> 0) by (clear - Hn; lia). assert (ND : D <> 0) by (clear - Hm; lia).
  assert (NC : C <> 0) by (clear - Hk; lia). assert (NB : B <> 0) by (clear - Hc; lia).
  assert (NED : E * D <> 0) by (clear - NE ND; nia).
  assert (NEDC : E * D * C <> 0) by (clear - NED NC; nia).
  assert (G2 : oi / (E * D) = (r * B + c) * C + k).
  { rewrite <- Nat.div_div by assumption. rewrite H1. exact H2. }
  assert (G3 : oi / (E * D * C) = r * B + c).
  { rewrite <- Nat.div_div by assumption. rewrite G2. exact H3. }
  assert (G4 : oi / (E * D * C * B) = r).
  { rewrite <- Nat.div_div by assumption. rewrite G3. exact H4. }
  rewrite H1, G2, G3. auto.
Qed.

Lemma decode3 : forall q C D E,
    1 <= D -> 1 <= E -> q < C * (D * E) ->
    q / (D * E) < C /\ (q / E) mod D < D /\ q mod E < E /\
    q = (q / (D * E) * D + (q / E) mod D) * E + q mod E.
Proof.
  intros q C D E HD HE Hq.
  split; [apply Nat.div_lt_upper_bound; lia|].
  split; [apply Nat.mod_upper_bound; lia|].
  split; [apply Nat.mod_upper_bound; lia|].
  rewrite (Nat.mul_comm D E), <- Nat.div_div by lia.
  pose proof (Nat.div_mod q E ltac:(lia)) as H1.
  pose proof (Nat.div_mod (q / E) D ltac:(lia)) as H2. nia.
Qed.

Lemma encode3 : forall k m n D E,
    m < D -> n < E ->
    let q := (k * D + m) * E + n in
    q / (D * E) = k /\ (q / E) mod D = m /\ q mod E = n.
Proof.
  intros k m n D E Hm Hn q.
  destruct (divmod_pos (k * D + m) n E Hn) as [H1 H1'].
  destruct (divmod_pos k m D Hm) as [H2 H2'].
  fold q in H1, H1'.
  assert (NE : E <> 0) by (clear - Hn; lia). assert (ND : D <> 0) by (clear - Hm; lia).
  rewrite (Nat.mul_comm D E), <- Nat.div_div by assumption. rewrite H1. auto.
Qed.

Lemma length_snoc3 : forall {A} (l : list A) x y z, length (l ++ [x; y; z]) = length l + 3.
Proof. intros. rewrite app_length. reflexivity. Qed.

Lemma dim_back_snoc3_1 : forall l x y z, dim_back (l ++ [x; y; z]) 1 = Some z.
Proof. intros l x y z. apply (dim_back_app l [x; y; z] 1). cbn. lia. Qed.

Lemma dim_back_snoc3_2 : forall l x y z, dim_back (l ++ [x; y; z]) 2 = Some y.
Proof. intros l x y z. apply (dim_back_app l [x; y; z] 2). cbn. lia. Qed.

Lemma dim_back_snoc3_3 : forall l x y z, dim_back (l ++ [x; y; z]) 3 = Some x.
Proof. intros l x y z. apply (dim_back_app l [x; y; z] 3). cbn. lia. Qed.

Lemma firstn_snoc3 : forall {A} (l : list A) x y z,
    firstn (length (l ++ [x; y; z]) - 3) (l ++ [x; y; z]) = l.
Proof. intros A l x y z. rewrite length_snoc3, Nat.add_sub. apply firstn_app_len. Qed.

Lemma rowmajor_snoc3 : forall d I x y z i j k,
    length d = length I ->
    rowmajor (d ++ [x; y; z]) (I ++ [i; j; k])
    = rowmajor d I * (x * (y * z)) + ((i * y + j) * z + k).
Proof.
  intros d I x y z i j k H. rewrite rowmajor_app by exact H. cbn [rowmajor prod fold_right]. nia.
Qed.

Lemma in_range_snoc3 : forall I d i j k x y z,
    in_range I d -> i < x -> j < y -> k < z -> in_range (I ++ [i; j; k]) (d ++ [x; y; z]).
Proof.
  intros I d i j k x y z HI Hi Hj Hk. unfold in_range in *. apply Forall2_app; [exact HI|].
  repeat (constructor; [assumption|]). constructor.
Qed.

Lemma dims_last3 : forall (d : list nat) x y z,
    dim_back d 3 = Some x -> dim_back d 2 = Some y -> dim_back d 1 = Some z ->
    d = firstn (length d - 3) d ++ [x; y; z].
Proof.
  intros d x y z H3 H2 H1. unfold dim_back in *.
  revert H3. apply obind_elim. intros [] Hg3 H3. apply guard_some_iff, Nat.leb_le in Hg3.
  revert H2. apply obind_elim. intros _ _ H2.
  revert H1. apply obind_elim. intros _ _ H1.
  set (k := length d - 3) in *.
  rewrite <- (firstn_skipn k d) at 1. f_equal.
  assert (Hl : length (skipn k d) = 3) by (rewrite skipn_length; unfold k; lia).
  replace (length d - 2) with (k + 1) in H2 by (unfold k; lia).
  replace (length d - 1) with (k + 2) in H1 by (unfold k; lia).
  replace k with (k + 0) in H3 by lia.
  rewrite <- nth_error_skipn_add in H3, H2, H1.
  destruct (skipn k d) as [|a [|b [|c [|e l]]]]; try discriminate Hl.
  simpl in H3, H2, H1. congruence.
Qed.

Section Unroll.
  Context {F : Type} (O : ScalarOps F).

  Definition out_count (image filter stride : nat) : nat := (image - filter) / stride + 1.

  Lemma out_count_pos : forall image filter stride, 1 <= out_count image filter stride.
  Proof. intros. unfold out_count. rewrite Nat.add_1_r. apply le_n_S, Nat.le_0_l. Qed.

  Lemma stride_count_some : forall image filter stride,
      filter <= image -> 1 <= stride ->
      stride_count image filter stride = Some (out_count image filter stride).
  Proof.
    intros image filter stride H1 H2. unfold stride_count.
    apply Nat.leb_le in H1. apply Nat.leb_le in H2. rewrite H1, H2. reflexivity.
  Qed.

  Lemma stride_count_none : forall image filter stride,
      image < filter \/ stride = 0 -> stride_count image filter stride = None.
  Proof.
    intros image filter stride [H|H]; unfold stride_count.
    - apply Nat.leb_gt in H. rewrite H. reflexivity.
    - subst stride. destruct (guard (filter <=? image)) as [[]|]; reflexivity.
  Qed.

  Lemma stride_count_inv : forall image filter stride c,
      stride_count image filter stride = Some c ->
      filter <= image /\ 1 <= stride /\ c = out_count image filter stride.
  Proof.
    intros image filter stride c H. unfold stride_count in H.
    revert H. apply obind_elim. intros [] H1 H.
    revert H. apply obind_elim. intros [] H2 H. injection H as <-.
    apply guard_some_iff, Nat.leb_le in H1. apply guard_some_iff, Nat.leb_le in H2.
    split; [exact H1 |]. split; [exact H2 | reflexivity].
  Qed.

  (** a filter larger than the image (Rust: subtraction underflow) or a zero stride
      (Rust: division by zero) stops both [unroll_blocks] and [conv] *)
  Lemma stride_counts_none : forall {A} rows cols fr fc sr sc (k : nat -> nat -> option A),
      rows < fr \/ cols < fc \/ sr = 0 \/ sc = 0 ->
      (rcount <- stride_count rows fr sr ;; ccount <- stride_count cols fc sc ;; k rcount ccount)
      = None.
  Proof.
    intros A rows cols fr fc sr sc k H.
    assert (Hr : stride_count rows fr sr = None \/ stride_count cols fc sc = None).
    { destruct H as [H|[H|[H|H]]]; [left|right|left|right]; apply stride_count_none; auto. }
    destruct Hr as [->| ->]; [reflexivity|]. destruct (stride_count rows fr sr); reflexivity.
  Qed.

  (** the source offset (inside one image) read for the flat output position [oi] *)
  Definition unroll_phi (depth rows cols sr sc fr fc ccount oi : nat) : nat :=
    let n := oi mod fc in
    let m := (oi / fc) mod fr in
    let k := (oi / (fc * fr)) mod depth in
    let c := (oi / (fc * fr * depth)) mod ccount in
    let r := oi / (fc * fr * depth * ccount) in
    (n + sc * c) + cols * ((m + sr * r) + rows * k).

  Definition unroll_g (depth rows cols sr sc fr fc rcount ccount : nat) (s : list F) : list F :=
    map (fun oi => nth (unroll_phi depth rows cols sr sc fr fc ccount oi) s (f0 O))
        (seq 0 (rcount * ccount * depth * fr * fc)).

  Section Geometry.
    Variables (depth rows cols sr sc fr fc : nat).
    Hypothesis (Hdepth : 1 <= depth) (Hsr : 1 <= sr) (Hsc : 1 <= sc).
    Hypothesis (Hfr : 1 <= fr) (Hfc : 1 <= fc) (Hfr' : fr <= rows) (Hfc' : fc <= cols).

    Let rc := out_count rows fr sr.
    Let cc := out_count cols fc sc.

    Lemma window_in_range : forall y x m n,
        y < rc -> x < cc -> m < fr -> n < fc ->
        y * sr + m < rows /\ x * sc + n < cols.
    Proof.
      intros y x m n Hy Hx Hm Hn.
      pose proof (stride_bound rows fr sr y Hsr Hfr' Hy).
      pose proof (stride_bound cols fc sc x Hsc Hfc' Hx). lia.
    Qed.

    Lemma unroll_phi_lt : forall oi,
        oi < rc * cc * depth * fr * fc ->
        unroll_phi depth rows cols sr sc fr fc cc oi < depth * (rows * (cols * 1)).
    Proof.
      intros oi Hoi. unfold unroll_phi. cbv zeta.
      assert (Hcc : 1 <= cc) by apply out_count_pos.
      assert (Nfc : fc <> 0) by (clear - Hfc; lia). assert (Nfr : fr <> 0) by (clear - Hfr; lia).
      assert (Nd : depth <> 0) by (clear - Hdepth; lia). assert (Ncc : cc <> 0) by (clear - Hcc; lia).
      assert (Hn : oi mod fc < fc) by (apply Nat.mod_upper_bound; exact Nfc).
      assert (Hm : (oi / fc) mod fr < fr) by (apply Nat.mod_upper_bound; exact Nfr).
      assert (Hk : (oi / (fc * fr)) mod depth < depth) by (apply Nat.mod_upper_bound; exact Nd).
      assert (Hc : (oi / (fc * fr * depth)) mod cc < cc) by (apply Nat.mod_upper_bound; exact Ncc).
      assert (Hr : oi / (fc * fr * depth * cc) < rc).
      { apply Nat.div_lt_upper_bound.
        - clear - Nfc Nfr Nd Ncc. nia.
        - replace (fc * fr * depth * cc * rc) with (rc * cc * depth * fr * fc) by ring. exact Hoi. }
      clear Hoi.
      generalize dependent (oi mod fc). generalize dependent ((oi / fc) mod fr).
      generalize dependent ((oi / (fc * fr)) mod depth).
      generalize dependent ((oi / (fc * fr * depth)) mod cc).
      generalize dependent (oi / (fc * fr * depth * cc)).
      intros r Hr c Hc k Hk m Hm n Hn.
      pose proof (stride_bound rows fr sr r Hsr Hfr' Hr) as H1.
      pose proof (stride_bound cols fc sc c Hsc Hfc' Hc) as H2.
      assert (X : n + sc * c < cols) by lia.
      assert (Y : m + sr * r < rows) by lia.
      assert (Z : m + sr * r + rows * k < rows * depth) by nia.
      nia.
    Qed.

    Lemma unroll_g_spec : forall (cur s : list F),
        length s = depth * (rows * (cols * 1)) ->
        unroll_sop depth rows cols sr sc fr fc rc cc cur [s]
        = Some (unroll_g depth rows cols sr sc fr fc rc cc s) /\
        length (unroll_g depth rows cols sr sc fr fc rc cc s) = rc * cc * (depth * (fr * fc) * 1).
    Proof.
      intros cur s Hs. split.
      - unfold unroll_sop, unroll_g. apply mapM_some_map. intros oi Hoi. apply in_seq in Hoi.
        cbv zeta. apply nth_error_some_nth. rewrite Hs.
        apply unroll_phi_lt. lia.
      - unfold unroll_g. rewrite map_length, seq_length. lia.
    Qed.

    Lemma unroll_g_nth : forall (s : list F) y x k m n,
        y < rc -> x < cc -> k < depth -> m < fr -> n < fc ->
        nth_error (unroll_g depth rows cols sr sc fr fc rc cc s)
                  ((y * cc + x) * (depth * (fr * fc)) + ((k * fr + m) * fc + n))
        = Some (nth ((k * rows + (y * sr + m)) * cols + (x * sc + n)) s (f0 O)).
    Proof.
      intros s y x k m n Hy Hx Hk Hm Hn. unfold unroll_g.
      replace ((y * cc + x) * (depth * (fr * fc)) + ((k * fr + m) * fc + n))
        with ((((y * cc + x) * depth + k) * fr + m) * fc + n) by ring.
      rewrite nth_error_map_seq.
      - f_equal. f_equal. unfold unroll_phi. cbv zeta.
        destruct (decode5 y x k m n cc depth fr fc Hx Hk Hm Hn) as (E1 & E2 & E3 & E4 & E5).
        cbv zeta in E1, E2, E3, E4, E5. rewrite E1, E2, E3, E4, E5. ring.
      - repeat apply mul_add_lt; assumption.
    Qed.
  End Geometry.

  Theorem unroll_blocks_spec : forall (image : arr F) batch depth rows cols sr sc fr fc,
      wf image -> dims image = batch ++ [depth; rows; cols] ->
      1 <= sr -> 1 <= sc -> 1 <= fr -> 1 <= fc -> fr <= rows -> fc <= cols ->
      let rc := out_count rows fr sr in
      let cc := out_count cols fc sc in
      exists u,
        unroll_blocks O image sr sc fr fc = Some u /\ wf u /\
        dims u = batch ++ [rc * cc; depth * (fr * fc)] /\
        forall B y x k m n,
          in_range B batch -> y < rc -> x < cc -> k < depth -> m < fr -> n < fc ->
          in_range (B ++ [y * cc + x; (k * fr + m) * fc + n]) (dims u) /\
          in_range (B ++ [k; y * sr + m; x * sc + n]) (dims image) /\
          get u (B ++ [y * cc + x; (k * fr + m) * fc + n])
          = get image (B ++ [k; y * sr + m; x * sc + n]).
  Proof.
    intros image batch depth rows cols sr sc fr fc Hw Ed Hsr Hsc Hfr Hfc Hfr' Hfc' rc cc.
    assert (Hpd : Forall (fun v => 1 <= v) (dims image)) by apply Hw.
    rewrite Ed in Hpd. apply Forall_app in Hpd. destruct Hpd as [Hbatch Htr].
    inversion Htr as [|? ? Hdepth Htr1]; subst. inversion Htr1 as [|? ? Hrows Htr2]; subst.
    inversion Htr2 as [|? ? Hcols _]; subst.
    assert (Hrc : 1 <= rc) by apply out_count_pos.
    assert (Hcc : 1 <= cc) by apply out_count_pos.
    assert (Hpo : Forall (fun v => 1 <= v) [rc * cc; depth * (fr * fc)]).
    { constructor; [nia|]. constructor; [nia|constructor]. }
    destruct (sliced_op_single O image (unroll_sop depth rows cols sr sc fr fc rc cc)
                               (unroll_g depth rows cols sr sc fr fc rc cc)
                               batch [depth; rows; cols] [rc * cc; depth * (fr * fc)]
                               Hw Ed Hpo) as (u & Hu & Hwu & Hdu & Hblk).
    { intros s Hs. cbn [prod fold_right] in *.
      apply unroll_g_spec; assumption. }
    exists u. split; [|split; [exact Hwu|split; [exact Hdu|]]].
    - unfold unroll_blocks. cbv zeta. rewrite Ed.
      rewrite dim_back_snoc3_3, dim_back_snoc3_2, dim_back_snoc3_1. cbn [obind].
      rewrite (stride_count_some rows fr sr Hfr' Hsr), (stride_count_some cols fc sc Hfc' Hsc).
      cbn [obind]. rewrite firstn_snoc3. exact Hu.
    - intros B y x k m n HB Hy Hx Hk Hm Hn.
      assert (Hwin : y * sr + m < rows /\ x * sc + n < cols)
        by (apply (window_in_range depth rows cols sr sc fr fc); assumption).
      destruct Hwin as [Hyr Hxc].
      assert (HlenB : length B = length batch) by (exact (Forall2_len _ _ _ HB)).
      assert (Hq : (k * fr + m) * fc + n < depth * (fr * fc)).
      { rewrite Nat.mul_assoc. repeat apply mul_add_lt; assumption. }
      assert (Hpq : in_range [y * cc + x; (k * fr + m) * fc + n] [rc * cc; depth * (fr * fc)])
        by (apply in_range_pair; [apply mul_add_lt|]; assumption).
      assert (Hkyx : in_range [k; y * sr + m; x * sc + n] [depth; rows; cols])
        by (repeat (constructor; [assumption|]); constructor).
      split; [rewrite Hdu; apply Forall2_app; assumption|].
      split; [rewrite Ed; apply Forall2_app; assumption|].
      rewrite <- (block_get_at u batch _ B _ Hdu HlenB Hpq).
      rewrite <- (block_get_at image batch _ B _ Ed HlenB Hkyx).
      rewrite (Hblk (rowmajor batch B)) by (apply rowmajor_lt_prod; exact HB).
      rewrite rowmajor_pair, unroll_g_nth by assumption. symmetry.
      replace ((k * rows + (y * sr + m)) * cols + (x * sc + n))
        with (rowmajor [depth; rows; cols] [k; y * sr + m; x * sc + n])
        by (cbn [rowmajor prod fold_right]; ring).
      apply nth_error_nth'. rewrite (block_length _ _ (prod batch)).
      + apply rowmajor_lt_prod. exact Hkyx.
      + destruct Hw as [_ Hl]. rewrite <- Hl, Ed. apply prod_app.
      + apply rowmajor_lt_prod. exact HB.
  Qed.
End Unroll.

Section Roll.
  Context {F : Type} (O : ScalarOps F).

  Lemma roll_offset_bound : forall depth rows cols sr sc0 fr fc a b cd q m,
      a < fc -> b < fr -> cd < depth -> sc0 * m + fc <= cols -> sr * q + fr <= rows ->
      a + cols * b + rows * cols * cd + (cols * sr * q + sc0 * m) < depth * (rows * (cols * 1)).
  Proof.
    intros depth rows cols sr sc0 fr fc a b cd q m Ha Hb Hcd Hm Hq.
    assert (H1 : cols * (b + sr * q) + cols <= cols * rows) by nia.
    assert (H2 : rows * cols * cd + rows * cols <= rows * cols * depth) by nia.
    nia.
  Qed.

  (** the flat output index of [roll_blocks] stays inside the image block.  The quotients and
      remainders are bounded one by one and handed to [roll_offset_bound] as variables: [lia]
      with all of them in one context is slow by orders of magnitude. *)
  Lemma roll_index_bound : forall depth rows cols sr sc0 fr fc ii,
      fr <= rows -> fc <= cols -> 1 <= sr -> 1 <= sc0 -> 1 <= fr -> 1 <= fc -> 1 <= depth ->
      let rcount := out_count rows fr sr in
      let ccount := out_count cols fc sc0 in
      ii < rcount * ccount * (fr * fc * depth) ->
      let usize := fr * fc in
      let i := ii / (usize * depth) in
      let j := ii mod (usize * depth) in
      (j mod usize) mod fc + cols * ((j mod usize) / fc) + rows * cols * (j / usize)
      + (cols * sr * (i / ccount) + sc0 * (i mod ccount)) < depth * (rows * (cols * 1)).
  Proof.
    intros depth rows cols sr sc0 fr fc ii Hfr Hfc Hsr Hsc Hfr1 Hfc1 Hd rcount ccount Hii.
    cbv zeta.
    assert (Hu : fr * fc <> 0) by (clear - Hfr1 Hfc1; nia).
    assert (Hud : fr * fc * depth <> 0) by (clear - Hu Hd; nia).
    assert (Hcc1 : ccount <> 0) by (pose proof (out_count_pos cols fc sc0); fold ccount in H; lia).
    apply (roll_offset_bound depth rows cols sr sc0 fr fc).
    - apply Nat.mod_upper_bound. clear - Hfc1. lia.
    - apply Nat.div_lt_upper_bound; [clear - Hfc1; lia |].
      rewrite (Nat.mul_comm fc fr). apply Nat.mod_upper_bound. exact Hu.
    - apply Nat.div_lt_upper_bound; [exact Hu |]. apply Nat.mod_upper_bound. exact Hud.
    - apply stride_bound; [exact Hsc | exact Hfc |]. apply Nat.mod_upper_bound. exact Hcc1.
    - apply stride_bound; [exact Hsr | exact Hfr |]. fold (out_count rows fr sr). fold rcount.
      apply Nat.div_lt_upper_bound; [exact Hcc1 |].
      apply Nat.div_lt_upper_bound; [exact Hud |]. clearbody rcount ccount. clear - Hii. nia.
  Qed.

  Lemma roll_blocks_total : forall summed (x : arr F) lead depth rows cols sr sc0 fr fc,
      wf x -> 1 <= depth -> 1 <= rows -> 1 <= cols -> 1 <= sr -> 1 <= sc0 -> 1 <= fr -> 1 <= fc ->
      fr <= rows -> fc <= cols ->
      dims x = lead ++ [out_count rows fr sr * out_count cols fc sc0; depth * (fr * fc)] ->
      exists r, roll_blocks O summed x depth rows cols sr sc0 fr fc = Some r /\
                dims r = lead ++ [depth; rows; cols].
  Proof.
    intros summed x lead depth rows cols sr sc0 fr fc Hwx Hd Hrows Hcols Hsr Hsc Hfr1 Hfc1 Hfr Hfc Ex.
    set (count := out_count rows fr sr * out_count cols fc sc0) in *.
    destruct (sliced_single_total O x
                (roll_sop O summed count depth rows cols sr sc0 fr fc (out_count cols fc sc0))
                lead [count; depth * (fr * fc)] [depth; rows; cols] Hwx Ex) as (u & Hu & Hdu).
    - repeat constructor; assumption.
    - intros s Hs. unfold roll_sop.
      apply fold_total with (I := fun out => length out = prod [depth; rows; cols]);
        [apply repeat_length |].
      intros out ii Hii Hlo. apply in_seq in Hii. cbv zeta. apply scatter_step; [exact Hlo | |].
      + rewrite Hs. cbn [prod fold_right]. clear - Hii. nia.
      + apply roll_index_bound; try assumption. apply Hii.
    - exists u. split; [| exact Hdu]. unfold roll_blocks. cbv zeta.
      rewrite Ex, dim_back_snoc2_2, (stride_count_some cols fc sc0 Hfc Hsc), firstn_snoc2.
      exact Hu.
  Qed.
End Roll.

Lemma ceil_div_exact : forall P il, 1 <= il -> (P * il + il - 1) / il = P.
Proof.
  intros P il H. symmetry. apply (Nat.div_unique _ _ _ (il - 1)); [lia|].
  rewrite (Nat.mul_comm il P). lia.
Qed.

Lemma expand_index_at : forall count S t f p,
    f < count -> p < S ->
    expand_index count S (t * (S * count) + (f * S + p)) = t * (S * count) + (p * count + f).
Proof.
  intros count S t f p Hf Hp. unfold expand_index. cbv zeta.
  assert (Hw : f * S + p < S * count).
  { rewrite (Nat.mul_comm S count). apply mul_add_lt; assumption. }
  destruct (divmod_pos t (f * S + p) (S * count) Hw) as [-> ->].
  destruct (divmod_pos f p S Hp) as [-> ->]. ring.
Qed.

Lemma expand_index_lt : forall count S P ri,
    1 <= count -> 1 <= S -> ri < P * (S * count) -> expand_index count S ri < P * (S * count).
Proof.
  intros count S P ri Hc HS Hri. unfold expand_index. cbv zeta.
  assert (Nil : S * count <> 0) by (clear - Hc HS; nia).
  assert (NS : S <> 0) by (clear - HS; lia).
  assert (Hq : ri / (S * count) < P).
  { apply Nat.div_lt_upper_bound; [exact Nil|]. rewrite (Nat.mul_comm (S * count) P). exact Hri. }
  assert (Hw : ri mod (S * count) < S * count) by (apply Nat.mod_upper_bound; exact Nil).
  assert (Ha : ri mod (S * count) / S < count).
  { apply Nat.div_lt_upper_bound; [exact NS|exact Hw]. }
  assert (Hb : (ri mod (S * count)) mod S < S) by (apply Nat.mod_upper_bound; exact NS).
  clear Hri Hw.
  generalize dependent (ri / (S * count)). generalize dependent (ri mod (S * count) / S).
  generalize dependent ((ri mod (S * count)) mod S).
  intros b Hb a Ha q Hq.
  rewrite <- Nat.add_assoc.
  replace (a + count * b) with (b * count + a) by ring.
  apply mul_add_lt; [exact Hq|]. apply mul_add_lt; assumption.
Qed.

Section Expand.
  Context {F : Type} (O : ScalarOps F).

  Theorem expand_conv_spec : forall (a : arr F) batch rc cc count,
      wf a -> dims a = batch ++ [rc * cc; count] -> 1 <= rc -> 1 <= cc ->
      exists e,
        expand_conv O a rc cc = Some e /\ wf e /\ dims e = batch ++ [count; rc; cc] /\
        forall B f y x,
          in_range B batch -> f < count -> y < rc -> x < cc ->
          in_range (B ++ [f; y; x]) (dims e) /\
          in_range (B ++ [y * cc + x; f]) (dims a) /\
          get e (B ++ [f; y; x]) = get a (B ++ [y * cc + x; f]).
  Proof.
    intros a batch rc cc count Hw Ed Hrc Hcc.
    destruct (wf_snoc2 a batch (rc * cc) count Hw Ed) as (Hbatch & HS & Hcount & Hva).
    set (S := rc * cc) in *. set (P := prod batch) in *.
    set (g := fun ri => nth (expand_index count S ri) (vals a) (f0 O)).
    set (e := {| dims := batch ++ [count; rc; cc]; vals := map g (seq 0 (P * (S * count))) |}).
    assert (Hil : 1 <= S * count) by (clear - HS Hcount; nia).
    assert (Hwe : wf e).
    { split; cbn [dims vals e].
      - apply Forall_app. split; [exact Hbatch|]. repeat (constructor; [assumption|]). constructor.
      - rewrite map_length, seq_length, prod_app. fold P. cbn [prod fold_right]. unfold S. ring. }
    exists e. split.
    { unfold expand_conv. cbv zeta. rewrite Ed, dim_back_snoc2_1. cbn [obind]. fold S.
      apply Nat.leb_le in Hil. rewrite Hil. cbn [guard obind].
      rewrite Hva. fold P. rewrite ceil_div_exact by (apply Nat.leb_le; exact Hil).
      rewrite (mapM_some_map _ g).
      - cbn [obind]. rewrite map_length, seq_length, Nat.leb_refl. cbn [guard obind].
        rewrite Nat.sub_diag. cbn [repeat]. rewrite app_nil_r, firstn_snoc2.
        apply mk_some. split; [apply Hwe|]. split; [apply Hwe|reflexivity].
      - intros ri Hri. apply in_seq in Hri. unfold g. apply nth_error_some_nth.
        rewrite Hva. apply expand_index_lt; [assumption|assumption|]. fold P. lia. }
    split; [exact Hwe|]. split; [reflexivity|].
    intros B f y x HB Hf Hy Hx.
    assert (HlenB : length batch = length B) by (symmetry; eapply Forall2_len; exact HB).
    assert (Hp : y * cc + x < S) by (apply mul_add_lt; assumption).
    assert (Hre : in_range (B ++ [f; y; x]) (dims e)) by (apply in_range_snoc3; assumption).
    assert (Hra : in_range (B ++ [y * cc + x; f]) (dims a)).
    { rewrite Ed. apply in_range_snoc2; assumption. }
    split; [exact Hre|]. split; [exact Hra|].
    rewrite (get_getd O a _ Hw Hra).
    unfold get. cbn [dims vals e]. rewrite rowmajor_snoc3 by exact HlenB.
    set (t := rowmajor batch B).
    assert (Ht : t < P) by (apply rowmajor_lt_prod; exact HB).
    replace (t * (count * (rc * cc)) + ((f * rc + y) * cc + x))
      with (t * (S * count) + (f * S + (y * cc + x))) by (unfold S; ring).
    rewrite nth_error_map_seq.
    - f_equal. unfold g. rewrite expand_index_at by assumption.
      unfold getd. rewrite Ed, rowmajor_snoc2 by exact HlenB. reflexivity.
    - apply mul_add_lt; [exact Ht|]. rewrite (Nat.mul_comm S count). apply mul_add_lt; assumption.
  Qed.
End Expand.

Section Conv.
  Context {F : Type} (O : ScalarOps F).

  Lemma fm_entry : forall (filters : arr F) count depth fr fc f k m n,
      dims filters = [count; depth; fr; fc] ->
      getd O {| dims := [count; fr * fc * depth]; vals := vals filters |} [f; (k * fr + m) * fc + n]
      = getd O filters [f; k; m; n].
  Proof.
    intros filters count depth fr fc f k m n Ef. unfold getd. cbn [dims vals]. rewrite Ef.
    cbn [rowmajor prod fold_right]. f_equal. ring.
  Qed.

  Lemma getd_of_get_eq : forall (a b : arr F) I J,
      wf a -> wf b -> in_range I (dims a) -> in_range J (dims b) ->
      get a I = get b J -> getd O a I = getd O b J.
  Proof.
    intros a b I J Hwa Hwb HI HJ H.
    rewrite (get_getd O a I Hwa HI), (get_getd O b J Hwb HJ) in H. inversion H. reflexivity.
  Qed.

  Theorem conv_spec : forall (image filters : arr F) batch depth rows cols count fr fc sr sc,
      wf image -> wf filters ->
      dims image = batch ++ [depth; rows; cols] -> dims filters = [count; depth; fr; fc] ->
      1 <= sr -> 1 <= sc -> fr <= rows -> fc <= cols ->
      let rc := out_count rows fr sr in
      let cc := out_count cols fc sc in
      exists r,
        conv O image filters sr sc = Some r /\ wf r /\ dims r = batch ++ [count; rc; cc] /\
        forall B f y x,
          in_range B batch -> f < count -> y < rc -> x < cc ->
          (forall q, q < depth * fr * fc ->
                     in_range (B ++ [q / (fr * fc); y * sr + (q / fc) mod fr; x * sc + q mod fc])
                              (dims image) /\
                     in_range [f; q / (fr * fc); (q / fc) mod fr; q mod fc] (dims filters)) /\
          get r (B ++ [f; y; x])
          = Some (fadd O (f0 O)
                       (vsum O (map (fun q =>
                                       let k := q / (fr * fc) in
                                       let m := (q / fc) mod fr in
                                       let n := q mod fc in
                                       fmul O (getd O image (B ++ [k; y * sr + m; x * sc + n]))
                                              (getd O filters [f; k; m; n]))
                                    (seq 0 (depth * fr * fc))))).
  Proof.
    intros image filters batch depth rows cols count fr fc sr sc Hwi Hwf Ed Ef Hsr Hsc Hfr' Hfc' rc cc.
    assert (Hpf : Forall (fun v => 1 <= v) (dims filters)) by apply Hwf.
    rewrite Ef in Hpf.
    inversion Hpf as [|? ? Hcount Hpf1]; subst. inversion Hpf1 as [|? ? Hdepth Hpf2]; subst.
    inversion Hpf2 as [|? ? Hfr Hpf3]; subst. inversion Hpf3 as [|? ? Hfc _]; subst.
    assert (Hvf : length (vals filters) = count * (fr * fc * depth)).
    { destruct Hwf as [_ Hl]. rewrite <- Hl, Ef. cbn [prod fold_right]. ring. }
    assert (Hrc : 1 <= rc) by apply out_count_pos.
    assert (Hcc : 1 <= cc) by apply out_count_pos.
    (* 1. unrolling *)
    destruct (unroll_blocks_spec O image batch depth rows cols sr sc fr fc Hwi Ed Hsr Hsc Hfr Hfc
                                 Hfr' Hfc') as (u & Hu & Hwu & Hdu & Huv).
    fold rc in Hu, Hdu, Huv. fold cc in Hu, Hdu, Huv.
    (* 2. the filter matrix *)
    set (fm := {| dims := [count; fr * fc * depth]; vals := vals filters |}).
    assert (Hwfm : wf fm).
    { split; cbn [dims vals fm].
      - constructor; [exact Hcount|]. constructor; [|constructor].
        clear - Hfr Hfc Hdepth. nia.
      - rewrite Hvf. cbn [prod fold_right]. ring. }
    (* 3. the matrix product *)
    destruct (matmul_spec_nobias O u false fm true batch (rc * cc) (depth * (fr * fc))
                                 [] count (fr * fc * depth) Hwu Hwfm Hdu eq_refl)
      as (r1 & Hr1 & Hwr1 & Hdr1 & Hv1).
    { cbn [mm_inner_a mm_inner_b]. ring. }
    { apply bcompat_sym. exact I. }
    rewrite bmax_nil_r in Hdr1, Hv1. cbn [mm_rows mm_cols mm_inner_a] in Hdr1, Hv1.
    (* 4. the per-image transposition *)
    destruct (expand_conv_spec O r1 batch rc cc count Hwr1 Hdr1 Hrc Hcc)
      as (e & He & Hwe & Hde & Hve).
    exists e. split; [|split; [exact Hwe|split; [exact Hde|]]].
    - unfold conv. cbv zeta. rewrite Ed, Ef.
      assert (L1 : (1 <=? length (batch ++ [depth; rows; cols])) = true)
        by (rewrite length_snoc3; apply Nat.leb_le; lia).
      assert (L3 : (3 <=? length (batch ++ [depth; rows; cols])) = true)
        by (rewrite length_snoc3; apply Nat.leb_le; lia).
      rewrite L1, L3. cbn [length Nat.leb andb guard obind].
      rewrite dim_back_snoc3_3, dim_back_snoc3_2, dim_back_snoc3_1. cbn [obind].
      change (dim_back [count; depth; fr; fc] 2) with (Some fr).
      change (dim_back [count; depth; fr; fc] 1) with (Some fc). cbn [obind].
      rewrite (stride_count_some rows fr sr Hfr' Hsr), (stride_count_some cols fc sc Hfc' Hsc).
      cbn [obind]. fold rc. fold cc. rewrite Hu. cbn [obind].
      rewrite Hdu, dim_back_snoc2_1. cbn [obind Nat.sub firstn app].
      assert (Hus : depth * (fr * fc) / depth = fr * fc).
      { rewrite Nat.mul_comm. apply Nat.div_mul. clear - Hdepth. lia. }
      rewrite Hus.
      assert (Hresh : a_reshape [count; fr * fc * depth] filters = Some fm).
      { apply a_reshape_spec. split; [apply Hwfm|]. split; [|reflexivity].
        rewrite Hvf. cbn [prod fold_right]. ring. }
      rewrite Hresh. cbn [obind]. rewrite Hr1. cbn [obind]. exact He.
    - intros B f y x HB Hf Hy Hx.
      assert (Hp : y * cc + x < rc * cc) by (apply mul_add_lt; assumption).
      destruct (Hve B f y x HB Hf Hy Hx) as (_ & _ & Hget). rewrite Hget. clear Hget.
      destruct (Hv1 B (y * cc + x) f HB Hp Hf) as [_ Hval]. rewrite Hval. clear Hval.
      assert (Hdec : forall q, q < depth * (fr * fc) ->
                 let k := q / (fr * fc) in
                 let m := (q / fc) mod fr in
                 let n := q mod fc in
                 k < depth /\ m < fr /\ n < fc /\ q = (k * fr + m) * fc + n).
      { intros q Hq. cbv zeta. apply decode3; assumption. }
      split.
      + intros q Hq. replace (depth * fr * fc) with (depth * (fr * fc)) in Hq by ring.
        destruct (Hdec q Hq) as (Hk & Hm & Hn & _).
        destruct (Huv B y x _ _ _ HB Hy Hx Hk Hm Hn) as (_ & Hri & _).
        split; [exact Hri|]. rewrite Ef.
        repeat (constructor; [assumption|]). constructor.
      + replace (depth * fr * fc) with (depth * (fr * fc)) by ring.
        f_equal. f_equal. f_equal. apply map_ext_in. intros q Hq. apply in_seq in Hq.
        assert (Hq' : q < depth * (fr * fc)) by lia. cbv zeta.
        destruct (Hdec q Hq') as (Hk & Hm & Hn & Eq).
        set (k := q / (fr * fc)) in *. set (m := (q / fc) mod fr) in *. set (n := q mod fc) in *.
        destruct (Huv B y x k m n HB Hy Hx Hk Hm Hn) as (Hru & Hri & Hgu).
        unfold a_idx, b_idx. rewrite bclamp_nil, (bclamp_id batch B HB). cbn [app].
        replace (B ++ [y * cc + x; q]) with (B ++ [y * cc + x; (k * fr + m) * fc + n])
          by (rewrite <- Eq; reflexivity).
        replace [f; q] with [f; (k * fr + m) * fc + n] by (rewrite <- Eq; reflexivity).
        rewrite (getd_of_get_eq u image _ _ Hwu Hwi Hru Hri Hgu).
        unfold fm. rewrite (fm_entry filters count depth fr fc f k m n Ef). reflexivity.
  Qed.
End Conv.

Section Triple.
  Context {F : Type} (O : ScalarOps F) (R : is_cring O).

  Lemma vsum_triple : forall (h : nat -> nat -> nat -> F) C D E,
      vsum O (map (fun q => h (q / (D * E)) ((q / E) mod D) (q mod E)) (seq 0 (C * (D * E))))
      = vsum O (map (fun k =>
                       vsum O (map (fun m => vsum O (map (fun n => h k m n) (seq 0 E))) (seq 0 D)))
                    (seq 0 C)).
  Proof.
    intros h C D E.
    rewrite (vsum_seq_mul O R (fun q => h (q / (D * E)) ((q / E) mod D) (q mod E)) C (D * E)).
    apply (vsum_map_ext O). intros k _.
    rewrite (vsum_seq_mul O R (fun y => h ((D * E * k + y) / (D * E)) (((D * E * k + y) / E) mod D)
                                         ((D * E * k + y) mod E)) D E).
    apply (vsum_map_ext O). intros m Hm. apply in_seq in Hm.
    apply (vsum_map_ext O). intros n Hn. apply in_seq in Hn.
    replace (D * E * k + (E * m + n)) with ((k * D + m) * E + n) by ring.
    destruct (encode3 k m n D E ltac:(lia) ltac:(lia)) as (E1 & E2 & E3).
    cbv zeta in E1, E2, E3. rewrite E1, E2, E3. reflexivity.
  Qed.

  Theorem conv_spec_triple : forall (image filters : arr F) batch depth rows cols count fr fc sr sc,
      wf image -> wf filters ->
      dims image = batch ++ [depth; rows; cols] -> dims filters = [count; depth; fr; fc] ->
      1 <= sr -> 1 <= sc -> fr <= rows -> fc <= cols ->
      let rc := out_count rows fr sr in
      let cc := out_count cols fc sc in
      exists r,
        conv O image filters sr sc = Some r /\ wf r /\ dims r = batch ++ [count; rc; cc] /\
        forall B f y x,
          in_range B batch -> f < count -> y < rc -> x < cc ->
          (forall k m n, k < depth -> m < fr -> n < fc ->
                         in_range (B ++ [k; y * sr + m; x * sc + n]) (dims image) /\
                         in_range [f; k; m; n] (dims filters)) /\
          get r (B ++ [f; y; x])
          = Some (vsum O (map (fun k =>
                    vsum O (map (fun m =>
                      vsum O (map (fun n =>
                                     fmul O (getd O image (B ++ [k; y * sr + m; x * sc + n]))
                                            (getd O filters [f; k; m; n]))
                                  (seq 0 fc)))
                      (seq 0 fr)))
                    (seq 0 depth))).
  Proof.
    intros image filters batch depth rows cols count fr fc sr sc Hwi Hwf Ed Ef Hsr Hsc Hfr' Hfc' rc cc.
    destruct (conv_spec O image filters batch depth rows cols count fr fc sr sc
                        Hwi Hwf Ed Ef Hsr Hsc Hfr' Hfc') as (r & Hr & Hwr & Hdr & Hv).
    exists r. split; [exact Hr|]. split; [exact Hwr|]. split; [exact Hdr|].
    intros B f y x HB Hf Hy Hx. destruct (Hv B f y x HB Hf Hy Hx) as [Hrange Hval]. split.
    - intros k m n Hk Hm Hn.
      assert (Hq : (k * fr + m) * fc + n < depth * fr * fc) by (repeat apply mul_add_lt; assumption).
      destruct (Hrange _ Hq) as [H1 H2].
      destruct (encode3 k m n fr fc Hm Hn) as (E1 & E2 & E3). cbv zeta in E1, E2, E3.
      rewrite E1, E2, E3 in H1, H2. split; assumption.
    - rewrite Hval. f_equal. rewrite (cr_add_0_l O R).
      replace (depth * fr * fc) with (depth * (fr * fc)) by ring.
      apply (vsum_triple (fun k m n => fmul O (getd O image (B ++ [k; y * sr + m; x * sc + n]))
                                            (getd O filters [f; k; m; n]))).
  Qed.
End Triple.

Section Refusals.
  Context {F : Type} (O : ScalarOps F).

  Theorem conv_refuses_rank : forall (image filters : arr F) sr sc,
      length (dims image) < 3 \/ length (dims filters) < 3 -> conv O image filters sr sc = None.
  Proof.
    intros image filters sr sc H. unfold conv. cbv zeta.
    destruct (guard (1 <=? length (dims image))) as [[]|]; cbn [obind]; [|reflexivity].
    assert (E : (3 <=? length (dims image)) && (3 <=? length (dims filters)) = false).
    { apply andb_false_iff. destruct H as [H|H]; [left|right]; apply Nat.leb_gt; exact H. }
    rewrite E. reflexivity.
  Qed.

  Theorem conv_refuses_geometry : forall (image filters : arr F) sr sc batch depth rows cols fl fd fr fc,
      dims image = batch ++ [depth; rows; cols] -> dims filters = fl ++ [fd; fr; fc] ->
      rows < fr \/ cols < fc \/ sr = 0 \/ sc = 0 ->
      conv O image filters sr sc = None.
  Proof.
    intros image filters sr sc batch depth rows cols fl fd fr fc Ed Ef H. unfold conv. cbv zeta.
    destruct (guard (1 <=? length (dims image))) as [[]|]; cbn [obind]; [|reflexivity].
    destruct (guard ((3 <=? length (dims image)) && (3 <=? length (dims filters)))) as [[]|];
      cbn [obind]; [|reflexivity].
    rewrite Ed, Ef.
    rewrite !dim_back_snoc3_3, !dim_back_snoc3_2, !dim_back_snoc3_1. cbn [obind].
    apply stride_counts_none. exact H.
  Qed.

  Theorem unroll_blocks_refuses : forall (image : arr F) sr sc fr fc batch depth rows cols,
      dims image = batch ++ [depth; rows; cols] ->
      rows < fr \/ cols < fc \/ sr = 0 \/ sc = 0 ->
      unroll_blocks O image sr sc fr fc = None.
  Proof.
    intros image sr sc fr fc batch depth rows cols Ed H. unfold unroll_blocks. cbv zeta.
    rewrite Ed, dim_back_snoc3_3, dim_back_snoc3_2, dim_back_snoc3_1. cbn [obind].
    apply stride_counts_none. exact H.
  Qed.
End Refusals.

Print Assumptions unroll_blocks_spec.
Print Assumptions expand_conv_spec.
Print Assumptions conv_spec.
Print Assumptions conv_spec_triple.
Print Assumptions conv_refuses_rank.
Print Assumptions conv_refuses_geometry.
Print Assumptions unroll_blocks_refuses.
