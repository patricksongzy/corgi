(** [value_consistent] ([Proofs/FwdCode.v]) is an invariant of program histories: it says
    [is_forward] of every operation node, which the ladder of [Proofs/HistoryInv.v] keeps
    whatever the instruction.  So at every backward pass of every history each operation node
    holds the forward result of its closure's operation on its children's values. *)

From Coq Require Import List Arith Bool Lia PeanoNat.
From Corgi Require Import Lib.OptionMonad Lib.Sums Model.Scalar Model.Arr Model.SlicedOp
     Model.Elementwise Model.Linalg Model.Image Model.Ops Model.Engine Model.Program
     Proofs.ArrFacts Proofs.EngineDefs Proofs.EngineBase Proofs.Propagate Proofs.EngineInv
     Proofs.FlattenSpec Proofs.DualLift Proofs.LocalAdjoint Proofs.OpsWf Proofs.HistoryInv
     Proofs.FwdCode Proofs.StepView.
Import ListNotations.

Section HistoryVC.
  Context {F : Type} (O : ScalarOps F).

  Local Notation pay := (@pay F).
  Local Notation gnode := (@gnode F).
  Local Notation state := (@state F).
  Local Notation instr := (@instr F).
  Local Notation E := (Program.E O).
  Local Notation vc := (value_consistent O).

  Lemma set_var_nodes : forall (s : state) i o s', set_var s i o = Some s' -> st_nodes s' = st_nodes s.
  Proof. exact (@StepView.set_var_nodes F). Qed.

  (** composite operations: [opost] (HistoryInv) and [vc] together *)

  Definition vpost (s : state) (r : state * handle) : Prop :=
    opost s r /\ vc (st_nodes (fst r)).

  Local Notation fwd := (is_forward O).

  Lemma fwd_plain : forall code v cs, plain code = true -> fok O fwd code v cs.
  Proof. intros code v cs _ H. exact H. Qed.

  Lemma fold_layers_vc : forall ls s h s1 out,
      store_good (st_nodes s) -> vc (st_nodes s) -> hvalid (st_nodes s) h ->
      (forall l, In l ls -> lvalid (st_nodes s) l) ->
      fold_left (fun (acc : option (state * handle)) (l : layer) =>
                   st <- acc ;; let '(s', h') := st in layer_forward O s' l h')
                ls (Some (s, h)) = Some (s1, out) ->
      vc (st_nodes s1).
  Proof.
    intros ls s h s1 out Hg Hv Hh Hls H.
    exact (proj2 (fold_layers_kept O fwd fwd_plain ls s h s1 out Hg Hh Hls
                                   (layers_cond_all O _ (op_fok_all O fwd (fun _ _ _ H => H)) ls s h) H)
                 Hv).
  Qed.

  Lemma cost_apply_vc : forall s c output target r,
      store_good (st_nodes s) -> vc (st_nodes s) ->
      hvalid (st_nodes s) output -> hvalid (st_nodes s) target ->
      cost_apply O s c output target = Some r -> vc (st_nodes (fst r)).
  Proof.
    intros s c output target r Hg Hv Ho Ht H.
    exact (proj2 (cost_apply_kept O fwd fwd_plain s c output target r Hg Ho Ht H) Hv).
  Qed.

  Definition good2 (s : state) : Prop := good s /\ vc (st_nodes s).

  Theorem good2_init : good2 (init_state O).
  Proof.
    split; [apply good_init |]. intros id nd H. destruct id; discriminate H.
  Qed.

  Theorem step_good2 : forall s0 i s' o,
      good2 s0 -> seed_ok s0 i -> step O s0 i = Some (s', o) -> good2 s'.
  Proof.
    intros s0 i s' o [Hgd Hv] Hseed H.
    destruct (step_forward O fwd (fun _ _ _ H => H) s0 i s' o Hgd Hseed H) as [Hgd' Hv'].
    split; [exact Hgd' | exact (Hv' Hv)].
  Qed.

  Theorem reaches_good2 : forall s0 p s, good2 s0 -> reaches O s0 p s -> good2 s.
  Proof.
    intros s0 p s Hgd H. induction H as [s0 p | s0 i p s1 o s Hseed Hstep Hre IH].
    - exact Hgd.
    - apply IH. eapply step_good2; eassumption.
  Qed.

  Theorem run_good2 : forall p s, reachable_state O p s -> good2 s.
  Proof. intros p s H. eapply reaches_good2; [apply good2_init | exact H]. Qed.
End HistoryVC.

Print Assumptions step_good2.
Print Assumptions run_good2.
