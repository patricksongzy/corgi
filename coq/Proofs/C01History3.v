(** C01 at every backward pass of every history, covering also the rank-1 forms of matmul
    (vector x matrix, matrix x vector, dot product of two untransposed vectors). *)

From Coq Require Import List Arith Bool Reals.
From Corgi Require Import Lib.OptionMonad Lib.Sums Model.Scalar Model.RealScalar Model.Arr
     Model.Elementwise Model.Ops Model.Engine Model.Program
     Proofs.ArrFacts Proofs.Propagate Proofs.AdjointSpec Proofs.FlattenSpec Proofs.DualLift
     Proofs.RealDerivs Proofs.HistoryInv Proofs.FwdCode Proofs.CodeSupport2 Proofs.HistoryVC
     Proofs.C01Concrete Proofs.C01Gen Proofs.CodeSupport3 Proofs.HistoryPre3 Proofs.C01Real.
Import ListNotations.

Section C01History3.
  Context {F : Type} (O : ScalarOps F) (R : is_cring O).
  Local Notation D2 := (dual_ops O).
  Local Notation E := (Program.E O).

  Hypothesis Hdiv : forall a b, fdiv O a b = fmul O a (fdiv O (f1 O) b).
  Hypothesis Hinv_mul : forall a b,
      fdiv O (f1 O) (fmul O a b) = fmul O (fdiv O (f1 O) a) (fdiv O (f1 O) b).
  Hypothesis Hpow2 : forall x, fpow O x (two O) = fmul O x x.
  Hypothesis Hsig_fst : forall x x', fst (sigmoid_fn D2 (x, x')) = sigmoid_fn O x.
  Hypothesis Hsig : forall x x',
      snd (sigmoid_fn D2 (x, x'))
      = fmul O (fmul O (sigmoid_fn O x) (fsub O (f1 O) (sigmoid_fn O x))) x'.

  Theorem backward_exact_all : forall (g : list (@gnode F)) lt r keep seed s0 ndr g' log,
      store_good g -> value_consistent O g -> pre_ok_all g -> leaf_tangents_ok g lt ->
      grads_empty g -> r < length g -> nth_error g r = Some ndr ->
      seed_of E g r seed = Some s0 ->
      (forall sd, seed = Some sd -> wf sd /\ dims sd = p_dims (n_pay ndr)) ->
      run_backward E g r keep seed = Some (g', log) ->
      dot O (vals s0) (vals (tan O g lt r)) = leaf_pairing O g g' lt r.
  Proof.
    intros g lt r keep seed s0 ndr g' log Hg Hvc Hpre Hlt.
    apply (backward_exact_gen O R code_pre3 g lt Hg Hvc Hpre
                              (all_supported3 O R Hsig_fst Hsig Hdiv Hinv_mul Hpow2)
                              (nobias_strict3 O) Hlt).
  Qed.

  Theorem history_backward_exact_all :
    forall (p : list (@instr F)) (s : @state F) lt r keep seed s0 ndr g' log,
      reachable_ok_all O p s ->
      grads_empty (st_nodes s) -> leaf_tangents_ok (st_nodes s) lt ->
      nth_error (st_nodes s) r = Some ndr ->
      seed_of E (st_nodes s) r seed = Some s0 ->
      (forall sd, seed = Some sd -> wf sd /\ dims sd = p_dims (n_pay ndr)) ->
      run_backward E (st_nodes s) r keep seed = Some (g', log) ->
      dot O (vals s0) (vals (tan O (st_nodes s) lt r)) = leaf_pairing O (st_nodes s) g' lt r.
  Proof.
    intros p s lt r keep seed s0 ndr g' log Hre Hempty Hlt Hndr Hseed Hsd Hrun.
    destruct (run_good_all O p s Hre) as [[[Hg _] Hvc] Hpre].
    eapply backward_exact_all; try eassumption.
    eapply nth_lt. exact Hndr.
  Qed.
End C01History3.

Theorem history_backward_exact_all_R :
  forall (p : list (@instr R)) (s : @state R) lt r keep seed s0 ndr g' log,
    reachable_ok_all R_ops p s ->
    grads_empty (st_nodes s) -> leaf_tangents_ok (st_nodes s) lt ->
    nth_error (st_nodes s) r = Some ndr ->
    seed_of (Program.E R_ops) (st_nodes s) r seed = Some s0 ->
    (forall sd, seed = Some sd -> wf sd /\ dims sd = p_dims (n_pay ndr)) ->
    run_backward (Program.E R_ops) (st_nodes s) r keep seed = Some (g', log) ->
    dot R_ops (vals s0) (vals (tan R_ops (st_nodes s) lt r))
    = leaf_pairing R_ops (st_nodes s) g' lt r.
Proof.
  exact (history_backward_exact_all R_ops R_is_cring R_div_mul_inv R_inv_mul R_pow_two
                                    R_sig_fst R_sig_snd).
Qed.

Print Assumptions backward_exact_all.
Print Assumptions history_backward_exact_all.
Print Assumptions history_backward_exact_all_R.
