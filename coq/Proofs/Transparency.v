(** C12, whole programs: handles are transparent.

    A program [p'] that differs from [p] by extra clones, by using a clone's slot in place of
    the original, and by dropping handles that are not used any more (re-binding) produces
    the same observations.  The proof is a simulation:

    - the two node stores are equal up to the ghost creation tags, which are renamed by
      [tau] (the pool index of an instruction of [p] -> the pool index of the matching
      instruction of [p']); the only observations that show tags are the closure logs
      (kind 6), and they are renamed accordingly ([otag]);
    - the pools are related by a set [A] of alias pairs [(i, j)]: whenever slot [i] of the
      left pool is live, slot [j] of the right pool holds the same handle (node, tracked
      flag, keep flag).

    Covered: every instruction except [ITakeVec] (whose success depends on the NUMBER of
    handles of a buffer).  [IUpdate] requires distinct slots. *)

From Coq Require Import List Arith Bool Lia PeanoNat ZArith.
From Corgi Require Import Lib.OptionMonad Model.Scalar Model.Arr Model.SlicedOp
     Model.Elementwise Model.Linalg Model.Image Model.Ops Model.Engine Model.Program
     Proofs.EngineDefs Proofs.EngineBase Proofs.StepView Proofs.ProgramFacts Proofs.TagNat.
Import ListNotations.

Section Transparency.
  Context {F : Type} (O : ScalarOps F).
  Variable tau : nat -> nat.

  Notation state := (@state F).
  Notation instr := (@instr F).
  Notation T := (tmap tau).
  Notation alias := (list (nat * nat)).

  (** everything but the pool and the current tag: equal up to the renaming of tags *)
  Definition core_rel (s s' : state) : Prop :=
    st_nodes s' = map (ntag tau) (st_nodes s) /\ st_layers s' = st_layers s /\
    st_cost s' = st_cost s /\ st_lr s' = st_lr s /\ st_output s' = st_output s.

  Definition pool_rel (A : alias) (s s' : state) : Prop :=
    forall i j x, In (i, j) A -> var s i = Some x -> var s' j = Some x.

  Definition bounded (A : alias) (n n' : nat) : Prop :=
    forall i j, In (i, j) A -> i < n /\ j < n'.

  Definition live (L : list nat) (s : state) : Prop :=
    forall i, In i L -> exists x, var s i = Some x.

  Definition sim (A : alias) (L : list nat) (s s' : state) : Prop :=
    core_rel s s' /\ pool_rel A s s' /\
    bounded A (length (st_pool s)) (length (st_pool s')) /\ live L s.

  Lemma core_rel_retag : forall (s s' : state) n n',
      core_rel s s' -> tau n = n' -> with_tag s' n' = T (st_pool s') (with_tag s n).
  Proof.
    intros s [g' p' l' c' lr' o' t'] n n' (H1 & H2 & H3 & H4 & H5) Ht. cbn in *. subst.
    reflexivity.
  Qed.

  Lemma core_rel_T : forall (s : state) P', core_rel s (T P' s).
  Proof. intros s P'. unfold core_rel. repeat split. Qed.

  Lemma var_T : forall P' (s : state) j, var (T P' s) j = (o <- nth_error P' j ;; o).
  Proof. reflexivity. Qed.

  Definition drop_l (h : nat) (A : alias) : alias := filter (fun p => negb (fst p =? h)) A.
  Definition drop_r (c : nat) (A : alias) : alias := filter (fun p => negb (snd p =? c)) A.
  Definition rebind (A : alias) (h c : nat) : alias := (h, c) :: drop_r c (drop_l h A).

  Lemma in_drop_l : forall h A i j, In (i, j) (drop_l h A) <-> In (i, j) A /\ i <> h.
  Proof.
    intros h A i j. unfold drop_l. rewrite filter_In. cbn [fst].
    rewrite negb_true_iff, Nat.eqb_neq. reflexivity.
  Qed.

  Lemma in_drop_r : forall c A i j, In (i, j) (drop_r c A) <-> In (i, j) A /\ j <> c.
  Proof.
    intros c A i j. unfold drop_r. rewrite filter_In. cbn [snd].
    rewrite negb_true_iff, Nat.eqb_neq. reflexivity.
  Qed.

  Lemma in_rebind : forall A h c i j,
      In (i, j) (rebind A h c) <-> (i = h /\ j = c) \/ (In (i, j) A /\ i <> h /\ j <> c).
  Proof.
    intros A h c i j. unfold rebind. cbn [In]. rewrite in_drop_r, in_drop_l. split.
    - intros [E|[[H1 H2] H3]]; [inversion E; auto|auto].
    - intros [[-> ->]|(H1 & H2 & H3)]; auto.
  Qed.

  Lemma var_set_slot : forall (s : state) h v j,
      h < length (st_pool s) ->
      var (set_slot s h v) j = if j =? h then v else var s j.
  Proof.
    intros s h v j Hh. unfold var, set_slot. cbn [st_pool with_pool].
    rewrite set_nth_spec by exact Hh. destruct (j =? h); reflexivity.
  Qed.

  Lemma set_slot_length : forall (s : state) h v,
      h < length (st_pool s) -> length (st_pool (set_slot s h v)) = length (st_pool s).
  Proof. intros s h v Hh. unfold set_slot. cbn [st_pool with_pool]. apply set_nth_length. exact Hh. Qed.

  Lemma push_sim : forall A L (s s' s1 s1' : state) x,
      pool_rel A s s' -> bounded A (length (st_pool s)) (length (st_pool s')) -> live L s ->
      core_rel s1 s1' ->
      (forall j, var s1 j = var s j) -> length (st_pool s1) = length (st_pool s) ->
      (forall j, var s1' j = var s' j) -> length (st_pool s1') = length (st_pool s') ->
      sim ((length (st_pool s), length (st_pool s')) :: A) L (push s1 x) (push s1' x).
  Proof.
    intros A L s s' s1 s1' x Hp Hb Hl Hc Hv1 Hl1 Hv1' Hl1'. split; [|split; [|split]].
    - destruct Hc as (C1 & C2 & C3 & C4 & C5). unfold core_rel, push. cbn. auto.
    - intros i j y [E|Hin] Hy.
      + inversion E. subst i j. rewrite <- Hl1 in Hy. rewrite var_push_new in Hy.
        rewrite <- Hl1', var_push_new. exact Hy.
      + destruct (Hb i j Hin) as [Hi Hj].
        rewrite var_push_old in Hy by (rewrite Hl1; exact Hi). rewrite Hv1 in Hy.
        rewrite var_push_old by (rewrite Hl1'; exact Hj). rewrite Hv1'. exact (Hp i j y Hin Hy).
    - intros i j [E|Hin]; rewrite !push_length, Hl1, Hl1'.
      + inversion E. lia.
      + destruct (Hb i j Hin). lia.
    - intros i Hi. destruct (Hl i Hi) as (y & Hy). exists y.
      rewrite var_push_old by (rewrite Hl1; eapply var_lt; exact Hy). rewrite Hv1. exact Hy.
  Qed.

  Lemma sim_live_cons : forall A L (s s' : state) i x,
      sim A L s s' -> var s i = Some x -> sim A (i :: L) s s'.
  Proof.
    intros A L s s' i x (H1 & H2 & H3 & H4) Hx. repeat (split; [assumption|]).
    intros j [<-|Hj]; [eauto|apply H4; exact Hj].
  Qed.
  Definition mentions (i : instr) : list nat :=
    match i with
    | IFromArrays hs | IOp _ hs | IUpdate _ hs => hs
    | IClone h | IDrop h | ITracked h | IUntracked h | IStart h | IStop h | IBackward h _
    | IGrad h | IClearGrad h | IFetchGrad h | ITakeVec h | IIndex h _ | IIndexFlat h _
    | IObs h | ISumAll h | IForward h | IModelBackward h => [h]
    | IEq h1 h2 => [h1; h2]
    | _ => []
    end.

  Definition rename (rho : nat -> nat) (i : instr) : instr :=
    match i with
    | IFromArrays hs => IFromArrays (map rho hs)
    | IOp k hs => IOp k (map rho hs)
    | IUpdate lr hs => IUpdate lr (map rho hs)
    | IClone h => IClone (rho h)
    | IDrop h => IDrop (rho h)
    | ITracked h => ITracked (rho h)
    | IUntracked h => IUntracked (rho h)
    | IStart h => IStart (rho h)
    | IStop h => IStop (rho h)
    | IBackward h sd => IBackward (rho h) sd
    | IGrad h => IGrad (rho h)
    | IClearGrad h => IClearGrad (rho h)
    | IFetchGrad h => IFetchGrad (rho h)
    | ITakeVec h => ITakeVec (rho h)
    | IIndex h idx => IIndex (rho h) idx
    | IIndexFlat h k => IIndexFlat (rho h) k
    | IObs h => IObs (rho h)
    | ISumAll h => ISumAll (rho h)
    | IForward h => IForward (rho h)
    | IModelBackward h => IModelBackward (rho h)
    | IEq h1 h2 => IEq (rho h1) (rho h2)
    | _ => i
    end.

  (** [ITakeVec] succeeds only for the sole owner of a buffer: not transparent, excluded *)
  Definition supported (i : instr) : bool := match i with ITakeVec _ => false | _ => true end.

  Definition pushes_some (i : instr) : bool :=
    match i with
    | ILeaf _ _ _ | IZeros _ | IFromFlat _ | IFromArrays _ | IOp _ _ | IClone _ | IForward _ => true
    | _ => false
    end.

  Definition upd_ok (rho : nat -> nat) (i : instr) : Prop :=
    match i with IUpdate _ hs => NoDup hs /\ NoDup (map rho hs) | _ => True end.

  Definition updA (A : alias) (n n' : nat) (rho : nat -> nat) (i : instr) : alias :=
    (n, n') :: match i with
               | IDrop h => drop_r (rho h) (drop_l h A)
               | ITracked h | IUntracked h | IStart h | IStop h => rebind A h (rho h)
               | IUpdate _ hs => fold_left (fun A h => rebind A h (rho h)) hs A
               | _ => A
               end.

  Definition updL (L : list nat) (n : nat) (i : instr) : list nat :=
    (if pushes_some i then [n] else [])
      ++ match i with IDrop h => remove Nat.eq_dec h L | _ => L end.

  Lemma var_right : forall A (s s' : state) n rho k x,
      pool_rel A s s' -> In (k, rho k) A -> var (with_tag s n) k = Some x ->
      var (T (st_pool s') (with_tag s n)) (rho k) = Some x.
  Proof. intros A s s' n rho k x Hp Hin Hx. exact (Hp k (rho k) x Hin Hx). Qed.

  Lemma mapM_var_right : forall A (s s' : state) n rho ks hs,
      pool_rel A s s' -> (forall k, In k ks -> In (k, rho k) A) ->
      mapM (var (with_tag s n)) ks = Some hs ->
      mapM (var (T (st_pool s') (with_tag s n))) (map rho ks) = Some hs.
  Proof.
    intros A s s' n rho ks. induction ks as [|k ks IH]; intros hs Hp Hin H.
    - exact H.
    - cbn [mapM map] in *. revert H. apply obind_elim. intros x Hx H.
      revert H. apply obind_elim. intros xs Hxs H. inversion H. subst.
      rewrite (var_right A s s' n rho k x Hp (Hin k (or_introl eq_refl)) Hx). cbn [obind].
      rewrite (IH xs Hp (fun k' Hk' => Hin k' (or_intror Hk')) Hxs). reflexivity.
  Qed.

  Lemma sim_push : forall A L (s s' sl1 : state) x,
      sim A L s s' -> st_pool sl1 = st_pool s ->
      sim ((length (st_pool s), length (st_pool s')) :: A) L
          (push sl1 x) (push (T (st_pool s') sl1) x).
  Proof.
    intros A L s s' sl1 x (Hc & Hp & Hb & Hl) Hpool.
    apply (push_sim A L s s' sl1 (T (st_pool s') sl1) x Hp Hb Hl (core_rel_T sl1 _)).
    - intros j. unfold var. rewrite Hpool. reflexivity.
    - rewrite Hpool. reflexivity.
    - intros j. reflexivity.
    - reflexivity.
  Qed.

  Lemma sim_push_some : forall A L (s s' sl1 : state) h,
      sim A L s s' -> st_pool sl1 = st_pool s ->
      sim ((length (st_pool s), length (st_pool s')) :: A) (length (st_pool s) :: L)
          (push sl1 (Some h)) (push (T (st_pool s') sl1) (Some h)).
  Proof.
    intros A L s s' sl1 h Hs Hpool. eapply sim_live_cons.
    - apply sim_push; assumption.
    - rewrite <- Hpool. apply var_push_new.
  Qed.

  Lemma otag_arr : forall (a : arr F) t, otag tau (o_arr a t) = o_arr a t.
  Proof. reflexivity. Qed.
  Lemma otag_grad : forall g, otag tau (@o_grad F g) = o_grad g.
  Proof. intros [g|]; reflexivity. Qed.
  Lemma otag_app : forall (o1 o2 : @obs F), otag tau (o1 ++ o2) = otag tau o1 ++ otag tau o2.
  Proof. intros. apply map_app. Qed.
  Lemma pool_rel_sub : forall A1 A2 (s s' : state),
      (forall p, In p A1 -> In p A2) -> pool_rel A2 s s' -> pool_rel A1 s s'.
  Proof. intros A1 A2 s s' Hs Hp i j x Hin. apply Hp. apply Hs. exact Hin. Qed.

  Lemma bounded_sub : forall A1 A2 n n',
      (forall p, In p A1 -> In p A2) -> bounded A2 n n' -> bounded A1 n n'.
  Proof. intros A1 A2 n n' Hs Hb i j Hin. apply Hb. apply Hs. exact Hin. Qed.

  Lemma rebind_valid : forall A (s s' : state) h c,
      pool_rel A s s' -> (forall x, var s h = Some x -> var s' c = Some x) ->
      pool_rel (rebind A h c) s s'.
  Proof.
    intros A s s' h c Hp Hv i j x Hin Hx. apply in_rebind in Hin.
    destruct Hin as [[-> ->]|(Hin & _ & _)]; [apply Hv; exact Hx|exact (Hp i j x Hin Hx)].
  Qed.

  Lemma rebind_bounded : forall A n n' h c,
      bounded A n n' -> h < n -> c < n' -> bounded (rebind A h c) n n'.
  Proof.
    intros A n n' h c Hb Hh Hc i j Hin. apply in_rebind in Hin.
    destruct Hin as [[-> ->]|(Hin & _ & _)]; [auto|exact (Hb i j Hin)].
  Qed.

  Lemma set_slot_rel : forall A (s s' : state) h c v,
      pool_rel A s s' -> h < length (st_pool s) -> c < length (st_pool s') ->
      pool_rel (rebind A h c) (set_slot s h v) (set_slot s' c v).
  Proof.
    intros A s s' h c v Hp Hh Hc i j x Hin Hx. apply in_rebind in Hin.
    rewrite var_set_slot in Hx by exact Hh. rewrite var_set_slot by exact Hc.
    destruct Hin as [[-> ->]|(Hin & Hi & Hj)].
    - rewrite Nat.eqb_refl in *. exact Hx.
    - apply Nat.eqb_neq in Hi, Hj. rewrite Hi in Hx. rewrite Hj. exact (Hp i j x Hin Hx).
  Qed.

  Lemma set_var_some : forall (s : state) h v,
      h < length (st_pool s) -> set_var s h v = Some (set_slot s h v).
  Proof.
    intros s h v Hh. unfold set_var, set_nth. apply Nat.ltb_lt in Hh. rewrite Hh. reflexivity.
  Qed.

  Lemma core_rel_set_slot : forall (s s' : state) h c v v',
      core_rel s s' -> core_rel (set_slot s h v) (set_slot s' c v').
  Proof. intros s s' h c v v' H. exact H. Qed.

  Lemma core_rel_with_tag : forall (s s' : state) n n', core_rel s s' -> core_rel (with_tag s n) (with_tag s' n').
  Proof. intros s s' n n' H. exact H. Qed.

  Section Update.
    Variable rho : nat -> nat.

    Definition rebinds (hs : list nat) (A : alias) : alias :=
      fold_left (fun A h => rebind A h (rho h)) hs A.

    Lemma rebinds_keep : forall hs A h,
        ~ In h hs -> ~ In (rho h) (map rho hs) -> In (h, rho h) A -> In (h, rho h) (rebinds hs A).
    Proof.
      induction hs as [|k hs IH]; intros A h Hn Hn' Hin; [exact Hin|].
      cbn [rebinds fold_left]. apply IH.
      - intros H. apply Hn. right. exact H.
      - intros H. apply Hn'. right. exact H.
      - apply in_rebind. right. split; [exact Hin|]. split.
        + intros ->. apply Hn. left. reflexivity.
        + intros E. apply Hn'. left. symmetry. exact E.
    Qed.

    Lemma rebinds_valid : forall hs A (s s' : state),
        NoDup hs -> NoDup (map rho hs) -> (forall h, In h hs -> In (h, rho h) A) ->
        pool_rel A s s' -> pool_rel (rebinds hs A) s s'.
    Proof.
      induction hs as [|k hs IH]; intros A s s' Hnd Hnd' Hin Hp; [exact Hp|].
      cbn [rebinds fold_left]. inversion Hnd as [|? ? Hk Hnd1]; subst.
      cbn [map] in Hnd'. inversion Hnd' as [|? ? Hk' Hnd1']; subst.
      apply IH; [exact Hnd1|exact Hnd1'| |].
      - intros h Hh. apply in_rebind. right. split; [apply Hin; right; exact Hh|]. split.
        + intros ->. contradiction.
        + intros E. apply Hk'. rewrite <- E. apply in_map. exact Hh.
      - apply rebind_valid; [exact Hp|]. intros x Hx.
        exact (Hp k (rho k) x (Hin k (or_introl eq_refl)) Hx).
    Qed.

    Lemma rebinds_bounded : forall hs A n n',
        (forall h, In h hs -> h < n /\ rho h < n') -> bounded A n n' -> bounded (rebinds hs A) n n'.
    Proof.
      induction hs as [|k hs IH]; intros A n n' Hin Hb; [exact Hb|].
      cbn [rebinds fold_left]. apply IH; [intros h Hh; apply Hin; right; exact Hh|].
      destruct (Hin k (or_introl eq_refl)). apply rebind_bounded; assumption.
    Qed.

    Lemma update_sim : forall hs out A (s1 s1' s2 : state),
        NoDup hs -> NoDup (map rho hs) -> (forall h, In h hs -> In (h, rho h) A) ->
        core_rel s1 s1' -> pool_rel A s1 s1' ->
        bounded A (length (st_pool s1)) (length (st_pool s1')) ->
        fold_left (fun (acc : option state) (p : nat * handle) =>
                     st <- acc ;; set_var st (fst p) (Some (snd p)))
                  (combine hs out) (Some s1) = Some s2 ->
        exists s2',
          fold_left (fun (acc : option state) (p : nat * handle) =>
                       st <- acc ;; set_var st (fst p) (Some (snd p)))
                    (combine (map rho hs) out) (Some s1') = Some s2' /\
          core_rel s2 s2' /\ pool_rel (rebinds hs A) s2 s2' /\
          length (st_pool s2) = length (st_pool s1) /\ length (st_pool s2') = length (st_pool s1') /\
          (forall i x, var s1 i = Some x -> exists y, var s2 i = Some y).
    Proof.
      induction hs as [|k hs IH]; intros out A s1 s1' s2 Hnd Hnd' Hin Hc Hp Hb H.
      - cbn in H. inversion H. subst. exists s1'. cbn [combine map fold_left rebinds].
        split; [reflexivity|]. split; [exact Hc|]. split; [exact Hp|].
        split; [reflexivity|]. split; [reflexivity|]. eauto.
      - destruct out as [|y out].
        + cbn in H. inversion H. subst. exists s1'. cbn [combine map fold_left].
          split; [reflexivity|]. split; [exact Hc|].
          split; [apply rebinds_valid; assumption|]. split; [reflexivity|]. split; [reflexivity|]. eauto.
        + cbn [combine map fold_left obind fst snd] in *.
          destruct (set_var s1 k (Some y)) as [s1a|] eqn:Esv;
            [|rewrite fold_left_none in H by reflexivity; discriminate H].
          apply set_var_inv in Esv. destruct Esv as [Hk ->]. fold (set_slot s1 k (Some y)) in H.
          destruct (Hb k (rho k) (Hin k (or_introl eq_refl))) as [_ Hk'].
          rewrite (set_var_some s1' (rho k) (Some y) Hk').
          inversion Hnd as [|? ? Hnk Hnd1]; subst. cbn [map] in Hnd'.
          inversion Hnd' as [|? ? Hnk' Hnd1']; subst.
          destruct (IH out (rebind A k (rho k)) (set_slot s1 k (Some y)) (set_slot s1' (rho k) (Some y)) s2
                       Hnd1 Hnd1') as (s2' & Hf & Hc2 & Hp2 & Hl2 & Hl2' & Hlive); try assumption.
          * intros h Hh. apply in_rebind. right. split; [apply Hin; right; exact Hh|]. split.
            -- intros ->. contradiction.
            -- intros E. apply Hnk'. rewrite <- E. apply in_map. exact Hh.
          * apply set_slot_rel; assumption.
          * rewrite !set_slot_length by assumption. apply rebind_bounded; assumption.
          * exists s2'. split; [exact Hf|]. split; [exact Hc2|]. split; [exact Hp2|].
            rewrite set_slot_length in Hl2 by exact Hk. rewrite set_slot_length in Hl2' by exact Hk'.
            split; [exact Hl2|]. split; [exact Hl2'|].
            intros i x Hx. destruct (Nat.eq_dec i k) as [->|Hne].
            -- apply (Hlive k y). rewrite var_set_slot by exact Hk. rewrite Nat.eqb_refl. reflexivity.
            -- apply (Hlive i x). rewrite var_set_slot by exact Hk.
               apply Nat.eqb_neq in Hne. rewrite Hne. exact Hx.
    Qed.
  End Update.
  Lemma remove_live : forall L (s : state) h v,
      live L s -> h < length (st_pool s) -> live (remove Nat.eq_dec h L) (set_slot s h v).
  Proof.
    intros L s h v Hl Hh i Hi. apply in_remove in Hi. destruct Hi as [Hi Hne].
    destruct (Hl i Hi) as (x & Hx). exists x. rewrite var_set_slot by exact Hh.
    apply Nat.eqb_neq in Hne. rewrite Hne. exact Hx.
  Qed.

  Lemma set_live : forall L (s : state) h y,
      live L s -> h < length (st_pool s) -> live L (set_slot s h (Some y)).
  Proof.
    intros L s h y Hl Hh i Hi. destruct (Hl i Hi) as (x & Hx). rewrite var_set_slot by exact Hh.
    destruct (i =? h); eauto.
  Qed.

  Lemma sim_set_slot : forall A A1 L L1 (s s' : state) h c v,
      sim A L s s' -> h < length (st_pool s) -> c < length (st_pool s') ->
      (forall p, In p A1 -> In p (rebind A h c)) ->
      live L1 (set_slot (with_tag s (length (st_pool s))) h v) ->
      sim ((length (st_pool s), length (st_pool s')) :: A1) L1
          (push (set_slot (with_tag s (length (st_pool s))) h v) None)
          (push (set_slot (with_tag s' (length (st_pool s'))) c v) None).
  Proof.
    intros A A1 L L1 s s' h c v (Hc & Hp & Hb & Hl) Hh Hc' Hsub Hl1.
    set (sa := set_slot (with_tag s (length (st_pool s))) h v).
    set (sb := set_slot (with_tag s' (length (st_pool s'))) c v).
    assert (La : length (st_pool sa) = length (st_pool s))
      by exact (set_slot_length (with_tag s (length (st_pool s))) h v Hh).
    assert (Lb : length (st_pool sb) = length (st_pool s'))
      by exact (set_slot_length (with_tag s' (length (st_pool s'))) c v Hc').
    rewrite <- La, <- Lb.
    apply (push_sim A1 L1 sa sb sa sb None); try reflexivity.
    - apply (pool_rel_sub A1 (rebind A h c)); [exact Hsub|].
      apply (set_slot_rel A (with_tag s _) (with_tag s' _) h c v); [exact Hp|exact Hh|exact Hc'].
    - rewrite La, Lb. apply (bounded_sub A1 (rebind A h c)); [exact Hsub|].
      apply rebind_bounded; assumption.
    - exact Hl1.
    - exact Hc.
  Qed.

  Lemma sim_live_incl : forall A L L' (s s' : state), sim A L s s' -> incl L' L -> sim A L' s s'.
  Proof.
    intros A L L' s s' (H1 & H2 & H3 & H4) Hi. repeat (split; [assumption|]).
    intros i Hin. exact (H4 i (Hi i Hin)).
  Qed.

  Lemma mapM_arr_right : forall A (s s' : state) n rho ks args,
      pool_rel A s s' -> (forall k, In k ks -> In (k, rho k) A) ->
      mapM (fun j => h <- var (with_tag s n) j ;; h_arr (with_tag s n) h) ks = Some args ->
      mapM (fun j => h <- var (T (st_pool s') (with_tag s n)) j ;;
                     h_arr (T (st_pool s') (with_tag s n)) h) (map rho ks) = Some args.
  Proof.
    intros A s s' n rho ks. induction ks as [|k ks IH]; intros args Hp Hin H.
    - exact H.
    - cbn [mapM map] in *. revert H. apply obind_elim. intros y Hy H.
      revert H. apply obind_elim. intros ys Hys H. injection H as <-.
      revert Hy. apply obind_elim. intros x Hx Hy.
      rewrite (var_right A s s' n rho k x Hp (Hin k (or_introl eq_refl)) Hx). cbn [obind].
      rewrite h_arr_T, Hy. cbn [obind].
      rewrite (IH ys Hp (fun k' Hk' => Hin k' (or_intror Hk')) Hys). reflexivity.
  Qed.

  Lemma new_leaf_sim : forall A (s s' : state) n rho i a t o,
      pool_rel A s s' -> (forall k, In k (mentions i) -> In (k, rho k) A) ->
      new_leaf O (with_tag s n) i = Some (a, t, o) ->
      new_leaf O (T (st_pool s') (with_tag s n)) (rename rho i) = Some (a, t, o) /\
      otag tau o = o /\
      forall n1 n2 L, updA A n1 n2 rho i = (n1, n2) :: A /\ incl (updL L n1 i) (n1 :: L).
  Proof.
    intros A s s' n rho i a t o Hp Hm H.
    destruct i; try discriminate H; cbn [new_leaf rename mentions] in *;
      apply obind_some in H; destruct H as (y & Hy & H).
    - injection H as <- <- <-. rewrite Hy. repeat split. apply incl_refl.
    - injection H as <- <- <-. rewrite Hy. repeat split. apply incl_refl.
    - injection H as <- <- <-. rewrite Hy. repeat split. apply incl_refl.
    - revert H. apply obind_elim. intros a' Ha H. injection H as <- <- <-.
      rewrite (mapM_arr_right A s s' n rho hs y Hp Hm Hy). cbn [obind]. rewrite Ha.
      repeat split. apply incl_refl.
    - revert H. apply obind_elim. intros g Hg H. injection H as <- <- <-.
      rewrite (var_right A s s' n rho h y Hp (Hm h (or_introl eq_refl)) Hy). cbn [obind].
      rewrite grad_of_T, Hg. repeat split. apply incl_tl. apply incl_refl.
  Qed.

  Lemma otag_params : forall s : state, otag tau (o_params s) = o_params s.
  Proof.
    intros s. unfold o_params. generalize (model_params s) as ps.
    induction ps as [|q ps IH]; [reflexivity|]. cbn [flat_map]. rewrite otag_app, IH. f_equal.
    destruct (h_arr s q); [|reflexivity]. rewrite otag_app, otag_arr, otag_grad. reflexivity.
  Qed.

  Lemma reads_sim : forall A (s s' : state) n rho i o,
      pool_rel A s s' -> (forall k, In k (mentions i) -> In (k, rho k) A) ->
      reads O (with_tag s n) i = Some o ->
      reads O (T (st_pool s') (with_tag s n)) (rename rho i) = Some o /\ otag tau o = o /\
      forall n1 n2 L, updA A n1 n2 rho i = (n1, n2) :: A /\ updL L n1 i = L.
  Proof.
    intros A s s' n rho i o Hp Hm H.
    destruct i; try discriminate H; cbn [reads rename mentions] in *;
      try (apply obind_some in H; destruct H as (x & Hx & H);
           rewrite (var_right A s s' n rho _ x Hp (Hm _ (or_introl eq_refl)) Hx); cbn [obind]).
    - apply some_inj in H. subst o. rewrite grad_of_T. split; [reflexivity|]. split; [apply otag_grad|]. split; reflexivity.
    - rewrite grad_of_T. destruct (grad_of (with_tag s n) x); [discriminate H|]. apply some_inj in H. subst o.
      repeat split.
    - revert H. apply obind_elim. intros a Ha H. revert H. apply obind_elim. intros v Hv H.
      apply some_inj in H. subst o. rewrite h_arr_T, Ha. cbn [obind]. rewrite Hv. repeat split.
    - revert H. apply obind_elim. intros a Ha H. revert H. apply obind_elim. intros v Hv H.
      apply some_inj in H. subst o. rewrite h_arr_T, Ha. cbn [obind]. rewrite Hv. repeat split.
    - revert H. apply obind_elim. intros y Hy H.
      revert H. apply obind_elim. intros a Ha H. revert H. apply obind_elim. intros b Hb H.
      apply some_inj in H. subst o.
      rewrite (var_right A s s' n rho h2 y Hp (Hm h2 (or_intror (or_introl eq_refl))) Hy). cbn [obind].
      rewrite !h_arr_T, Ha, Hb. repeat split.
    - revert H. apply obind_elim. intros a Ha H. apply some_inj in H. subst o.
      rewrite h_arr_T, Ha. cbn [obind]. rewrite grad_of_T. split; [reflexivity|].
      split; [rewrite otag_app, otag_arr, otag_grad; reflexivity|]. split; reflexivity.
    - revert H. apply obind_elim. intros a Ha H. apply some_inj in H. subst o.
      rewrite h_arr_T, Ha. repeat split.
    - apply some_inj in H. subst o. rewrite o_params_T. split; [reflexivity|]. split; [apply otag_params|].
      split; reflexivity.
  Qed.

  Lemma rebind_sim : forall A (s s' : state) n rho i h v o,
      pool_rel A s s' -> (forall k, In k (mentions i) -> In (k, rho k) A) -> supported i = true ->
      StepView.rebind (with_tag s n) i = Some (h, v, o) ->
      StepView.rebind (T (st_pool s') (with_tag s n)) (rename rho i) = Some (rho h, v, o) /\
      otag tau o = o /\ In (h, rho h) A /\
      forall n1 n2 L, exists A1,
          updA A n1 n2 rho i = (n1, n2) :: A1 /\ (forall p, In p A1 -> In p (rebind A h (rho h))) /\
          updL L n1 i = match v with None => remove Nat.eq_dec h L | Some _ => L end.
  Proof.
    intros A s s' n rho i h v o Hp Hm Hsup H.
    destruct i; try discriminate H; try discriminate Hsup; cbn [StepView.rebind rename mentions] in *;
      apply obind_some in H; destruct H as (x & Hx & H); injection H as <- <- <-;
        rewrite (var_right A s s' n rho _ x Hp (Hm _ (or_introl eq_refl)) Hx); cbn [obind];
          (split; [reflexivity|]); (split; [reflexivity|]); (split; [exact (Hm _ (or_introl eq_refl))|]);
            intros n1 n2 L.
    - eexists. repeat split. intros p Hin. right. exact Hin.
    - eexists. repeat split. intros p Hin. exact Hin.
    - eexists. repeat split. intros p Hin. exact Hin.
    - eexists. repeat split. intros p Hin. exact Hin.
    - eexists. repeat split. intros p Hin. exact Hin.
  Qed.

  Theorem step_sim : forall A L (s s' : state) i rho s1 o,
      sim A L s s' -> supported i = true ->
      tau (length (st_pool s)) = length (st_pool s') ->
      (forall k, In k (mentions i) -> In (k, rho k) A) -> upd_ok rho i ->
      step O s i = Some (s1, o) ->
      exists s1',
        step O s' (rename rho i) = Some (s1', otag tau o) /\
        sim (updA A (length (st_pool s)) (length (st_pool s')) rho i)
            (updL L (length (st_pool s)) i) s1 s1'.
  Proof.
    intros A L s s' i rho s1 o Hsim Hsup Htau Hm Hok H.
    pose proof Hsim as (Hc & Hp & Hb & Hl).
    pose proof (core_rel_retag s s' _ _ Hc Htau) as Hret.
    apply step_cases in H. destruct H as (sa & slot & C & ->).
    (* the matching case on the right, then [step_case_step] *)
    assert (G : forall sa' o', step_case O (T (st_pool s') (with_tag s (length (st_pool s))))
                                         (rename rho i) sa' slot o' ->
                  step O s' (rename rho i) = Some (push sa' slot, o')).
    { intros sa' o' C'. rewrite <- Hret in C'. exact (step_case_step O s' _ _ _ _ C'). }
    destruct C as [i a t o Hl0 | i o Hq | h x Hx | i h v o s1 Hr Hs1 | k args hs s1 h a Hhs Hop Ha
                   | h seed x sd r Hx Hsd Hr | h x s1 Hx Hs1 | lr hs params s1 out s2 Hpa Hg Hs2
                   | ls c lr s1 layers Hml | h x s1 out a Hx Hmf Ha | h x s1 loss Hx Hmb | s1 Hmu].
    - destruct (new_leaf_sim A s s' _ rho i a t o Hp Hm Hl0) as (Hl' & -> & HU).
      destruct (HU (length (st_pool s)) (length (st_pool s')) L) as [-> HL].
      pose proof (sc_leaf O _ _ a t o Hl') as C'. rewrite alloc_T in C'.
      cbn [fst st_nodes tmap] in C'. rewrite map_length in C'.
      eexists. split; [exact (G _ _ C')|].
      apply (sim_live_incl _ _ _ _ _ (sim_push_some A L s s' (fst (alloc (with_tag s (length (st_pool s))) a [] None None)) _ Hsim eq_refl) HL).
    - destruct (reads_sim A s s' _ rho i o Hp Hm Hq) as (Hq' & -> & HU).
      destruct (HU (length (st_pool s)) (length (st_pool s')) L) as [-> ->].
      eexists. split; [apply G; apply (sc_read O _ _ o Hq')|].
      apply sim_push; [exact Hsim|reflexivity].
    - cbn [rename updA updL pushes_some mentions app] in *.
      eexists. split.
      + apply G. apply sc_clone. exact (var_right A s s' _ rho h x Hp (Hm h (or_introl eq_refl)) Hx).
      + apply sim_push_some; [exact Hsim|reflexivity].
    - destruct (rebind_sim A s s' _ rho i h v o Hp Hm Hsup Hr) as (Hr' & -> & Hin & HU).
      destruct (HU (length (st_pool s)) (length (st_pool s')) L) as (A1 & -> & Hsub & ->).
      apply set_var_inv in Hs1. destruct Hs1 as [Hh ->]. destruct (Hb h (rho h) Hin) as [_ Hc'].
      eexists. split.
      + apply G. apply (sc_rebind O _ _ (rho h) v o _ Hr'). apply set_var_some. exact Hc'.
      + rewrite <- Hret. apply (sim_set_slot A A1 L _ s s' h (rho h) v Hsim Hh Hc' Hsub).
        destruct v; [apply set_live|apply remove_live]; assumption.
    - cbn [rename updA updL pushes_some mentions app] in *.
      eexists. split.
      + apply G. apply (sc_op O _ k (map rho args) hs (T (st_pool s') s1) h a).
        * exact (mapM_var_right A s s' _ rho args hs Hp Hm Hhs).
        * rewrite apply_op_T, Hop. reflexivity.
        * rewrite h_arr_T. exact Ha.
      + apply sim_push_some; [exact Hsim|]. exact (proj1 (apply_op_sframe O _ _ _ _ _ Hop)).
    - cbn [rename updA updL pushes_some mentions app] in *. destruct r as [g lg].
      assert (Hr' : run_backward (E O) (st_nodes (T (st_pool s') (with_tag s (length (st_pool s)))))
                                 (e_node x) (e_keep x) sd = Some (map (ntag tau) g, lg)).
      { cbn [st_nodes tmap with_tag]. rewrite run_backward_T. cbn [st_nodes with_tag] in Hr.
        rewrite Hr. reflexivity. }
      pose proof (sc_backward O _ (rho h) seed x sd _
                              (var_right A s s' _ rho h x Hp (Hm h (or_introl eq_refl)) Hx) Hsd Hr') as C'.
      cbn [fst snd] in C'.
      change (with_nodes (T (st_pool s') (with_tag s (length (st_pool s)))) (map (ntag tau) g))
        with (T (st_pool s') (with_nodes (with_tag s (length (st_pool s))) g)) in C'.
      rewrite o_log_T in C'. eexists. split; [exact (G _ _ C')|].
      apply sim_push; [exact Hsim|reflexivity].
    - cbn [rename updA updL pushes_some mentions app] in *.
      assert (Hs1' : clear_grad (T (st_pool s') (with_tag s (length (st_pool s)))) x
                     = Some (T (st_pool s') s1)) by (rewrite clear_grad_T, Hs1; reflexivity).
      pose proof (sc_clear O _ (rho h) x _
                           (var_right A s s' _ rho h x Hp (Hm h (or_introl eq_refl)) Hx) Hs1') as C'.
      rewrite grad_of_T in C'. rewrite otag_grad. eexists. split; [exact (G _ _ C')|].
      apply sim_push; [exact Hsim|]. exact (proj1 (clear_grad_sframe _ _ _ Hs1)).
    - cbn [rename updA updL pushes_some mentions upd_ok app] in *. destruct Hok as [Hnd Hnd'].
      assert (Hpa1 : st_pool s1 = st_pool s) by exact (proj1 (gd_update_sframe O _ _ _ _ _ Hg)).
      destruct (update_sim rho hs out A s1 (T (st_pool s') s1) s2 Hnd Hnd' Hm (core_rel_T s1 _))
        as (s2' & Ef' & Hc2 & Hp2 & Hl2 & Hl2' & Hlive).
      { intros i j y Hin Hy. unfold var in Hy. rewrite Hpa1 in Hy. exact (Hp i j y Hin Hy). }
      { rewrite Hpa1. exact Hb. }
      { exact Hs2. }
      eexists. split.
      + apply G. apply (sc_update O _ lr (map rho hs) params (T (st_pool s') s1) out s2').
        * exact (mapM_var_right A s s' _ rho hs params Hp Hm Hpa).
        * rewrite gd_update_T, Hg. reflexivity.
        * exact Ef'.
      + rewrite Hpa1 in Hl2. cbn [st_pool tmap] in Hl2'. rewrite <- Hl2, <- Hl2'.
        apply (push_sim _ L s2 s2' s2 s2' None); try reflexivity.
        * exact Hp2.
        * rewrite Hl2, Hl2'. apply rebinds_bounded; [|exact Hb].
          intros h Hh. exact (Hb h (rho h) (Hm h Hh)).
        * intros i Hi. destruct (Hl i Hi) as (y & Hy). apply (Hlive i y).
          unfold var. rewrite Hpa1. exact Hy.
        * exact Hc2.
    - cbn [rename updA updL pushes_some mentions app] in *.
      eexists. split.
      + apply G. apply (sc_model O _ ls c lr (T (st_pool s') s1) layers).
        rewrite make_layers_T, Hml. reflexivity.
      + change (with_config (with_layers (T (st_pool s') s1) layers) c lr)
          with (T (st_pool s') (with_config (with_layers s1 layers) c lr)).
        apply sim_push; [exact Hsim|]. exact (proj1 (make_layers_sframe _ _ _ _ Hml)).
    - cbn [rename updA updL pushes_some mentions app] in *.
      eexists. split.
      + apply G. apply (sc_forward O _ (rho h) x (T (st_pool s') s1) out a
                                   (var_right A s s' _ rho h x Hp (Hm h (or_introl eq_refl)) Hx)).
        * rewrite model_forward_T, Hmf. reflexivity.
        * rewrite h_arr_T. exact Ha.
      + apply sim_push_some; [exact Hsim|].
        apply model_forward_inv in Hmf. destruct Hmf as (sx & Hfr & ->). exact (proj1 Hfr).
    - cbn [rename updA updL pushes_some mentions app] in *.
      eexists. split.
      + apply G. apply (sc_mbackward O _ (rho h) x (T (st_pool s') s1) loss
                                     (var_right A s s' _ rho h x Hp (Hm h (or_introl eq_refl)) Hx)).
        rewrite model_backward_T, Hmb. reflexivity.
      + apply sim_push; [exact Hsim|]. exact (proj1 (model_backward_sframe O _ _ _ _ Hmb)).
    - cbn [rename updA updL pushes_some mentions app] in *.
      eexists. split.
      + apply G. apply (sc_mupdate O _ (T (st_pool s') s1)). rewrite model_update_T, Hmu. reflexivity.
      + apply sim_push; [exact Hsim|].
        apply model_update_inv in Hmu. destruct Hmu as (sx & ls & Hfr & ->). exact (proj1 Hfr).
  Qed.
  (** the aliases of a fresh clone of right slot [c] *)
  Definition clones (A : alias) (c n' : nat) : alias :=
    map (fun p => (fst p, n')) (filter (fun p => snd p =? c) A).

  Lemma in_clones : forall A c n' i j, In (i, j) (clones A c n') <-> j = n' /\ In (i, c) A.
  Proof.
    intros A c n' i j. unfold clones. rewrite in_map_iff. split.
    - intros ([i0 j0] & E & Hin). apply filter_In in Hin. destruct Hin as [Hin Hc].
      cbn [fst snd] in *. apply Nat.eqb_eq in Hc. inversion E. subst. auto.
    - intros [-> Hin]. exists (i, c). split; [reflexivity|]. apply filter_In.
      split; [exact Hin|]. cbn [snd]. apply Nat.eqb_refl.
  Qed.

  Theorem clone_right : forall A L (s s' : state) i0 c,
      sim A L s s' -> In i0 L -> In (i0, c) A ->
      exists s1', step O s' (IClone c) = Some (s1', []) /\
                  length (st_pool s1') = S (length (st_pool s')) /\
                  sim (A ++ clones A c (length (st_pool s'))) L s s1'.
  Proof.
    intros A L s s' i0 c (Hc & Hp & Hb & Hl) Hi0 Hin.
    destruct (Hl i0 Hi0) as (x & Hx). pose proof (Hp i0 c x Hin Hx) as Hx'.
    exists (push (retag s') (Some x)). split; [apply step_clone; exists x; auto|].
    split; [exact (push_length (retag s') (Some x))|].
    split; [exact Hc|]. split; [|split; [|exact Hl]].
    - intros i j y Hij Hy. apply in_app_or in Hij. destruct Hij as [Hij|Hij].
      + destruct (Hb i j Hij) as [_ Hj]. rewrite (var_push_old (retag s') (Some x) j Hj).
        exact (Hp i j y Hij Hy).
      + apply in_clones in Hij. destruct Hij as [-> Hic].
        pose proof (Hp i c y Hic Hy) as Hy'.
        assert (E1 : var (push (retag s') (Some x)) (length (st_pool s')) = Some x)
          by exact (var_push_new (retag s') (Some x)).
        rewrite E1. congruence.
    - intros i j Hij. rewrite (push_length (retag s') (Some x)). cbn [st_pool retag with_tag].
      apply in_app_or in Hij. destruct Hij as [Hij|Hij].
      + destruct (Hb i j Hij). lia.
      + apply in_clones in Hij. destruct Hij as [-> Hic]. destruct (Hb i c Hic). lia.
  Qed.

  Theorem drop_right : forall A L (s s' : state) i0 c,
      sim A L s s' -> In i0 L -> In (i0, c) A ->
      exists s1', step O s' (IDrop c) = Some (s1', []) /\
                  length (st_pool s1') = S (length (st_pool s')) /\
                  sim (drop_r c A) L s s1'.
  Proof.
    intros A L s s' i0 c (Hc & Hp & Hb & Hl) Hi0 Hin.
    destruct (Hl i0 Hi0) as (x & Hx). pose proof (Hp i0 c x Hin Hx) as Hx'.
    destruct (Hb i0 c Hin) as [_ Hc'].
    exists (push (set_slot (retag s') c None) None). split; [|split].
    - unfold step. cbv zeta. fold (retag s').
      assert (Ex : var (retag s') c = Some x) by exact Hx'. rewrite Ex. cbn [obind].
      rewrite (set_var_some (retag s') c None Hc'). reflexivity.
    - rewrite push_length. f_equal. exact (set_slot_length (retag s') c None Hc').
    - split; [exact Hc|]. split; [|split; [|exact Hl]].
      + intros i j y Hij Hy. apply in_drop_r in Hij. destruct Hij as [Hij Hne].
        destruct (Hb i j Hij) as [_ Hj].
        rewrite var_push_old by (rewrite (set_slot_length (retag s') c None Hc'); exact Hj).
        rewrite (var_set_slot (retag s') c None j Hc'). apply Nat.eqb_neq in Hne. rewrite Hne.
        exact (Hp i j y Hij Hy).
      + intros i j Hij. apply in_drop_r in Hij. destruct Hij as [Hij _]. destruct (Hb i j Hij).
        rewrite push_length, (set_slot_length (retag s') c None Hc'). cbn [st_pool retag with_tag]. lia.
  Qed.

  (** [variant A L n n' p p' m]: [p'] is [p] with slots renamed through the current aliases,
      plus right-only clones and drops; [m] marks the matched instructions of [p'].
      [n], [n'] are the pool lengths, [A] the alias pairs, [L] the left slots known to be live. *)
  Inductive variant : alias -> list nat -> nat -> nat -> list instr -> list instr -> list bool -> Prop :=
  | v_nil : forall A L n n', variant A L n n' [] [] []
  | v_match : forall A L n n' i rho p p' m,
      supported i = true -> tau n = n' ->
      (forall k, In k (mentions i) -> In (k, rho k) A) -> upd_ok rho i ->
      variant (updA A n n' rho i) (updL L n i) (S n) (S n') p p' m ->
      variant A L n n' (i :: p) (rename rho i :: p') (true :: m)
  | v_clone : forall A L n n' i0 c p p' m,
      In i0 L -> In (i0, c) A ->
      variant (A ++ clones A c n') L n (S n') p p' m ->
      variant A L n n' p (IClone c :: p') (false :: m)
  | v_drop : forall A L n n' i0 c p p' m,
      In i0 L -> In (i0, c) A ->
      variant (drop_r c A) L n (S n') p p' m ->
      variant A L n n' p (IDrop c :: p') (false :: m).

  (** matched observations agree (closure logs up to the renaming of tags); the right-only
      instructions observe nothing *)
  Fixpoint obs_match (m : list bool) (os os' : list (@obs F)) : Prop :=
    match m, os' with
    | [], [] => os = []
    | true :: m', o' :: os'' =>
      match os with
      | o :: os1 => o' = otag tau o /\ obs_match m' os1 os''
      | [] => False
      end
    | false :: m', o' :: os'' => o' = [] /\ obs_match m' os os''
    | _, _ => False
    end.

  Theorem variant_exec : forall A L n n' p p' m,
      variant A L n n' p p' m ->
      forall (s s' : state), sim A L s s' -> length (st_pool s) = n -> length (st_pool s') = n' ->
      forall sf os, exec O s p = Some (sf, os) ->
      exists sf' os', exec O s' p' = Some (sf', os') /\ obs_match m os os'.
  Proof.
    intros A L n n' p p' m Hv. induction Hv as
        [A L n n'
        |A L n n' i rho p p' m Hsup Htau Hm Hok Hv IH
        |A L n n' i0 c p p' m Hi0 Hin Hv IH
        |A L n n' i0 c p p' m Hi0 Hin Hv IH]; intros s s' Hsim Hn Hn' sf os Hex.
    - cbn in Hex. inversion Hex. subst. exists s', []. split; reflexivity.
    - cbn [exec] in Hex. revert Hex. apply obind_elim. intros [s1 o] Hst Hex.
      revert Hex. apply obind_elim. intros [s2 os2] Hex2 Hex. inversion Hex. subst sf os. clear Hex.
      assert (Htau' : tau (length (st_pool s)) = length (st_pool s')) by congruence.
      clear Htau. subst n n'.
      destruct (step_sim A L s s' i rho s1 o Hsim Hsup Htau' Hm Hok Hst) as (s1' & Hst' & Hsim1).
      destruct (step_frame O s i s1 o Hst) as (_ & _ & Hl1 & _).
      destruct (step_frame O s' _ s1' _ Hst') as (_ & _ & Hl1' & _).
      destruct (IH s1 s1' Hsim1 Hl1 Hl1' s2 os2 Hex2) as (sf' & os' & Hex' & Hom).
      exists sf', (otag tau o :: os'). split; [|split; [reflexivity|exact Hom]].
      cbn [exec]. rewrite Hst'. cbn [obind]. rewrite Hex'. reflexivity.
    - subst n n'. destruct (clone_right A L s s' i0 c Hsim Hi0 Hin) as (s1' & Hst' & Hl1' & Hsim1).
      destruct (IH s s1' Hsim1 eq_refl Hl1' sf os Hex) as (sf' & os' & Hex' & Hom).
      exists sf', ([] :: os'). split; [|split; [reflexivity|exact Hom]].
      cbn [exec]. rewrite Hst'. cbn [obind]. rewrite Hex'. reflexivity.
    - subst n n'. destruct (drop_right A L s s' i0 c Hsim Hi0 Hin) as (s1' & Hst' & Hl1' & Hsim1).
      destruct (IH s s1' Hsim1 eq_refl Hl1' sf os Hex) as (sf' & os' & Hex' & Hom).
      exists sf', ([] :: os'). split; [|split; [reflexivity|exact Hom]].
      cbn [exec]. rewrite Hst'. cbn [obind]. rewrite Hex'. reflexivity.
  Qed.

  Lemma exec_run_from : forall p (s sf : state) os,
      exec O s p = Some (sf, os) -> run_from O s p = (os, false).
  Proof.
    induction p as [|i p IH]; intros s sf os H; cbn [exec run_from] in *.
    - inversion H. reflexivity.
    - revert H. apply obind_elim. intros [s1 o] Hst H.
      revert H. apply obind_elim. intros [s2 os2] Hex H. inversion H. subst.
      rewrite Hst, (IH s1 _ os2 Hex). reflexivity.
  Qed.

  Lemma sim_init : sim [] [] (@init_state F O) (@init_state F O).
  Proof.
    split; [repeat split|]. split; [intros i j x []|]. split; [intros i j []|intros i []].
  Qed.

  (** C12 for whole programs: if [p] runs without panic, so does every variant [p'], and the
      observations of the matched instructions coincide *)
  Theorem variant_observations : forall p p' m os,
      variant [] [] 0 0 p p' m -> run O p = (os, false) ->
      exists os', run O p' = (os', false) /\ obs_match m os os'.
  Proof.
    intros p p' m os Hv Hrun. unfold run in *.
    destruct (run_from_exec O p _ os false Hrun) as (sf & Hex & Hlen).
    rewrite (Hlen eq_refl), firstn_all in Hex.
    destruct (variant_exec [] [] 0 0 p p' m Hv _ _ sim_init eq_refl eq_refl sf os Hex)
      as (sf' & os' & Hex' & Hom).
    exists os'. split; [eapply exec_run_from; exact Hex'|exact Hom].
  Qed.

  (** the observations of the matched instructions, in order *)
  Fixpoint select (m : list bool) (os' : list (@obs F)) : list (@obs F) :=
    match m, os' with
    | true :: m', o' :: os'' => o' :: select m' os''
    | false :: m', _ :: os'' => select m' os''
    | _, _ => []
    end.

  Lemma obs_match_select : forall m os os', obs_match m os os' -> select m os' = map (otag tau) os.
  Proof.
    induction m as [|[|] m IH]; intros os os' H; destruct os' as [|o' os']; cbn [obs_match] in H;
      try contradiction.
    - subst. reflexivity.
    - destruct os as [|o os]; [contradiction|]. destruct H as [-> H]. cbn [select map].
      f_equal. apply IH. exact H.
    - destruct H as [_ H]. cbn [select]. apply IH. exact H.
  Qed.

  (** only the closure logs (kind 6) carry a tag *)
  Lemma otag_id : forall o : @obs F,
      (forall it, In it o -> fst (fst it) <> 6) -> otag tau o = o.
  Proof.
    intros o H. unfold otag. rewrite <- (map_id o) at 2. apply map_ext_in. intros [[k ns] vs] Hin.
    specialize (H _ Hin). cbn [fst] in H.
    destruct k as [|[|[|[|[|[|[|k]]]]]]]; try reflexivity. contradiction H. reflexivity.
  Qed.
End Transparency.

Print Assumptions step_sim.
Print Assumptions clone_right.
Print Assumptions drop_right.
Print Assumptions variant_exec.
Print Assumptions variant_observations.

(** * A concrete instance over [Z_ops] (non-vacuity): clones inserted, a pass started from a
    clone of the result, gradients read through a clone, original handles dropped *)

Section TransparencyExample.
  Open Scope Z_scope.
  Definition pl : list (@instr Z) :=
    [ILeaf [2]%nat [1;2] true; ILeaf [2]%nat [3;4] false; IOp OMul [0;1]%nat; IOp (OCustom CSq) [2]%nat;
     IBackward 3 None; IGrad 0; IObs 2; ITracked 1; IOp OAdd [1;0]%nat; IUpdate 2 [0]%nat; IObs 0].
  Definition pr : list (@instr Z) :=
    [ILeaf [2]%nat [1;2] true; IClone 0; ILeaf [2]%nat [3;4] false; IOp OMul [1;2]%nat; IClone 3;
     IOp (OCustom CSq) [4]%nat; IClone 5; IDrop 5; IBackward 6 None; IGrad 1; IObs 3; ITracked 2;
     IDrop 3; IOp OAdd [2;1]%nat; IDrop 0; IUpdate 2 [1]%nat; IObs 1].
  Definition tau_ex (n : nat) : nat := nth n [0;2;3;5;8;9;10;11;13;15;16]%nat 0%nat.
  Definition mask : list bool :=
    [true;false;true;true;false;true;false;false;true;true;true;true;false;true;false;true;true].

  Ltac solve_in := cbn; repeat match goal with |- _ \/ _ => first [left; reflexivity | right] end.
  Ltac side :=
    first [reflexivity
          | exact I
          | (intros k Hk; cbn in Hk;
             repeat match goal with H : _ \/ _ |- _ => destruct H as [<-|H] end; try contradiction; solve_in)
          | (split; repeat constructor; cbn; intuition discriminate)].
  Ltac mt r := match goal with |- variant _ _ _ _ _ (?i :: _) _ _ =>
    apply (v_match tau_ex _ _ _ _ i r); [side|side|side|side|cbn] end.
  Ltac cl i := eapply (v_clone tau_ex) with (i0 := i); [solve_in|solve_in|cbn].
  Ltac dr i := eapply (v_drop tau_ex) with (i0 := i); [solve_in|solve_in|cbn].

  Lemma ex_variant : variant tau_ex [] [] 0 0 pl pr mask.
  Proof.
    unfold pl, pr, mask.
    mt (fun k : nat => k).
    cl 0%nat.
    mt (fun k : nat => k).
    mt (fun k : nat => match k with 0 => 1 | _ => 2 end)%nat.
    cl 2%nat.
    mt (fun k : nat => 4%nat).
    cl 3%nat.
    dr 3%nat.
    mt (fun k : nat => 6%nat).
    mt (fun k : nat => 1%nat).
    mt (fun k : nat => 3%nat).
    mt (fun k : nat => 2%nat).
    dr 2%nat.
    mt (fun k : nat => match k with 0 => 1 | _ => 2 end)%nat.
    dr 0%nat.
    mt (fun k : nat => 1%nat).
    mt (fun k : nat => 1%nat).
    apply v_nil.
  Qed.

  Example ex_observations : exists os', run Z_ops pr = (os', false) /\ select mask os' = map (otag tau_ex) (fst (run Z_ops pl)).
  Proof.
    destruct (variant_observations Z_ops tau_ex pl pr mask (fst (run Z_ops pl)) ex_variant)
      as (os' & Hr & Hm).
    - vm_compute. reflexivity.
    - exists os'. split; [exact Hr|]. apply obs_match_select. exact Hm.
  Qed.
End TransparencyExample.

Print Assumptions ex_observations.
