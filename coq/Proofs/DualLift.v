(** Dual-number lifting of arrays: the forward operations of the model, run at the scalar
    instance [dual_ops O] on (value, tangent) pairs, compute the value and the tangent of
    the result.  This file provides
    - explicit closed forms of the results of the element-wise / mapped / summed
      operations (for an arbitrary scalar instance, hence also for [dual_ops O]);
    - [lift], [primal], [tangent], [zeros_like], [mask];
    - [is_cring (dual_ops O)];
    - "values are unaffected by lifting" and the closed form of the tangents. *)

From Coq Require Import List Arith Bool Lia PeanoNat Ring_theory Ring.
From Corgi Require Import Lib.OptionMonad Lib.IdxDefs Lib.Idx Model.Scalar Model.Arr
     Model.SlicedOp Model.Elementwise Lib.Sums Proofs.ArrFacts Proofs.BroadcastDims
     Proofs.SpecDefs Proofs.SlicedOpSpec Proofs.EwSpec Proofs.ReduceSpec Proofs.FlattenSpec.
Import ListNotations.

Section Closed.
  Context {F : Type} (O : ScalarOps F).

  Lemma nth_get : forall (a : arr F) I x,
      get a I = Some x -> nth (rowmajor (dims a) I) (vals a) (f0 O) = x.
  Proof. intros a I x H. unfold get in H. rewrite nth_nth_error, H. reflexivity. Qed.

  Definition ew_vals (f : F -> F -> F) (a b : arr F) : list F :=
    let D := bmax (dims a) (dims b) in
    map (fun j => f (nth (bpos D (dims a) j) (vals a) (f0 O))
                    (nth (bpos D (dims b) j) (vals b) (f0 O)))
        (seq 0 (prod D)).

  Definition ew_arr (f : F -> F -> F) (a b : arr F) : arr F :=
    {| dims := bmax (dims a) (dims b); vals := ew_vals f a b |}.

  Lemma ew_vals_length : forall f a b, length (ew_vals f a b) = prod (bmax (dims a) (dims b)).
  Proof. intros. unfold ew_vals. cbv zeta. rewrite map_length, seq_length. reflexivity. Qed.

  Lemma ew_vals_nth : forall f a b j,
      j < prod (bmax (dims a) (dims b)) ->
      nth j (ew_vals f a b) (f0 O)
      = f (nth (bpos (bmax (dims a) (dims b)) (dims a) j) (vals a) (f0 O))
          (nth (bpos (bmax (dims a) (dims b)) (dims b) j) (vals b) (f0 O)).
  Proof. intros f a b j Hj. unfold ew_vals. cbv zeta. rewrite nth_map_seq by exact Hj. reflexivity. Qed.

  Lemma element_wise_op_inv : forall f (a b c : arr F),
      element_wise_op O f a b = Some c ->
      dims a <> [] /\ dims b <> [] /\ bcompat (dims a) (dims b).
  Proof.
    intros f a b c H. unfold element_wise_op in H.
    revert H. apply obind_elim. intros d Hd H.
    revert H. apply obind_elim. intros la Hla H.
    revert H. apply obind_elim. intros lb Hlb _.
    apply element_wise_dimensions_spec in Hd. destruct Hd as [Hc _].
    split; [|split; [|exact Hc]]; intros E; rewrite E in *; discriminate.
  Qed.

  Theorem element_wise_op_closed : forall f (a b : arr F),
      wf a -> wf b -> dims a <> [] -> dims b <> [] -> bcompat (dims a) (dims b) ->
      element_wise_op O f a b = Some (ew_arr f a b).
  Proof.
    intros f a b Hwa Hwb Hna Hnb Hc.
    destruct (element_wise_op_spec O f a b Hwa Hwb Hna Hnb Hc) as (c & Hop & Hwc & Hdc & Hval).
    rewrite Hop. f_equal. pose proof Hwc as [Hpc Hlc]. rewrite Hdc in Hpc, Hlc.
    apply (arr_ext O).
    - exact Hdc.
    - cbn [ew_arr vals]. rewrite ew_vals_length. symmetry. exact Hlc.
    - intros j Hj. rewrite <- Hlc in Hj. cbn [ew_arr vals]. rewrite ew_vals_nth by exact Hj.
      set (D := bmax (dims a) (dims b)) in *.
      assert (HI : in_range (unrank D j) (dims c)) by (rewrite Hdc; apply unrank_lt; exact Hpc).
      destruct (Hval _ HI) as (x & y & Hx & Hy & Hz).
      apply nth_get in Hx. apply nth_get in Hy. apply nth_get in Hz.
      rewrite Hdc, rowmajor_unrank in Hz by assumption.
      rewrite Hz. unfold bpos. rewrite Hx, Hy. reflexivity.
  Qed.

  Corollary element_wise_op_some : forall f (a b c : arr F),
      wf a -> wf b -> element_wise_op O f a b = Some c -> c = ew_arr f a b.
  Proof.
    intros f a b c Hwa Hwb H. destruct (element_wise_op_inv f a b c H) as (Hna & Hnb & Hc).
    rewrite (element_wise_op_closed f a b Hwa Hwb Hna Hnb Hc) in H. congruence.
  Qed.

  Lemma ew_arr_wf : forall f (a b : arr F), wf a -> wf b -> wf (ew_arr f a b).
  Proof.
    intros f a b [Hpa _] [Hpb _]. split; cbn [ew_arr dims vals].
    - apply bmax_pos; assumption.
    - symmetry. apply ew_vals_length.
  Qed.

  (** the entry of [ew_arr] at a multi-index, with the operands' entries it is made of *)
  Lemma ew_arr_get : forall f (a b : arr F) I,
      wf a -> wf b -> bcompat (dims a) (dims b) -> in_range I (bmax (dims a) (dims b)) ->
      let xa := nth (rowmajor (dims a) (bclamp (dims a) I)) (vals a) (f0 O) in
      let xb := nth (rowmajor (dims b) (bclamp (dims b) I)) (vals b) (f0 O) in
      get a (bclamp (dims a) I) = Some xa /\ get b (bclamp (dims b) I) = Some xb /\
      get (ew_arr f a b) I = Some (f xa xb).
  Proof.
    intros f a b I [Hpa Hla] [Hpb Hlb] Hc HI xa xb.
    assert (Ha : in_range (bclamp (dims a) I) (dims a))
      by (apply (bclamp_in_range _ _ _ Hpa (bmax_sub_lead_l _ _ Hc Hpa) HI)).
    assert (Hb : in_range (bclamp (dims b) I) (dims b))
      by (apply (bclamp_in_range _ _ _ Hpb (bmax_sub_lead_r _ _ Hc Hpb) HI)).
    unfold get. split; [apply nth_error_nth'; rewrite <- Hla; apply rowmajor_lt_prod; exact Ha|].
    split; [apply nth_error_nth'; rewrite <- Hlb; apply rowmajor_lt_prod; exact Hb|].
    cbn [ew_arr dims vals]. unfold ew_vals. cbv zeta.
    rewrite nth_error_map_seq by (apply rowmajor_lt_prod; exact HI).
    unfold bpos. rewrite (unrank_rowmajor _ _ HI). reflexivity.
  Qed.

  Lemma sub_rev_bmax : forall x m : list nat,
      Forall (fun v => 1 <= v) m -> length x <= length m ->
      Forall2 (fun u v => u = 1 \/ u = v) x (firstn (length x) m) ->
      bcompat_rev x m /\ bmax_rev x m = m.
  Proof.
    induction x as [|a x IH]; intros [|c m] Hm Hl Hf; simpl in *; try lia; auto.
    inversion Hf as [|? ? ? ? Hac Hf']; subst. inversion Hm as [|? ? Hc Hm']; subst.
    destruct (IH m Hm' ltac:(lia) Hf') as [H1 H2]. split.
    - split; [lia|exact H1].
    - rewrite H2. f_equal. lia.
  Qed.

  Lemma sub_lead_bmax : forall x m,
      Forall (fun v => 1 <= v) m -> sub_lead x m -> bcompat x m /\ bmax x m = m.
  Proof.
    intros x m Hm [Hl Hf]. unfold bcompat, bmax.
    destruct (sub_rev_bmax (rev x) (rev m)) as [H1 H2].
    - apply Forall_rev. exact Hm.
    - rewrite !rev_length. exact Hl.
    - rewrite rev_length, firstn_rev. apply Forall2_rev. exact Hf.
    - split; [exact H1|]. rewrite H2. apply rev_involutive.
  Qed.

  Definition map_result (g : F -> F) (a : arr F) : arr F :=
    {| dims := dims a; vals := map g (vals a) |}.

  Lemma map_arr_closed : forall g (a : arr F), wf a -> map_arr g a = Some (map_result g a).
  Proof. intros. apply map_arr_wf. assumption. Qed.

  Lemma map_arr_some : forall g (a c : arr F), map_arr g a = Some c -> wf a /\ c = map_result g a.
  Proof. intros g a c H. apply map_arr_some_iff in H. exact H. Qed.

  Definition sum_result (k : nat) (a : arr F) : arr F :=
    let lead := firstn (length (dims a) - k) (dims a) in
    let g := prod (lastn k (dims a)) in
    {| dims := lead ++ [1];
       vals := map (fun i => vsum O (block g i (vals a))) (seq 0 (prod lead)) |}.

  Theorem a_sum_closed : forall k (a : arr F),
      wf a -> 1 <= k <= length (dims a) -> a_sum O k a = Some (sum_result k a).
  Proof.
    intros k a Hwa Hk. destruct (a_sum_spec O k a Hwa Hk) as (c & Hc & Hwc & Hdc & Hval).
    cbv zeta in Hdc, Hval. rewrite Hc. f_equal.
    set (lead := firstn (length (dims a) - k) (dims a)) in *.
    pose proof Hwc as [Hpc Hlc]. rewrite Hdc, prod_app in Hlc. cbn [prod fold_right] in Hlc.
    assert (Hlead : Forall (fun x => 1 <= x) lead).
    { rewrite Hdc in Hpc. apply Forall_app in Hpc. apply Hpc. }
    apply (arr_ext O).
    - exact Hdc.
    - unfold sum_result. cbn [vals]. fold lead. rewrite map_length, seq_length. lia.
    - intros i Hi. unfold sum_result. cbn [vals]. fold lead.
      rewrite nth_map_seq by lia. cbn [Nat.add].
      assert (HJ : in_range (unrank lead i) lead) by (apply unrank_lt; exact Hlead).
      specialize (Hval _ HJ). apply nth_get in Hval.
      rewrite Hdc, rowmajor_snoc in Hval by (rewrite unrank_length; reflexivity).
      rewrite rowmajor_unrank in Hval by (try exact Hlead; lia).
      replace (i * 1 + 0) with i in Hval by lia. exact Hval.
  Qed.
End Closed.

Section Lift.
  Context {F : Type} (O : ScalarOps F).

  Definition lift (a t : arr F) : arr (@dual F) :=
    {| dims := dims a; vals := combine (vals a) (vals t) |}.

  Definition primal (A : arr (@dual F)) : arr F := {| dims := dims A; vals := map fst (vals A) |}.
  Definition tangent (A : arr (@dual F)) : arr F := {| dims := dims A; vals := map snd (vals A) |}.

  Definition zeros_like (a : arr F) : arr F :=
    {| dims := dims a; vals := map (fun _ => f0 O) (vals a) |}.

  (** an operand whose flag is off is a constant: zero tangent (stop-gradient) *)
  Definition mask (b : bool) (t : arr F) : arr F := if b then t else zeros_like t.

  Definition tangent_for (c t : arr F) : Prop := wf t /\ dims t = dims c.

  Lemma zeros_like_wf : forall a, wf a -> wf (zeros_like a).
  Proof. intros a. exact (map_wf _ a). Qed.

  Lemma mask_tangent_for : forall b c t, tangent_for c t -> tangent_for c (mask b t).
  Proof.
    intros [|] c t [Hw Hd]; [split; assumption|]. split; [apply zeros_like_wf; exact Hw|exact Hd].
  Qed.

  Lemma zeros_like_nth : forall a j, nth j (vals (zeros_like a)) (f0 O) = f0 O.
  Proof.
    intros a j. cbn [zeros_like vals]. generalize (vals a) as l. intros l. revert j.
    induction l as [|x l IH]; intros [|j]; simpl; try reflexivity. apply IH.
  Qed.

  Lemma tangent_for_length : forall c t, wf c -> tangent_for c t -> length (vals t) = length (vals c).
  Proof. intros c t Hc [Ht Hd]. exact (wf_same_length t c Ht Hc Hd). Qed.

  Lemma map_fst_combine : forall {A B} (x : list A) (y : list B),
      length x = length y -> map fst (combine x y) = x.
  Proof.
    intros A B x. induction x as [|a x IH]; intros [|b y] H; simpl in *; try discriminate;
      [reflexivity|]. f_equal. apply IH. lia.
  Qed.

  Lemma map_snd_combine : forall {A B} (x : list A) (y : list B),
      length x = length y -> map snd (combine x y) = y.
  Proof.
    intros A B x. induction x as [|a x IH]; intros [|b y] H; simpl in *; try discriminate;
      [reflexivity|]. f_equal. apply IH. lia.
  Qed.

  Lemma primal_lift : forall a t, length (vals t) = length (vals a) -> primal (lift a t) = a.
  Proof.
    intros [d v] t H. unfold primal, lift. cbn [dims vals] in *.
    rewrite map_fst_combine by (symmetry; exact H). reflexivity.
  Qed.

  Lemma tangent_lift : forall a t,
      length (vals t) = length (vals a) -> dims t = dims a -> tangent (lift a t) = t.
  Proof.
    intros a [d v] H Hd. unfold tangent, lift. cbn [dims vals] in *.
    rewrite map_snd_combine by (symmetry; exact H). rewrite Hd. reflexivity.
  Qed.

  Lemma lift_length : forall a t,
      length (vals t) = length (vals a) -> length (vals (lift a t)) = length (vals a).
  Proof. intros a t Hl. cbn [lift vals]. unfold dual. rewrite combine_length, Hl. apply Nat.min_id. Qed.

  Lemma lift_wf : forall a t, wf a -> tangent_for a t -> wf (lift a t).
  Proof.
    intros a t Hwa Ht. pose proof (tangent_for_length a t Hwa Ht) as Hl. destruct Hwa as [Hp Hla].
    split; [exact Hp|]. rewrite lift_length by exact Hl. exact Hla.
  Qed.

  Lemma lift_nth : forall a t j,
      length (vals t) = length (vals a) ->
      nth j (vals (lift a t)) (f0 (dual_ops O)) = (nth j (vals a) (f0 O), nth j (vals t) (f0 O)).
  Proof.
    intros a t j H. cbn [lift vals]. change (f0 (dual_ops O)) with (f0 O, f0 O).
    apply combine_nth. symmetry. exact H.
  Qed.

  Lemma primal_nth : forall A j, nth j (vals (primal A)) (f0 O) = fst (nth j (vals A) (f0 (dual_ops O))).
  Proof. intros A j. cbn [primal vals]. change (f0 O) with (fst (f0 (dual_ops O))). apply map_nth. Qed.

  Lemma tangent_nth : forall A j, nth j (vals (tangent A)) (f0 O) = snd (nth j (vals A) (f0 (dual_ops O))).
  Proof. intros A j. cbn [tangent vals]. change (f0 O) with (snd (f0 (dual_ops O))). apply map_nth. Qed.

  Lemma primal_wf : forall A, wf A -> wf (primal A).
  Proof. intros A. exact (map_wf fst A). Qed.

  Lemma tangent_wf : forall A, wf A -> wf (tangent A).
  Proof. intros A. exact (map_wf snd A). Qed.

  (** the dual sum is the pair of sums (no ring law needed) *)
  Lemma fold_fadd_dual : forall (l : list (@dual F)) acc,
      fold_left (fadd (dual_ops O)) l acc
      = (fold_left (fadd O) (map fst l) (fst acc), fold_left (fadd O) (map snd l) (snd acc)).
  Proof.
    induction l as [|x l IH]; intros acc; cbn [fold_left map]; [destruct acc; reflexivity|].
    rewrite IH. reflexivity.
  Qed.

  Lemma vsum_dual : forall l : list (@dual F),
      vsum (dual_ops O) l = (vsum O (map fst l), vsum O (map snd l)).
  Proof. intros l. unfold vsum. apply fold_fadd_dual. Qed.
End Lift.

Section DualRing.
  Context {F : Type} (O : ScalarOps F) (R : is_cring O).

  Let Rth : ring_theory (f0 O) (f1 O) (fadd O) (fmul O) (fsub O) (fneg O) (@eq F) := R.
  Add Ring cring_dual_base : Rth.

  Theorem dual_is_cring : is_cring (dual_ops O).
  Proof.
    unfold is_cring. constructor; cbn [dual_ops f0 f1 fadd fmul fsub fneg];
      repeat intros [? ?]; cbn [fst snd]; f_equal; ring.
  Qed.
End DualRing.

Section LiftedForward.
  Context {F : Type} (O : ScalarOps F).
  Local Notation D2 := (dual_ops O).

  Lemma ew_lifted : forall (fD : @dual F -> @dual F -> @dual F) (a ta b tb : arr F) RD,
      wf a -> wf b -> tangent_for a ta -> tangent_for b tb ->
      element_wise_op D2 fD (lift a ta) (lift b tb) = Some RD ->
      let D := bmax (dims a) (dims b) in
      dims a <> [] /\ dims b <> [] /\ bcompat (dims a) (dims b) /\
      wf RD /\ dims RD = D /\
      forall j, j < prod D ->
        nth j (vals RD) (f0 D2)
        = fD (nth (bpos D (dims a) j) (vals a) (f0 O), nth (bpos D (dims a) j) (vals ta) (f0 O))
             (nth (bpos D (dims b) j) (vals b) (f0 O), nth (bpos D (dims b) j) (vals tb) (f0 O)).
  Proof.
    intros fD a ta b tb RD Hwa Hwb Hta Htb H D.
    pose proof (lift_wf a ta Hwa Hta) as HwA. pose proof (lift_wf b tb Hwb Htb) as HwB.
    destruct (element_wise_op_inv D2 fD _ _ _ H) as (Hna & Hnb & Hc).
    apply (element_wise_op_some D2 fD _ _ _ HwA HwB) in H. subst RD.
    cbn [lift dims] in Hna, Hnb, Hc.
    split; [exact Hna|]. split; [exact Hnb|]. split; [exact Hc|].
    split; [apply ew_arr_wf; assumption|]. split; [reflexivity|].
    intros j Hj. cbn [ew_arr vals]. rewrite ew_vals_nth by exact Hj.
    rewrite !lift_nth by (apply tangent_for_length; assumption). reflexivity.
  Qed.

  Lemma ew_lifted_primal : forall (f : F -> F -> F) (fD : @dual F -> @dual F -> @dual F)
                                  (a ta b tb : arr F) RD,
      (forall X Y, fst (fD X Y) = f (fst X) (fst Y)) ->
      wf a -> wf b -> tangent_for a ta -> tangent_for b tb ->
      element_wise_op D2 fD (lift a ta) (lift b tb) = Some RD ->
      element_wise_op O f a b = Some (primal RD).
  Proof.
    intros f fD a ta b tb RD Hf Hwa Hwb Hta Htb H.
    destruct (ew_lifted fD a ta b tb RD Hwa Hwb Hta Htb H) as (Hna & Hnb & Hc & HwR & HdR & Hval).
    rewrite (element_wise_op_closed O f a b Hwa Hwb Hna Hnb Hc). f_equal.
    pose proof HwR as [_ HlR]. rewrite HdR in HlR.
    apply (arr_ext O).
    - cbn [ew_arr primal dims]. symmetry. exact HdR.
    - cbn [ew_arr primal vals]. rewrite ew_vals_length, map_length. exact HlR.
    - intros j Hj. cbn [ew_arr vals] in Hj. rewrite ew_vals_length in Hj.
      rewrite primal_nth, (Hval j Hj), Hf. cbn [ew_arr vals fst].
      rewrite ew_vals_nth by exact Hj. reflexivity.
  Qed.

  Corollary a_add_lifted_primal : forall a ta b tb RD,
      wf a -> wf b -> tangent_for a ta -> tangent_for b tb ->
      a_add D2 (lift a ta) (lift b tb) = Some RD -> a_add O a b = Some (primal RD).
  Proof. intros a ta b tb RD. apply ew_lifted_primal. reflexivity. Qed.

  Corollary a_mul_lifted_primal : forall a ta b tb RD,
      wf a -> wf b -> tangent_for a ta -> tangent_for b tb ->
      a_mul D2 (lift a ta) (lift b tb) = Some RD -> a_mul O a b = Some (primal RD).
  Proof. intros a ta b tb RD. apply ew_lifted_primal. reflexivity. Qed.

  Corollary a_div_lifted_primal : forall a ta b tb RD,
      wf a -> wf b -> tangent_for a ta -> tangent_for b tb ->
      a_div D2 (lift a ta) (lift b tb) = Some RD -> a_div O a b = Some (primal RD).
  Proof. intros a ta b tb RD. apply ew_lifted_primal. reflexivity. Qed.

  Corollary a_add_lifted_tangent : forall a ta b tb RD,
      wf a -> wf b -> tangent_for a ta -> tangent_for b tb ->
      a_add D2 (lift a ta) (lift b tb) = Some RD ->
      let D := bmax (dims a) (dims b) in
      forall j, j < prod D ->
        nth j (vals (tangent RD)) (f0 O)
        = fadd O (nth (bpos D (dims a) j) (vals ta) (f0 O)) (nth (bpos D (dims b) j) (vals tb) (f0 O)).
  Proof.
    intros a ta b tb RD Hwa Hwb Hta Htb H D j Hj.
    destruct (ew_lifted _ a ta b tb RD Hwa Hwb Hta Htb H) as (_ & _ & _ & _ & _ & Hval).
    rewrite tangent_nth, (Hval j Hj). reflexivity.
  Qed.

  Corollary a_mul_lifted_tangent : forall a ta b tb RD,
      wf a -> wf b -> tangent_for a ta -> tangent_for b tb ->
      a_mul D2 (lift a ta) (lift b tb) = Some RD ->
      let D := bmax (dims a) (dims b) in
      forall j, j < prod D ->
        nth j (vals (tangent RD)) (f0 O)
        = fadd O (fmul O (nth (bpos D (dims a) j) (vals a) (f0 O))
                         (nth (bpos D (dims b) j) (vals tb) (f0 O)))
                 (fmul O (nth (bpos D (dims a) j) (vals ta) (f0 O))
                         (nth (bpos D (dims b) j) (vals b) (f0 O))).
  Proof.
    intros a ta b tb RD Hwa Hwb Hta Htb H D j Hj.
    destruct (ew_lifted _ a ta b tb RD Hwa Hwb Hta Htb H) as (_ & _ & _ & _ & _ & Hval).
    rewrite tangent_nth, (Hval j Hj). reflexivity.
  Qed.

  Lemma map_lifted : forall (gD : @dual F -> @dual F) (a t : arr F) RD,
      wf a -> tangent_for a t ->
      map_arr gD (lift a t) = Some RD ->
      wf RD /\ dims RD = dims a /\ length (vals RD) = length (vals a) /\
      forall j, j < length (vals a) ->
        nth j (vals RD) (f0 D2) = gD (nth j (vals a) (f0 O), nth j (vals t) (f0 O)).
  Proof.
    intros gD a t RD Hwa Ht H. apply map_arr_some in H. destruct H as [HwA ->].
    pose proof (tangent_for_length a t Hwa Ht) as Hl.
    pose proof (lift_length a t Hl) as Hlen.
    split; [apply map_arr_result_wf; exact HwA|]. split; [reflexivity|].
    split; [cbn [map_result vals]; rewrite map_length; exact Hlen|].
    intros j Hj. cbn [map_result vals].
    rewrite (nth_indep _ (f0 D2) (gD (f0 D2))) by (rewrite map_length, Hlen; exact Hj).
    rewrite map_nth, lift_nth by exact Hl. reflexivity.
  Qed.

  Lemma map_lifted_primal : forall (g : F -> F) (gD : @dual F -> @dual F) (a t : arr F) RD,
      (forall X, fst (gD X) = g (fst X)) ->
      wf a -> tangent_for a t ->
      map_arr gD (lift a t) = Some RD -> map_arr g a = Some (primal RD).
  Proof.
    intros g gD a t RD Hg Hwa Ht H.
    destruct (map_lifted gD a t RD Hwa Ht H) as (HwR & HdR & HlR & Hval).
    rewrite (map_arr_closed g a Hwa). f_equal. apply (arr_ext O).
    - cbn [map_result primal dims]. symmetry. exact HdR.
    - cbn [map_result primal vals]. rewrite !map_length. symmetry. exact HlR.
    - intros j Hj. cbn [map_result vals] in Hj. rewrite map_length in Hj.
      rewrite primal_nth, (Hval j Hj), Hg. cbn [map_result vals fst].
      rewrite (nth_indep _ (f0 O) (g (f0 O))) by (rewrite map_length; exact Hj).
      apply map_nth.
  Qed.

  Lemma reshape_lifted : forall d (a t : arr F) RD,
      wf a -> tangent_for a t ->
      a_reshape d (lift a t) = Some RD ->
      a_reshape d a = Some (primal RD) /\
      primal RD = {| dims := d; vals := vals a |} /\ tangent RD = {| dims := d; vals := vals t |}.
  Proof.
    intros d a t RD Hwa Ht H. pose proof (tangent_for_length a t Hwa Ht) as Hl.
    apply a_reshape_spec in H. destruct H as (Hd & Hp & ->).
    pose proof (lift_length a t Hl) as Hlen.
    unfold primal, tangent. cbn [dims vals lift].
    rewrite map_fst_combine, map_snd_combine by (symmetry; exact Hl).
    split; [|split; reflexivity]. apply a_reshape_spec. rewrite <- Hlen. auto.
  Qed.

  Lemma sum_lifted : forall k (a t : arr F) RD,
      wf a -> tangent_for a t -> 1 <= k <= length (dims a) ->
      a_sum D2 k (lift a t) = Some RD ->
      primal RD = sum_result O k a /\ tangent RD = sum_result O k t /\
      a_sum O k a = Some (primal RD).
  Proof.
    intros k a t RD Hwa Ht Hk H. pose proof (tangent_for_length a t Hwa Ht) as Hl.
    rewrite (a_sum_closed D2 k (lift a t) (lift_wf a t Hwa Ht) Hk) in H.
    inversion H; subst RD. clear H.
    assert (Hp : primal (sum_result D2 k (lift a t)) = sum_result O k a).
    { unfold primal, sum_result. cbn [lift dims vals]. f_equal.
      rewrite map_map. apply map_ext. intros i. rewrite vsum_dual. cbn [fst].
      rewrite <- block_map, map_fst_combine by (symmetry; exact Hl). reflexivity. }
    split; [exact Hp|]. split.
    - destruct Ht as [_ Hdt]. unfold tangent, sum_result. cbn [lift dims vals]. rewrite Hdt.
      f_equal. rewrite map_map. apply map_ext. intros i. rewrite vsum_dual. cbn [snd].
      rewrite <- block_map, map_snd_combine by (symmetry; exact Hl). reflexivity.
    - rewrite Hp. apply a_sum_closed; assumption.
  Qed.
End LiftedForward.

Print Assumptions dual_is_cring.
Print Assumptions ew_lifted_primal.
Print Assumptions sum_lifted.
