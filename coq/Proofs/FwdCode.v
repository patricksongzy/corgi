(** Definitions for the end-to-end statement of C01 on the concrete engine:
    - [fwd_of_code]: the forward operation a derivative closure belongs to, generic in the
      scalar instance (so that it can be run on dual numbers);
    - [value_consistent]: every operation node holds the forward result of its closure's
      operation on its children's values (and the data captured by the closure fits);
    - [tan]: the forward (dual-number) tangent of every node, given tangents of the leaves;
      untracked child entries are constants (stop-gradient). *)

From Coq Require Import List Arith Bool Lia PeanoNat ZArith.
From Corgi Require Import Lib.OptionMonad Model.Scalar Model.Arr Model.SlicedOp
     Model.Elementwise Model.Linalg Model.Image Model.Ops Model.Engine Model.Program
     Proofs.ArrFacts Proofs.FlattenSpec Proofs.DualLift Proofs.LocalAdjoint.
Import ListNotations.

Section FwdCode.
  Context {F : Type}.

  Definition dimb (d : list nat) (back : nat) : nat :=
    match dim_back d back with Some x => x | None => 0 end.

  (** [inj] embeds the scalar constants captured by a closure into the instance [G]
      (the identity for [O], [fun s => (s, 0)] for the dual numbers); [d] are the
      dimensions of the result (needed by reshape and expand) *)
  Definition fwd_of_code {G : Type} (OG : ScalarOps G) (inj : F -> G) (code : bop_code F)
             (d : list nat) (cs : list (arr G)) : option (arr G) :=
    match code, cs with
    | BAdd, [a; b] => a_add OG a b
    | BMul, [a; b] => a_mul OG a b
    | BDiv, [a; b] => a_div OG a b
    | BNeg, [a] => a_neg OG a
    | BScale s, [a] => a_scale OG (inj s) a
    | BRecip, [a] => a_reciprocal OG a
    | BPowf e, [a] => a_powf OG (inj e) a
    | BLn, [a] => a_ln OG a
    | BExp _, [a] => a_exp OG a
    | BSum k _, [a] => a_sum OG k a
    | BReshape, [a] => a_reshape d a
    | BMatmul ta tb, [a; b; c] => a_matmul OG a ta b tb (Some c)
    | BUnroll _ _ _ sr sc fr fc, [a] => unroll_blocks OG a sr sc fr fc
    | BExpand _ _, [a] => expand_conv OG a (dimb d 2) (dimb d 1)
    | BRelu, [a] => a_relu OG a
    | BSigmoid _, [a] => a_sigmoid OG a
    | BCustom c, _ => custom_forward OG c cs
    | _, _ => None
    end.

  (** the data captured by the closure fits the operands [cs] and the result [v] *)
  Definition code_fits (code : bop_code F) (cs : list (arr F)) (v : arr F) : Prop :=
    match code with
    | BExp cached => cached = vals v
    | BSigmoid cached => cached = vals v
    | BSum k target => k <> 0 /\ target = sum_target (dims (nth 0 cs dummy_arr)) k
    | BUnroll depth rows cols _ _ _ _ =>
      let d := dims (nth 0 cs dummy_arr) in
      dim_back d 3 = Some depth /\ dim_back d 2 = Some rows /\ dim_back d 1 = Some cols
    | BExpand fcount stride =>
      dim_back (dims (nth 0 cs dummy_arr)) 1 = Some fcount /\
      stride = dimb (dims v) 2 * dimb (dims v) 1
    | _ => True
    end.
End FwdCode.

Section Consistency.
  Context {F : Type} (O : ScalarOps F).

  Local Notation gnode := (@gnode F).
  Local Notation D2 := (dual_ops O).

  Definition inj2 (s : F) : @dual F := (s, f0 O).

  (** the value of node [id] ([dummy_arr] if there is no such node) *)
  Definition nval (g : list gnode) (id : nat) : arr F :=
    match nth_error g id with Some nd => pay_arr (n_pay nd) | None => dummy_arr end.

  Definition cvals (g : list gnode) (es : list entry) : list (arr F) :=
    map (fun e => nval g (e_node e)) es.

  (** [matmul] without additive term records a fresh [zeros1] node as third child *)
  Definition matmul_nobias (code : bop_code F) (cs : list (arr F)) (v : arr F) : Prop :=
    match code, cs with
    | BMatmul ta tb, [a; b; c] => c = zeros1 O /\ a_matmul O a ta b tb None = Some v
    | _, _ => False
    end.

  Definition node_vc (g : list gnode) (nd : gnode) : Prop :=
    match p_bop (n_pay nd) with
    | None => True
    | Some code =>
      let cs := cvals g (n_children nd) in
      let v := pay_arr (n_pay nd) in
      code_fits code cs v /\
      (fwd_of_code O (fun s => s) code (dims v) cs = Some v \/ matmul_nobias code cs v)
    end.

  Definition value_consistent (g : list gnode) : Prop :=
    forall id nd, nth_error g id = Some nd -> node_vc g nd.

  (** the tangent of one node, given the tangents [prev] of the nodes before it *)
  Definition node_tan (g : list gnode) (lt : nat -> arr F) (prev : list (arr F)) (id : nat)
    : arr F :=
    match nth_error g id with
    | None => dummy_arr
    | Some nd =>
      match p_bop (n_pay nd) with
      | None => lt id
      | Some code =>
        let es := n_children nd in
        let ts := map (fun e => nth (e_node e) prev dummy_arr) es in
        match fwd_of_code D2 inj2 code (p_dims (n_pay nd))
                          (lift_children O 0 (map e_tracked es) (cvals g es) ts) with
        | Some RD => tangent RD
        | None => zeros_like O (pay_arr (n_pay nd))
        end
      end
    end.

  (** tangents of the nodes [0 .. n-1] *)
  Fixpoint tans (g : list gnode) (lt : nat -> arr F) (n : nat) : list (arr F) :=
    match n with
    | 0 => []
    | S k => let prev := tans g lt k in prev ++ [node_tan g lt prev k]
    end.

  Definition tan (g : list gnode) (lt : nat -> arr F) (n : nat) : arr F :=
    nth n (tans g lt (S n)) dummy_arr.

  Definition is_leaf (g : list gnode) (m : nat) : bool :=
    match nth_error g m with
    | Some nd => match p_bop (n_pay nd) with Some _ => false | None => true end
    | None => true
    end.

  Definition grad_at (g : list gnode) (m : nat) : option (arr F) :=
    match nth_error g m with Some nd => n_grad nd | None => None end.

  (** right-hand side of C01: the stored leaf gradients paired with the leaf tangents *)
  Definition leaf_pairing (g g' : list gnode) (lt : nat -> arr F) (r : nat) : F :=
    vsum O (map (fun l => match grad_at g' l with
                          | Some gl => dot O (vals gl) (vals (lt l))
                          | None => f0 O
                          end)
                (filter (is_leaf g) (seq 0 (S r)))).
End Consistency.

(** * Sanity check over the integers: the diamond x*x + x with broadcasting, then more *)

Module Sanity.
  Definition mkZ (d : list nat) (v : list Z) : arr Z := {| dims := d; vals := v |}.

  Fixpoint run_states (s : @state Z) (p : list (@instr Z)) : option (@state Z) :=
    match p with
    | [] => Some s
    | i :: p' => match step Z_ops s i with Some (s', _) => run_states s' p' | None => None end
    end.

  (* v0 = x [2;1;3], v1 = b [2;1] (broadcast), v2 = x*x, v3 = v2 + x, v4 = v3 * b, v5 = -v4,
     v6 = sum_1 v5, v7 = v6 + v3 (shape [2;1;3] + [2;1;1]) *)
  Definition prog : list (@instr Z) :=
    [ ILeaf [2;1;3] [2;-3;5;7;-11;13]%Z true;
      ILeaf [2;1] [3;-4]%Z true;
      IOp OMul [0;0];
      IOp OAdd [2;0];
      IOp OMul [3;1];
      IOp ONeg [4];
      IOp (OSum 1) [5];
      IOp OAdd [6;3] ].

  Definition st := run_states (init_state Z_ops) prog.

  Definition lt0 (l : nat) : arr Z :=
    match l with
    | 0 => mkZ [2;1;3] [1;4;-2;3;-5;6]%Z
    | _ => mkZ [2;1] [-7;2]%Z
    end.

  Definition seed3 := mkZ [2;1;3] [1;-2;3;4;5;-6]%Z.
  Definition seed7 := mkZ [2;2;3] [1;-2;3;4;5;-6;7;8;-9;10;-11;12]%Z.

  Definition chk (r : nat) (seed : arr Z) : option (Z * Z) :=
    s <- st ;;
    let g := st_nodes s in
    res <- run_backward (Program.E Z_ops) g r true (Some seed) ;;
    Some (dot Z_ops (vals seed) (vals (tan Z_ops g lt0 r)),
          leaf_pairing Z_ops g (fst res) lt0 r).

  Definition ok (x : option (Z * Z)) : bool :=
    match x with Some (a, b) => Z.eqb a b | None => false end.

  Example diamond_ok : ok (chk 3 seed3) = true.
  Proof. vm_compute. reflexivity. Qed.
  Example deep_ok : ok (chk 7 seed7) = true.
  Proof. vm_compute. reflexivity. Qed.
  Example sum_ok : ok (chk 6 (mkZ [2;2;1] [3;-4;5;7]%Z)) = true.
  Proof. vm_compute. reflexivity. Qed.
  (* the same graph with the second leaf untracked: its entries are constants *)
  Definition prog' : list (@instr Z) :=
    ILeaf [2;1;3] [2;-3;5;7;-11;13]%Z true :: ILeaf [2;1] [3;-4]%Z false :: skipn 2 prog.
  Definition chk' (r : nat) (seed : arr Z) : option (Z * Z) :=
    s <- run_states (init_state Z_ops) prog' ;;
    let g := st_nodes s in
    res <- run_backward (Program.E Z_ops) g r true (Some seed) ;;
    Some (dot Z_ops (vals seed) (vals (tan Z_ops g lt0 r)),
          leaf_pairing Z_ops g (fst res) lt0 r).
  Example stopgrad_ok : ok (chk' 7 seed7) = true.
  Proof. vm_compute. reflexivity. Qed.
  Eval vm_compute in (chk' 7 seed7).
  Eval vm_compute in (chk 3 seed3, chk 7 seed7, chk 6 (mkZ [2;2;1] [3;-4;5;7]%Z)).
End Sanity.
