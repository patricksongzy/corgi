(** Ownership (C18): who holds a value buffer.

    In the model ownership is REACHABILITY: a buffer is held by the live handles (roots),
    by the child entries of the nodes reachable from the roots, and by the closure of a
    reachable sigmoid node.  Gradients and pending deltas are plain array values, not
    nodes, so they can never hold a node or a buffer. *)

From Coq Require Import List Arith Bool Lia PeanoNat Permutation.
From Corgi Require Import Lib.OptionMonad Model.Scalar Model.Arr Model.Ops Model.Engine
     Proofs.EngineDefs Proofs.EngineBase Proofs.Propagate Proofs.EngineInv Proofs.SweepFacts
     Proofs.PassTheorems.
From Corgi Require Import Model.Program Proofs.OptimSpec Proofs.StepView Proofs.ProgramFacts.
Import ListNotations.

Lemma mem_In : forall (j : nat) (l : list nat), existsb (Nat.eqb j) l = true <-> In j l.
Proof.
  intros j l. rewrite existsb_exists. split.
  - intros (x & Hx & He). apply Nat.eqb_eq in He. subst x. exact Hx.
  - intro H. exists j. split; [exact H | apply Nat.eqb_refl].
Qed.

Lemma mem_false : forall (j : nat) (l : list nat), existsb (Nat.eqb j) l = false <-> ~ In j l.
Proof.
  intros j l. rewrite <- mem_In. destruct (existsb (Nat.eqb j) l); split; intro H.
  - discriminate H.
  - exfalso. apply H. reflexivity.
  - intro H'. discriminate H'.
  - reflexivity.
Qed.

Lemma firstn_app_len : forall {A} (a b : list A), firstn (length a) (a ++ b) = a.
Proof. intros A a b. induction a as [|x a IH]; simpl; [reflexivity | rewrite IH; reflexivity]. Qed.

Lemma skipn_S_app_len : forall {A} (a b : list A) x, skipn (S (length a)) (a ++ x :: b) = b.
Proof. intros A a b x. induction a as [|y a IH]; simpl; [reflexivity | exact IH]. Qed.

Section Ownership.
  Context {F : Type} (O : ScalarOps F).

  Notation gnode := (@gnode F).
  Notation state := (@state F).
  Notation handle := Program.handle.

  (** * (O1) holders form a DAG; [reach] computes the closure of the roots *)

  (** child ids of a node, as [reach] reads them *)
  Definition kids (g : list gnode) (n : nat) : list nat :=
    match nth_error g n with
    | Some nd => map e_node (n_children nd)
    | None => []
    end.

  (** reachability through child entries, whatever their flags *)
  Inductive creach (g : list gnode) (a : nat) : nat -> Prop :=
  | cr_refl : creach g a a
  | cr_step : forall m c, creach g a m -> In c (kids g m) -> creach g a c.

  Lemma creach_step_entry : forall g a m nd e,
      creach g a m -> nth_error g m = Some nd -> In e (n_children nd) -> creach g a (e_node e).
  Proof.
    intros g a m nd e Hr Hn Hin. apply (cr_step g a m (e_node e) Hr).
    unfold kids. rewrite Hn. apply in_map. exact Hin.
  Qed.

  Lemma creach_trans : forall g a m x, creach g a m -> creach g m x -> creach g a x.
  Proof.
    intros g a m x Ham Hmx. induction Hmx as [|k c Hk IH Hin].
    - exact Ham.
    - eapply cr_step; eassumption.
  Qed.

  (** children have smaller ids (the first half of [wfg]) *)
  Definition topo (g : list gnode) : Prop := forall n c, In c (kids g n) -> c < n.

  Lemma wfg_topo : forall g : list gnode, wfg (E O) g -> topo g.
  Proof.
    intros g Hwf n c Hin. unfold kids in Hin.
    destruct (nth_error g n) as [nd|] eqn:Hn; [| destruct Hin].
    apply in_map_iff in Hin. destruct Hin as (e & He & Hin). subst c.
    destruct (Hwf n nd Hn) as (Hlt & _). apply Hlt. exact Hin.
  Qed.

  (** no cycles: a holder only reaches smaller ids *)
  Lemma creach_le : forall g a m, topo g -> creach g a m -> m <= a.
  Proof.
    intros g a m Ht H. induction H as [|k c Hk IH Hin].
    - lia.
    - specialize (Ht k c Hin). lia.
  Qed.

  Lemma creach_lt : forall g a m, topo g -> creach g a m -> a <> m -> m < a.
  Proof. intros g a m Ht H Hne. apply (creach_le g a m Ht) in H. lia. Qed.

  Lemma creach_antisym : forall g a m, topo g -> creach g a m -> creach g m a -> a = m.
  Proof.
    intros g a m Ht H1 H2. apply (creach_le g a m Ht) in H1. apply (creach_le g m a Ht) in H2. lia.
  Qed.

  Lemma creach_leaf : forall g a x, kids g a = [] -> creach g a x -> x = a.
  Proof.
    intros g a x Hk H. induction H as [|m c Hm IH Hin].
    - reflexivity.
    - subst m. rewrite Hk in Hin. destruct Hin.
  Qed.

  Definition klen (g : list gnode) (n : nat) : nat := length (kids g n).

  Definition edges (g : list gnode) : nat :=
    fold_right (fun nd acc => length (n_children nd) + acc) 0 g.

  (** child entries of the nodes not yet seen *)
  Definition ue (g : list gnode) (seen : list nat) : nat :=
    wsum (length g) (fun n => if existsb (Nat.eqb n) seen then 0 else klen g n).

  Lemma edges_app : forall g nd, edges (g ++ [nd]) = edges g + length (n_children nd).
  Proof.
    intros g nd. unfold edges. induction g as [|x g IH]; simpl.
    - lia.
    - rewrite IH. lia.
  Qed.

  Lemma klen_app_old : forall g extra n, n < length g -> klen (g ++ extra) n = klen g n.
  Proof.
    intros g extra n Hn. unfold klen, kids. rewrite nth_error_app1 by exact Hn. reflexivity.
  Qed.

  Lemma edges_wsum : forall g, edges g = wsum (length g) (klen g).
  Proof.
    intro g. induction g as [|nd g IH] using rev_ind.
    - reflexivity.
    - rewrite edges_app, app_length. simpl length. rewrite Nat.add_1_r. simpl wsum.
      rewrite IH. f_equal.
      + apply wsum_ext. intros n Hn. symmetry. apply klen_app_old. exact Hn.
      + unfold klen, kids. rewrite nth_error_app2 by lia. rewrite Nat.sub_diag. simpl.
        rewrite map_length. reflexivity.
  Qed.

  Lemma ue_nil : forall g, ue g [] = edges g.
  Proof. intro g. unfold ue. simpl. symmetry. apply edges_wsum. Qed.

  Lemma ue_visit : forall g seen id,
      ~ In id seen -> ue g (id :: seen) + klen g id = ue g seen.
  Proof.
    intros g seen id Hnot. unfold ue.
    destruct (lt_dec id (length g)) as [Hlt|Hge].
    - rewrite (wsum_split (length g) (fun n => if existsb (Nat.eqb n) seen then 0 else klen g n)
                          id Hlt).
      apply mem_false in Hnot. rewrite Hnot.
      rewrite Nat.add_comm. f_equal. apply wsum_ext. intros n Hn. simpl.
      destruct (n =? id) eqn:Hni; reflexivity.
    - assert (Hk : klen g id = 0).
      { unfold klen, kids. destruct (nth_error g id) as [nd|] eqn:Hn; [| reflexivity].
        exfalso. apply Hge. eapply nth_lt. exact Hn. }
      rewrite Hk, Nat.add_0_r. apply wsum_ext. intros n Hn. simpl.
      destruct (n =? id) eqn:Hni; [apply Nat.eqb_eq in Hni; lia | reflexivity].
  Qed.

  Lemma reach_S : forall fuel (g : list gnode) id rest seen,
      reach (S fuel) g (id :: rest) seen =
      if existsb (Nat.eqb id) seen then reach fuel g rest seen
      else reach fuel g (kids g id ++ rest) (id :: seen).
  Proof. reflexivity. Qed.

  Lemma reach_nil : forall fuel (g : list gnode) seen, reach fuel g [] seen = seen.
  Proof. intros fuel g seen. destruct fuel; reflexivity. Qed.

  (** every child of a seen node is seen or still to do *)
  Definition winv (g : list gnode) (todo seen : list nat) : Prop :=
    forall n c, In n seen -> In c (kids g n) -> In c seen \/ In c todo.

  Definition closed (g : list gnode) (R : list nat) : Prop :=
    forall n c, In n R -> In c (kids g n) -> In c R.

  Lemma reach_correct : forall fuel (g : list gnode) todo seen,
      length todo + ue g seen <= fuel -> NoDup seen -> winv g todo seen ->
      NoDup (reach fuel g todo seen) /\
      (forall x, In x seen \/ In x todo -> In x (reach fuel g todo seen)) /\
      closed g (reach fuel g todo seen) /\
      (forall x, In x (reach fuel g todo seen) ->
                 In x seen \/ exists t, In t todo /\ creach g t x).
  Proof.
    induction fuel as [|fuel IH]; intros g todo seen Hfuel Hnd Hinv.
    - destruct todo as [|id rest]; [| simpl in Hfuel; lia]. simpl.
      split; [exact Hnd |]. split; [intros x [Hx|[]]; exact Hx |].
      split.
      + intros n c Hn Hc. destruct (Hinv n c Hn Hc) as [H|[]]. exact H.
      + intros x Hx. left. exact Hx.
    - destruct todo as [|id rest].
      + simpl. split; [exact Hnd |]. split; [intros x [Hx|[]]; exact Hx |].
        split.
        * intros n c Hn Hc. destruct (Hinv n c Hn Hc) as [H|[]]. exact H.
        * intros x Hx. left. exact Hx.
      + rewrite reach_S. destruct (existsb (Nat.eqb id) seen) eqn:Hmem.
        * apply mem_In in Hmem.
          destruct (IH g rest seen) as (R1 & R2 & R3 & R4).
          -- simpl in Hfuel. lia.
          -- exact Hnd.
          -- intros n c Hn Hc. destruct (Hinv n c Hn Hc) as [H|[H|H]].
             ++ left. exact H.
             ++ subst c. left. exact Hmem.
             ++ right. exact H.
          -- split; [exact R1 |]. split.
             ++ intros x [Hx|[Hx|Hx]].
                ** apply R2. left. exact Hx.
                ** subst x. apply R2. left. exact Hmem.
                ** apply R2. right. exact Hx.
             ++ split; [exact R3 |]. intros x Hx. destruct (R4 x Hx) as [H|(t & Ht & Hc)].
                ** left. exact H.
                ** right. exists t. split; [right; exact Ht | exact Hc].
        * apply mem_false in Hmem.
          destruct (IH g (kids g id ++ rest) (id :: seen)) as (R1 & R2 & R3 & R4).
          -- pose proof (ue_visit g seen id Hmem) as Hue. unfold klen in Hue.
             rewrite app_length. simpl in Hfuel. lia.
          -- constructor; assumption.
          -- intros n c [Hn|Hn] Hc.
             ++ subst n. right. apply in_or_app. left. exact Hc.
             ++ destruct (Hinv n c Hn Hc) as [H|[H|H]].
                ** left. right. exact H.
                ** subst c. left. left. reflexivity.
                ** right. apply in_or_app. right. exact H.
          -- split; [exact R1 |]. split.
             ++ intros x [Hx|[Hx|Hx]].
                ** apply R2. left. right. exact Hx.
                ** subst x. apply R2. left. left. reflexivity.
                ** apply R2. right. apply in_or_app. right. exact Hx.
             ++ split; [exact R3 |]. intros x Hx.
                destruct (R4 x Hx) as [[H|H]|(t & Ht & Hc)].
                ** subst x. right. exists id. split; [left; reflexivity | apply cr_refl].
                ** left. exact H.
                ** apply in_app_or in Ht. destruct Ht as [Ht|Ht].
                   --- right. exists id. split; [left; reflexivity |].
                       eapply creach_trans; [| exact Hc].
                       eapply cr_step; [apply cr_refl | exact Ht].
                   --- right. exists t. split; [right; exact Ht | exact Hc].
  Qed.

  (** the live nodes of a root list, with the fuel used by [strong_count] *)
  Definition live (g : list gnode) (rs : list handle) : list nat :=
    reach (S (length g + edges g + length rs)) g (map e_node rs) [].

  (** (O1) [reach] returns exactly the closure of the roots, without repetition *)
  Theorem live_spec : forall g rs,
      NoDup (live g rs) /\
      forall x, In x (live g rs) <-> exists h, In h rs /\ creach g (e_node h) x.
  Proof.
    intros g rs. unfold live.
    destruct (reach_correct (S (length g + edges g + length rs)) g (map e_node rs) [])
      as (R1 & R2 & R3 & R4).
    - rewrite map_length, ue_nil. unfold Program.handle, Program.gnode in *. lia.
    - constructor.
    - intros n c [].
    - split; [exact R1 |]. intro x. split.
      + intro Hx. destruct (R4 x Hx) as [[]|(t & Ht & Hc)].
        apply in_map_iff in Ht. destruct Ht as (h & Hh & Hin). subst t. exists h. tauto.
      + intros (h & Hh & Hc).
        assert (Hroot : In (e_node h) (reach (S (length g + edges g + length rs)) g
                                             (map e_node rs) [])).
        { apply R2. right. apply in_map. exact Hh. }
        induction Hc as [|m c Hm IHc Hin]; [exact Hroot |].
        apply (R3 m c IHc Hin).
  Qed.

  Definition is_sig (p : @pay F) : bool :=
    match p_bop p with Some (BSigmoid _) => true | _ => false end.

  (** what node [n] itself holds of buffer [b]: its child entries, and its own result
      buffer when it is a sigmoid node *)
  Definition holds (g : list gnode) (b n : nat) : nat :=
    match nth_error g n with
    | Some nd =>
      count_if (fun e => buf_of g (e_node e) =? b) (n_children nd)
      + (match p_bop (n_pay nd) with
         | Some (BSigmoid _) => if p_buf (n_pay nd) =? b then 1 else 0
         | _ => 0
         end)
    | None => 0
    end.

  Definition held (g : list gnode) (l : list nat) (b : nat) : nat :=
    fold_right (fun id acc => holds g b id + acc) 0 l.

  Definition sc (g : list gnode) (rs : list handle) (b : nat) : nat :=
    count_if (fun h => buf_of g (e_node h) =? b) rs + held g (live g rs) b.

  Lemma strong_count_sc : forall (s : state) b,
      strong_count s b = sc (st_nodes s) (roots s) b.
  Proof.
    intros s b. unfold strong_count, sc, held, live, edges. f_equal.
    apply fold_right_ext. intros id acc. unfold holds.
    destruct (nth_error (st_nodes s) id); reflexivity.
  Qed.

  Lemma strong_count_roots_only : forall (s s' : state) b,
      st_nodes s = st_nodes s' -> roots s = roots s' -> strong_count s b = strong_count s' b.
  Proof. intros s s' b Hn Hr. rewrite !strong_count_sc, Hn, Hr. reflexivity. Qed.

  Lemma sig_term : forall (p : @pay F) b,
      (match p_bop p with
       | Some (BSigmoid _) => if p_buf p =? b then 1 else 0
       | _ => 0
       end) = if is_sig p then (if p_buf p =? b then 1 else 0) else 0.
  Proof. intros p b. unfold is_sig. destruct (p_bop p) as [[]|]; reflexivity. Qed.

  (** * (O2) only children, buffer ids and sigmoid-ness matter *)

  Definition okey (nd : gnode) : list entry * nat * bool :=
    (n_children nd, p_buf (n_pay nd), is_sig (n_pay nd)).

  Definition own_eq (g g' : list gnode) : Prop := map okey g = map okey g'.

  Lemma own_eq_nth : forall g g' n, own_eq g g' ->
      (nth_error g n = None /\ nth_error g' n = None) \/
      (exists nd nd', nth_error g n = Some nd /\ nth_error g' n = Some nd' /\ okey nd = okey nd').
  Proof.
    intros g g' n H. unfold own_eq in H.
    assert (H1 : nth_error (map okey g) n = nth_error (map okey g') n) by (rewrite H; reflexivity).
    rewrite !nth_error_map in H1.
    destruct (nth_error g n) as [nd|], (nth_error g' n) as [nd'|]; simpl in H1;
      try discriminate H1.
    - right. exists nd, nd'. injection H1 as H1. split; [reflexivity | split; [reflexivity | unfold okey; congruence]].
    - left. split; reflexivity.
  Qed.

  Lemma own_eq_length : forall g g', own_eq g g' -> length g = length g'.
  Proof.
    intros g g' H. unfold own_eq in H.
    rewrite <- (map_length okey g), <- (map_length okey g'), H. reflexivity.
  Qed.

  Lemma own_eq_kids : forall g g' n, own_eq g g' -> kids g n = kids g' n.
  Proof.
    intros g g' n H. unfold kids.
    destruct (own_eq_nth g g' n H) as [[Ha Hb] | (nd & nd' & Ha & Hb & Hk)]; rewrite Ha, Hb.
    - reflexivity.
    - unfold okey in Hk. injection Hk as Hc _ _. rewrite Hc. reflexivity.
  Qed.

  Lemma own_eq_buf : forall g g' n, own_eq g g' -> buf_of g n = buf_of g' n.
  Proof.
    intros g g' n H. unfold buf_of.
    destruct (own_eq_nth g g' n H) as [[Ha Hb] | (nd & nd' & Ha & Hb & Hk)]; rewrite Ha, Hb.
    - reflexivity.
    - unfold okey in Hk. injection Hk as _ Hbuf _. exact Hbuf.
  Qed.

  Lemma count_if_ext : forall {A} (f f' : A -> bool) l,
      (forall a, In a l -> f a = f' a) -> count_if f l = count_if f' l.
  Proof.
    intros A f f' l H. unfold count_if. rewrite (filter_ext_in f f' l H). reflexivity.
  Qed.

  Lemma own_eq_holds : forall g g' b n, own_eq g g' -> holds g b n = holds g' b n.
  Proof.
    intros g g' b n H. unfold holds.
    destruct (own_eq_nth g g' n H) as [[Ha Hb] | (nd & nd' & Ha & Hb & Hk)]; rewrite Ha, Hb.
    - reflexivity.
    - unfold okey in Hk. injection Hk as Hc Hbuf Hsig. rewrite !sig_term, Hc, Hbuf, Hsig.
      f_equal. apply count_if_ext. intros e _. rewrite (own_eq_buf g g' (e_node e) H). reflexivity.
  Qed.

  Lemma own_eq_reach : forall g g' fuel todo seen,
      own_eq g g' -> reach fuel g todo seen = reach fuel g' todo seen.
  Proof.
    intros g g' fuel. induction fuel as [|fuel IH]; intros todo seen H.
    - reflexivity.
    - destruct todo as [|id rest]; [reflexivity |].
      rewrite !reach_S, (own_eq_kids g g' id H), !(IH _ _ H). reflexivity.
  Qed.

  Lemma own_eq_edges : forall g g', own_eq g g' -> edges g = edges g'.
  Proof.
    intros g g' H. rewrite !edges_wsum, (own_eq_length g g' H).
    apply wsum_ext. intros n _. unfold klen. rewrite (own_eq_kids g g' n H). reflexivity.
  Qed.

  Lemma own_eq_sc : forall g g' rs b, own_eq g g' -> sc g rs b = sc g' rs b.
  Proof.
    intros g g' rs b H. unfold sc. f_equal.
    - apply count_if_ext. intros h _. rewrite (own_eq_buf g g' (e_node h) H). reflexivity.
    - unfold live. rewrite (own_eq_length g g' H), (own_eq_edges g g' H),
                   (own_eq_reach g g' _ _ _ H).
      unfold held. apply fold_right_ext. intros id acc. rewrite (own_eq_holds g g' b id H).
      reflexivity.
  Qed.

  (** (O2) [strong_count] does not read [n_count], [n_delta], [n_grad] -- nor dims, values,
      tags or the kind of a non-sigmoid closure *)
  Theorem strong_count_cells_irrelevant : forall (s s' : state) b,
      own_eq (st_nodes s) (st_nodes s') -> roots s = roots s' ->
      strong_count s b = strong_count s' b.
  Proof.
    intros s s' b H Hr. rewrite !strong_count_sc, Hr. apply own_eq_sc. exact H.
  Qed.

  Lemma skel_own_eq : forall g g' : list gnode, skel_eq g g' -> own_eq g g'.
  Proof.
    intros g g' H. apply skel_eq_map_sk in H. unfold own_eq.
    assert (Hm : forall l : list gnode,
               map okey l = map (fun q : @pay F * list entry =>
                                   (snd q, p_buf (fst q), is_sig (fst q))) (map sk l)).
    { intro l. rewrite map_map. reflexivity. }
    rewrite (Hm g), (Hm g'), H. reflexivity.
  Qed.

  (** the engine cells alone: same length, same payload and children everywhere *)
  Corollary strong_count_skel : forall (s : state) (g' : list gnode) b,
      skel_eq (st_nodes s) g' -> strong_count (with_nodes s g') b = strong_count s b.
  Proof.
    intros s g' b H. symmetry. apply strong_count_cells_irrelevant.
    - apply skel_own_eq. exact H.
    - reflexivity.
  Qed.

  (** a backward pass holds nothing afterwards, with or without stored gradients *)
  Theorem strong_count_backward : forall (s : state) r keep seed g' log b,
      wfg (E O) (st_nodes s) -> clean (st_nodes s) -> bop_contract (E O) (st_nodes s) ->
      r < length (st_nodes s) ->
      run_backward (E O) (st_nodes s) r keep seed = Some (g', log) ->
      strong_count (with_nodes s g') b = strong_count s b.
  Proof.
    intros s r keep seed g' log b Hwf Hcl Hbc Hr Hrun. apply strong_count_skel.
    destruct (pass_structure (E O) (st_nodes s) r keep seed g' log Hwf Hcl Hbc Hr Hrun)
      as (Hs & _). exact Hs.
  Qed.

  (** clearing (or storing) a gradient never changes a count *)
  Theorem strong_count_clear_grad : forall (s s' : state) h b,
      Program.clear_grad s h = Some s' -> strong_count s' b = strong_count s b.
  Proof.
    intros s s' h b H. unfold Program.clear_grad in H.
    revert H. apply obind_elim. intros nd Hnd H.
    revert H. apply obind_elim. intros g' Hput H. injection H as H. subst s'.
    apply strong_count_skel. unfold h_node in Hnd.
    eapply skel_eq_put_grad; eassumption.
  Qed.

  Theorem strong_count_set_cells : forall (s : state) id nd c d gr g' b,
      nth_error (st_nodes s) id = Some nd ->
      put (st_nodes s) id (set_grad (set_delta (set_count nd c) d) gr) = Some g' ->
      strong_count (with_nodes s g') b = strong_count s b.
  Proof.
    intros s id nd c d gr g' b Hnd Hput. apply strong_count_skel.
    eapply skel_eq_put; [exact Hnd | exact Hput | reflexivity | reflexivity].
  Qed.

  (** * (O3) sole ownership *)

  Lemma count_if_app : forall {A} (f : A -> bool) l1 l2,
      count_if f (l1 ++ l2) = count_if f l1 + count_if f l2.
  Proof. intros A f l1 l2. unfold count_if. rewrite filter_app, app_length. reflexivity. Qed.

  Lemma count_if_cons : forall {A} (f : A -> bool) x l,
      count_if f (x :: l) = (if f x then 1 else 0) + count_if f l.
  Proof. intros A f x l. unfold count_if. simpl. destruct (f x); reflexivity. Qed.

  Lemma count_if_zero : forall {A} (f : A -> bool) l,
      (forall a, In a l -> f a = false) -> count_if f l = 0.
  Proof.
    intros A f l H. unfold count_if. induction l as [|a l IH]; simpl; [reflexivity |].
    rewrite (H a (or_introl eq_refl)). apply IH. intros x Hx. apply H. right. exact Hx.
  Qed.

  Lemma count_if_pos : forall {A} (f : A -> bool) l a, In a l -> f a = true -> 1 <= count_if f l.
  Proof.
    intros A f l a Hin Hf. induction l as [|x l IH]; [destruct Hin |].
    rewrite count_if_cons. destruct Hin as [Hin|Hin].
    - subst x. rewrite Hf. lia.
    - specialize (IH Hin). lia.
  Qed.

  Lemma held_zero : forall g l b, (forall n, In n l -> holds g b n = 0) -> held g l b = 0.
  Proof.
    intros g l b H. unfold held. induction l as [|n l IH]; simpl; [reflexivity |].
    rewrite (H n (or_introl eq_refl)). apply IH. intros x Hx. apply H. right. exact Hx.
  Qed.

  Lemma held_ge : forall g l b n, In n l -> holds g b n <= held g l b.
  Proof.
    intros g l b n Hin. unfold held. induction l as [|x l IH]; [destruct Hin |]. simpl.
    destruct Hin as [Hin|Hin]; [subst x; lia | specialize (IH Hin); lia].
  Qed.

  Lemma holds_zero : forall (g : list gnode) b n (nd : gnode),
      nth_error g n = Some nd ->
      (forall e, In e (n_children nd) -> buf_of g (e_node e) <> b) ->
      (is_sig (n_pay nd) = true -> p_buf (n_pay nd) <> b) ->
      holds g b n = 0.
  Proof.
    intros g b n nd Hn Hch Hsig. unfold holds. rewrite Hn, sig_term.
    rewrite count_if_zero by (intros e He; apply Nat.eqb_neq; apply Hch; exact He).
    destruct (is_sig (n_pay nd)); [| reflexivity].
    assert (Hne : (p_buf (n_pay nd) =? b) = false) by (apply Nat.eqb_neq; apply Hsig; reflexivity).
    rewrite Hne. reflexivity.
  Qed.

  (** (O3) the handle [h] is the sole owner of its buffer: no other root handle has that
      buffer, no reachable node has a child entry with that buffer, and no reachable
      sigmoid node owns it *)
  Theorem sole_owner : forall (s : state) h rs1 rs2 b,
      roots s = rs1 ++ h :: rs2 ->
      b = buf_of (st_nodes s) (e_node h) ->
      (forall h', In h' (rs1 ++ rs2) -> buf_of (st_nodes s) (e_node h') <> b) ->
      (forall h0 n nd, In h0 (roots s) -> creach (st_nodes s) (e_node h0) n ->
                       nth_error (st_nodes s) n = Some nd ->
                       (forall e, In e (n_children nd) -> buf_of (st_nodes s) (e_node e) <> b) /\
                       (is_sig (n_pay nd) = true -> p_buf (n_pay nd) <> b)) ->
      strong_count s b = 1.
  Proof.
    intros s h rs1 rs2 b Hroots Hb Hothers Hreach.
    rewrite strong_count_sc. unfold sc.
    rewrite held_zero.
    - rewrite Hroots, count_if_app, count_if_cons.
      rewrite (count_if_zero _ rs1), (count_if_zero _ rs2).
      + rewrite <- Hb, Nat.eqb_refl. reflexivity.
      + intros a Ha. apply Nat.eqb_neq. apply Hothers. apply in_or_app. right. exact Ha.
      + intros a Ha. apply Nat.eqb_neq. apply Hothers. apply in_or_app. left. exact Ha.
    - intros n Hn. apply (proj2 (live_spec (st_nodes s) (roots s))) in Hn.
      destruct Hn as (h0 & Hh0 & Hc).
      destruct (nth_error (st_nodes s) n) as [nd|] eqn:Hnd.
      + destruct (Hreach h0 n nd Hh0 Hc Hnd) as (H1 & H2).
        apply (holds_zero (st_nodes s) b n nd Hnd H1 H2).
      + unfold holds. rewrite Hnd. reflexivity.
  Qed.

  (** [into_vec]: succeeds exactly when the count is 1 *)
  Theorem takevec_step : forall (s0 : state) i x a,
      var s0 i = Some x -> h_arr s0 x = Some a ->
      (strong_count s0 (buf_of (st_nodes s0) (e_node x)) = 1 ->
       exists s', step O s0 (ITakeVec i) = Some (s', [(7, [], vals a)])) /\
      (strong_count s0 (buf_of (st_nodes s0) (e_node x)) <> 1 ->
       step O s0 (ITakeVec i) = None).
  Proof.
    intros s0 i x a Hvar Harr.
    set (s := with_tag s0 (length (st_pool s0))).
    assert (Hvar' : var s i = Some x) by exact Hvar.
    assert (Harr' : h_arr s x = Some a) by exact Harr.
    assert (Hsc : forall b, strong_count s b = strong_count s0 b) by (intro b; reflexivity).
    split; intro Hc.
    - unfold step. fold s. rewrite Hvar'. cbn [obind]. rewrite Harr'. cbn [obind].
      change (st_nodes s) with (st_nodes s0). rewrite Hsc, Hc. cbn [Nat.eqb guard obind].
      unfold var in Hvar. revert Hvar. apply obind_elim. intros o Ho _.
      unfold set_var, set_nth. change (st_pool s) with (st_pool s0).
      assert (Hlt : i < length (st_pool s0)) by (eapply nth_lt; exact Ho).
      apply Nat.ltb_lt in Hlt. rewrite Hlt. cbn [obind]. eexists. reflexivity.
    - unfold step. fold s. rewrite Hvar'. cbn [obind]. rewrite Harr'. cbn [obind].
      change (st_nodes s) with (st_nodes s0). rewrite Hsc.
      apply Nat.eqb_neq in Hc. rewrite Hc. reflexivity.
  Qed.

  (** converse: a second holder makes the count at least 2 *)
  Lemma two_roots_ge2 : forall (s : state) h1 h2 rs1 rs2 rs3 b,
      roots s = rs1 ++ h1 :: rs2 ++ h2 :: rs3 ->
      buf_of (st_nodes s) (e_node h1) = b -> buf_of (st_nodes s) (e_node h2) = b ->
      2 <= strong_count s b.
  Proof.
    intros s h1 h2 rs1 rs2 rs3 b Hroots H1 H2. rewrite strong_count_sc. unfold sc.
    rewrite Hroots, count_if_app, count_if_cons, count_if_app, count_if_cons.
    rewrite H1, H2, Nat.eqb_refl. lia.
  Qed.

  Lemma root_and_entry_ge2 : forall (s : state) h h0 n nd e b,
      In h (roots s) -> buf_of (st_nodes s) (e_node h) = b ->
      In h0 (roots s) -> creach (st_nodes s) (e_node h0) n ->
      nth_error (st_nodes s) n = Some nd -> In e (n_children nd) ->
      buf_of (st_nodes s) (e_node e) = b ->
      2 <= strong_count s b.
  Proof.
    intros s h h0 n nd e b Hh Hb Hh0 Hc Hnd He Heb. rewrite strong_count_sc. unfold sc.
    assert (H1 : 1 <= count_if (fun h => buf_of (st_nodes s) (e_node h) =? b) (roots s)).
    { apply (count_if_pos _ _ h Hh). apply Nat.eqb_eq. exact Hb. }
    assert (Hlive : In n (live (st_nodes s) (roots s))).
    { apply (proj2 (live_spec (st_nodes s) (roots s))). exists h0. tauto. }
    pose proof (held_ge (st_nodes s) _ b n Hlive) as Hge.
    assert (H2 : 1 <= holds (st_nodes s) b n).
    { unfold holds. rewrite Hnd.
      assert (1 <= count_if (fun e => buf_of (st_nodes s) (e_node e) =? b) (n_children nd)).
      { apply (count_if_pos _ _ e He). apply Nat.eqb_eq. exact Heb. }
      lia. }
    lia.
  Qed.

  Lemma root_and_sigmoid_ge2 : forall (s : state) h h0 n nd b,
      In h (roots s) -> buf_of (st_nodes s) (e_node h) = b ->
      In h0 (roots s) -> creach (st_nodes s) (e_node h0) n ->
      nth_error (st_nodes s) n = Some nd -> is_sig (n_pay nd) = true -> p_buf (n_pay nd) = b ->
      2 <= strong_count s b.
  Proof.
    intros s h h0 n nd b Hh Hb Hh0 Hc Hnd Hsig Hpb. rewrite strong_count_sc. unfold sc.
    assert (H1 : 1 <= count_if (fun h => buf_of (st_nodes s) (e_node h) =? b) (roots s)).
    { apply (count_if_pos _ _ h Hh). apply Nat.eqb_eq. exact Hb. }
    assert (Hlive : In n (live (st_nodes s) (roots s))).
    { apply (proj2 (live_spec (st_nodes s) (roots s))). exists h0. tauto. }
    pose proof (held_ge (st_nodes s) _ b n Hlive) as Hge.
    assert (H2 : 1 <= holds (st_nodes s) b n).
    { unfold holds. rewrite Hnd, sig_term, Hsig, Hpb, Nat.eqb_refl. lia. }
    lia.
  Qed.

  (** * (O4) dropping handles releases what they held *)

  Definition pool_handles (p : list (option handle)) : list handle :=
    flat_map (fun o : option handle => match o with Some h => [h] | None => [] end) p.

  Lemma roots_eq : forall s : state,
      roots s = pool_handles (st_pool s)
                ++ flat_map (fun l => [l_w l; l_b l]) (st_layers s)
                ++ match st_output s with Some h => [h] | None => [] end.
  Proof. reflexivity. Qed.

  Lemma strong_count_with_pool : forall (s : state) p p' b,
      pool_handles p = pool_handles p' ->
      strong_count (with_pool s p) b = strong_count (with_pool s p') b.
  Proof.
    intros s p p' b H. apply strong_count_roots_only; [reflexivity |].
    rewrite !roots_eq. simpl. rewrite H. reflexivity.
  Qed.

  Lemma pool_handles_app : forall p q, pool_handles (p ++ q) = pool_handles p ++ pool_handles q.
  Proof. intros p q. unfold pool_handles. apply flat_map_app. Qed.

  (** [IDrop] only removes one root: nodes, layers and output are untouched *)
  Theorem drop_step : forall (s0 s' : state) i o,
      step O s0 (IDrop i) = Some (s', o) ->
      st_nodes s' = st_nodes s0 /\ st_layers s' = st_layers s0 /\ st_output s' = st_output s0 /\
      exists x p1 p2,
        st_pool s0 = p1 ++ Some x :: p2 /\ length p1 = i /\
        st_pool s' = p1 ++ None :: p2 ++ [None] /\
        roots s0 = pool_handles p1 ++ x :: pool_handles p2
                   ++ flat_map (fun l => [l_w l; l_b l]) (st_layers s0)
                   ++ match st_output s0 with Some h => [h] | None => [] end /\
        roots s' = pool_handles p1 ++ pool_handles p2
                   ++ flat_map (fun l => [l_w l; l_b l]) (st_layers s0)
                   ++ match st_output s0 with Some h => [h] | None => [] end.
  Proof.
    intros s0 s' i o H. apply step_cases in H. destruct H as (s1 & slot & C & ->).
    inversion C as [| | |i0 h v o0 s2 Hr Hset| | | | | | | |]; try discriminate; subst. clear C.
    cbn [rebind] in Hr. revert Hr. apply obind_elim. intros x Hvar Hr. injection Hr as <- <-.
    apply set_var_inv in Hset. destruct Hset as [Hi ->].
    unfold var in Hvar. apply obind_some in Hvar. destruct Hvar as (ox & Hox & ->).
    cbn [st_pool with_tag] in Hox, Hi.
    destruct (nth_error_split _ _ Hox) as (p1 & p2 & Hpool & Hlen).
    assert (Hp'' : firstn i (st_pool s0) ++ None :: skipn (S i) (st_pool s0) = p1 ++ None :: p2).
    { rewrite Hpool, <- Hlen, firstn_app_len. f_equal. f_equal. exact (skipn_S_app_len p1 p2 (Some x)). }
    split; [reflexivity |]. split; [reflexivity |]. split; [reflexivity |].
    exists x, p1, p2. split; [exact Hpool |]. split; [exact Hlen |].
    split; [cbn [push with_pool st_pool with_tag]; rewrite Hp'', <- app_assoc; reflexivity |].
    split.
    - rewrite roots_eq, Hpool, pool_handles_app. simpl. rewrite <- app_assoc. reflexivity.
    - rewrite roots_eq. cbn [push with_pool st_pool st_layers st_output with_tag].
      rewrite Hp'', !pool_handles_app. simpl. rewrite app_nil_r, <- app_assoc. reflexivity.
  Qed.

  (** every root is a handle of a childless node without closure, and the root [h] is the
      only one with its buffer: then [h] is the sole owner -- however many graph nodes were
      built from it earlier, and whatever gradients are stored *)
  Theorem leaf_roots_sole_owner : forall (s : state) h rs1 rs2,
      roots s = rs1 ++ h :: rs2 ->
      (forall h', In h' (roots s) ->
                  exists nd, nth_error (st_nodes s) (e_node h') = Some nd /\
                             n_children nd = [] /\ p_bop (n_pay nd) = None) ->
      (forall h', In h' (rs1 ++ rs2) ->
                  buf_of (st_nodes s) (e_node h') <> buf_of (st_nodes s) (e_node h)) ->
      strong_count s (buf_of (st_nodes s) (e_node h)) = 1.
  Proof.
    intros s h rs1 rs2 Hroots Hleaf Hothers.
    apply (sole_owner s h rs1 rs2 _ Hroots eq_refl Hothers).
    intros h0 n nd Hh0 Hc Hnd.
    destruct (Hleaf h0 Hh0) as (nd0 & Hnd0 & Hch0 & Hbop0).
    assert (Hk : kids (st_nodes s) (e_node h0) = []).
    { unfold kids. rewrite Hnd0, Hch0. reflexivity. }
    apply (creach_leaf _ _ _ Hk) in Hc. subst n.
    rewrite Hnd0 in Hnd. injection Hnd as Hnd. subst nd0.
    split.
    - intros e He. rewrite Hch0 in He. destruct He.
    - intro Hsig. unfold is_sig in Hsig. rewrite Hbop0 in Hsig. discriminate Hsig.
  Qed.

  (** the array is again the sole owner of its buffer once it is the only root *)
  Theorem only_root_sole_owner : forall (s : state) h nd,
      roots s = [h] ->
      nth_error (st_nodes s) (e_node h) = Some nd ->
      n_children nd = [] -> p_bop (n_pay nd) = None ->
      strong_count s (buf_of (st_nodes s) (e_node h)) = 1.
  Proof.
    intros s h nd Hroots Hnd Hch Hbop.
    apply (leaf_roots_sole_owner s h [] []).
    - exact Hroots.
    - intros h' Hh'. rewrite Hroots in Hh'. destruct Hh' as [Hh'|[]]. subst h'.
      exists nd. tauto.
    - intros h' [].
  Qed.

  (** * (O5) fresh buffers *)

  (** a buffer id never exceeds the id of a node that has it *)
  Definition buf_le (g : list gnode) : Prop :=
    forall id nd, nth_error g id = Some nd -> p_buf (n_pay nd) <= id.

  Lemma alloc_nodes : forall (s : state) a ch bop buf,
      exists nd,
        st_nodes (fst (alloc s a ch bop buf)) = st_nodes s ++ [nd] /\
        n_children nd = ch /\ p_bop (n_pay nd) = bop /\
        p_buf (n_pay nd) = (match buf with Some b => b | None => length (st_nodes s) end) /\
        e_node (snd (alloc s a ch bop buf)) = length (st_nodes s) /\
        e_tracked (snd (alloc s a ch bop buf)) = (match bop with Some _ => true | None => false end) /\
        st_pool (fst (alloc s a ch bop buf)) = st_pool s /\
        st_layers (fst (alloc s a ch bop buf)) = st_layers s /\
        st_output (fst (alloc s a ch bop buf)) = st_output s /\
        st_tag (fst (alloc s a ch bop buf)) = st_tag s.
  Proof.
    intros s a ch bop buf. unfold alloc. simpl. eexists. split; [reflexivity |].
    simpl. repeat split; reflexivity.
  Qed.

  Lemma buf_of_app_old : forall (g extra : list gnode) id,
      id < length g -> buf_of (g ++ extra) id = buf_of g id.
  Proof. intros g extra id H. unfold buf_of. rewrite nth_error_app1 by exact H. reflexivity. Qed.

  (** a freshly allocated (non-reshape) node owns a buffer nobody else has *)
  Theorem alloc_fresh_buffer : forall (s : state) a ch bop,
      buf_le (st_nodes s) ->
      let s' := fst (alloc s a ch bop None) in
      let h := snd (alloc s a ch bop None) in
      e_node h = length (st_nodes s) /\
      buf_of (st_nodes s') (e_node h) = e_node h /\
      forall id, id < length (st_nodes s) ->
                 buf_of (st_nodes s') id = buf_of (st_nodes s) id /\
                 buf_of (st_nodes s') id <> buf_of (st_nodes s') (e_node h).
  Proof.
    intros s a ch bop Hle. cbv zeta.
    destruct (alloc_nodes s a ch bop None) as (nd & Hn & _ & _ & Hb & He & _).
    assert (Hnew : buf_of (st_nodes (fst (alloc s a ch bop None)))
                          (e_node (snd (alloc s a ch bop None)))
                   = e_node (snd (alloc s a ch bop None))).
    { rewrite Hn, He. unfold buf_of. rewrite nth_error_app2 by lia. rewrite Nat.sub_diag.
      simpl. exact Hb. }
    split; [exact He |]. split; [exact Hnew |].
    intros id Hid. rewrite Hnew. rewrite Hn, (buf_of_app_old _ _ id Hid).
    split; [reflexivity |]. rewrite He. unfold buf_of.
    destruct (nth_error (st_nodes s) id) as [x|] eqn:Hx; [| apply nth_error_None in Hx; lia].
    specialize (Hle id x Hx). lia.
  Qed.

  (** the invariant is preserved by both forms of [alloc] ([reshape] passes the buffer of
      an existing node) *)
  Theorem alloc_buf_le : forall (s : state) a ch bop buf,
      buf_le (st_nodes s) ->
      (forall b, buf = Some b -> b <= length (st_nodes s)) ->
      buf_le (st_nodes (fst (alloc s a ch bop buf))).
  Proof.
    intros s a ch bop buf Hle Hb id x Hx.
    destruct (alloc_nodes s a ch bop buf) as (nd & Hn & _ & _ & Hbuf & _).
    rewrite Hn in Hx. destruct (lt_dec id (length (st_nodes s))) as [Hlt|Hge].
    - rewrite nth_error_app1 in Hx by exact Hlt. apply (Hle id x Hx).
    - rewrite nth_error_app2 in Hx by lia.
      destruct (id - length (st_nodes s)) as [|k] eqn:Hk; simpl in Hx.
      + injection Hx as Hx. subst x. rewrite Hbuf. destruct buf as [b|].
        * specialize (Hb b eq_refl). lia.
        * lia.
      + destruct k; discriminate Hx.
  Qed.

  Lemma buf_le_existing : forall (g : list gnode) id nd,
      buf_le g -> nth_error g id = Some nd -> p_buf (n_pay nd) <= length g.
  Proof.
    intros g id nd Hle Hn. specialize (Hle id nd Hn).
    assert (id < length g) by (eapply nth_lt; exact Hn). lia.
  Qed.

  (** * (O6) the model loop *)

  (** after a forward pass the output handle is the new output: the previous one is a root
      only if the pool or a layer still holds it *)
  Theorem model_forward_roots : forall (s s' : state) x out,
      model_forward O s x = Some (s', out) ->
      st_output s' = Some out /\
      roots s' = pool_handles (st_pool s')
                 ++ flat_map (fun l => [l_w l; l_b l]) (st_layers s') ++ [out].
  Proof.
    intros s s' x out H. unfold model_forward in H.
    revert H. apply obind_elim. intros [s1 o1] _ H. injection H as Hs Ho. subst s' o1.
    split; reflexivity.
  Qed.

  (** * (O5, C09) a result of untracked operands keeps no reference to them *)

  Definition frame (s s' : state) : Prop :=
    st_pool s' = st_pool s /\ st_layers s' = st_layers s /\ st_output s' = st_output s /\
    st_tag s' = st_tag s.

  Definition leafnd (nd : gnode) : Prop := n_children nd = [] /\ p_bop (n_pay nd) = None.

  (** [s'] is [s] with childless closure-free nodes appended *)
  Definition Ext (s s' : state) : Prop :=
    frame s s' /\ exists extra, st_nodes s' = st_nodes s ++ extra /\ Forall leafnd extra.

  Lemma Ext_refl : forall s : state, Ext s s.
  Proof.
    intro s. split; [repeat split |]. exists []. split; [rewrite app_nil_r; reflexivity | constructor].
  Qed.

  Lemma Ext_trans : forall s1 s2 s3 : state, Ext s1 s2 -> Ext s2 s3 -> Ext s1 s3.
  Proof.
    intros s1 s2 s3 ((A1 & A2 & A3 & A4) & e1 & Hn1 & Hl1) ((B1 & B2 & B3 & B4) & e2 & Hn2 & Hl2).
    split; [repeat split; congruence |].
    exists (e1 ++ e2). split; [rewrite Hn2, Hn1, app_assoc; reflexivity |].
    apply Forall_app. split; assumption.
  Qed.

  (** the returned handle is untracked and points to a fresh childless closure-free node
      owning a fresh buffer *)
  Definition res_fresh (s s' : state) (h : handle) : Prop :=
    e_tracked h = false /\ length (st_nodes s) <= e_node h /\
    buf_of (st_nodes s') (e_node h) = e_node h /\
    exists nd, nth_error (st_nodes s') (e_node h) = Some nd /\ leafnd nd.

  Lemma alloc_leaf : forall (s : state) a buf s' h,
      alloc s a [] None buf = (s', h) ->
      Ext s s' /\ e_tracked h = false /\ e_node h = length (st_nodes s) /\
      exists nd, nth_error (st_nodes s') (e_node h) = Some nd /\ leafnd nd.
  Proof.
    intros s a buf s' h H.
    destruct (alloc_nodes s a [] None buf) as (nd & Hn & Hch & Hbop & _ & He & Ht & A1 & A2 & A3 & A4).
    rewrite H in *. cbn [fst snd] in *.
    split.
    { split; [repeat split; assumption |]. exists [nd]. split; [exact Hn |].
      constructor; [split; assumption | constructor]. }
    split; [exact Ht |]. split; [exact He |]. exists nd. split; [| split; assumption].
    rewrite Hn, He. apply nth_error_snoc.
  Qed.

  (** without tracked operands a construction only appends leaves, and its handles are
      untracked *)
  Lemma built_leaves : forall ops rs (s s' : state) made,
      built false ops rs s s' made -> (forall e, In e ops -> e_tracked e = false) ->
      Ext s s' /\
      forall e, In e made ->
                e_tracked e = false /\ length (st_nodes s) <= e_node e /\
                exists nd, nth_error (st_nodes s') (e_node e) = Some nd /\ leafnd nd.
  Proof.
    intros ops rs s s' made B Hops.
    induction B as [|s1 made a ch bop buf _ [HE Hm] Hch Hnone Htr _]; [split; [apply Ext_refl|intros e []]|].
    assert (Hno : bop = None).
    { destruct bop as [c|]; [exfalso|reflexivity].
      destruct (Htr ltac:(discriminate)) as [Hex|Hcu]; [|discriminate Hcu].
      apply existsb_exists in Hex. destruct Hex as (e & He & Ht).
      destruct (Hch e He) as [Ho|Hmade]; [rewrite (Hops e Ho) in Ht|rewrite (proj1 (Hm e Hmade)) in Ht];
        discriminate Ht. }
    subst bop. rewrite (Hnone eq_refl).
    destruct (alloc_leaf s1 a buf _ _ (surjective_pairing _)) as (HE1 & Ht & Hid & Hnd).
    split; [exact (Ext_trans _ _ _ HE HE1)|]. intros e He. apply in_app_or in He.
    destruct He as [He|[<-|[]]].
    - destruct (Hm e He) as (H1 & H2 & nd & Hnd' & Hl). split; [exact H1|]. split; [exact H2|].
      exists nd. split; [|exact Hl]. destruct HE1 as (_ & extra & -> & _).
      rewrite nth_error_app1 by (eapply nth_lt; exact Hnd'). exact Hnd'.
    - split; [exact Ht|]. split; [|exact Hnd]. rewrite Hid. destruct HE as (_ & extra & -> & _).
      rewrite app_length. lia.
  Qed.

  (** operations that neither alias ([reshape], [sum(0)] = clone) nor attach a user closure *)
  Definition plain_op (k : @opk F) : bool :=
    match k with
    | OCustom _ => false
    | OReshape _ => false
    | OSum 0 => false
    | _ => true
    end.

  Theorem apply_op_untracked : forall (s : state) k hs s' h,
      plain_op k = true -> Forall (fun x : handle => e_tracked x = false) hs ->
      apply_op O s k hs = Some (s', h) ->
      Ext s s' /\ res_fresh s s' h.
  Proof.
    intros s k hs s' h Hk Hall H.
    destruct (apply_op_makes O s k hs _ H) as (made & B & _ & W). cbn [fst snd] in B, W.
    assert (Hc : is_custom_op k = false /\ own_result k = true)
      by (destruct k as [ | | | | | | | | | |[|k]| | | | | | | |]; try discriminate Hk; split; reflexivity).
    destruct Hc as [Hc Hw]. rewrite Hc in B.
    destruct (built_leaves _ _ _ _ _ B (proj1 (Forall_forall _ _) Hall)) as (HE & Hm).
    destruct (W Hw) as [Hin Hb]. destruct (Hm h Hin) as (Ht & Hge & Hnd).
    split; [exact HE|]. split; [exact Ht|]. split; [exact Hge|]. split; [exact Hb|exact Hnd].
  Qed.

  Lemma kids_app_old : forall (g extra : list gnode) n, n < length g -> kids (g ++ extra) n = kids g n.
  Proof. intros g extra n H. unfold kids. rewrite nth_error_app1 by exact H. reflexivity. Qed.

  Lemma kids_in_range : forall (g : list gnode) n c, In c (kids g n) -> n < length g.
  Proof.
    intros g n c H. unfold kids in H. destruct (nth_error g n) as [nd|] eqn:Hn; [| destruct H].
    eapply nth_lt. exact Hn.
  Qed.

  Lemma creach_app : forall (g extra : list gnode) t x, creach g t x -> creach (g ++ extra) t x.
  Proof.
    intros g extra t x H. induction H as [|m c Hm IH Hin].
    - apply cr_refl.
    - apply (cr_step _ _ m c IH). rewrite kids_app_old; [exact Hin |].
      eapply kids_in_range. exact Hin.
  Qed.

  Lemma creach_app_old : forall (g extra : list gnode) t x,
      topo g -> t < length g -> creach (g ++ extra) t x -> creach g t x /\ x < length g.
  Proof.
    intros g extra t x Ht Hlt H. induction H as [|m c Hm IH Hin].
    - split; [apply cr_refl | exact Hlt].
    - destruct IH as (IH1 & IH2). rewrite kids_app_old in Hin by exact IH2.
      split; [eapply cr_step; eassumption |]. specialize (Ht m c Hin). lia.
  Qed.

  Lemma holds_app_old : forall (g extra : list gnode) b n,
      topo g -> n < length g -> holds (g ++ extra) b n = holds g b n.
  Proof.
    intros g extra b n Ht Hn. unfold holds. rewrite nth_error_app1 by exact Hn.
    destruct (nth_error g n) as [nd|] eqn:Hnd; [| reflexivity].
    f_equal. apply count_if_ext. intros e He.
    assert (Hc : e_node e < n).
    { apply Ht. unfold kids. rewrite Hnd. apply in_map. exact He. }
    rewrite buf_of_app_old by lia. reflexivity.
  Qed.

  Lemma held_ext_in : forall (g g' : list gnode) l b,
      (forall n, In n l -> holds g b n = holds g' b n) -> held g l b = held g' l b.
  Proof.
    intros g g' l b H. unfold held. induction l as [|n l IH]; simpl; [reflexivity |].
    rewrite (H n (or_introl eq_refl)), IH; [reflexivity |].
    intros x Hx. apply H. right. exact Hx.
  Qed.

  Lemma held_perm : forall (g : list gnode) l l' b, Permutation l l' -> held g l b = held g l' b.
  Proof.
    intros g l l' b Hp. unfold held.
    induction Hp as [| x l l' Hp IH | x y l | l l' l'' Hp1 IH1 Hp2 IH2]; simpl.
    - reflexivity.
    - rewrite IH. reflexivity.
    - lia.
    - congruence.
  Qed.

  Lemma sc_append_leaf_root : forall (g extra : list gnode) (A B : list handle) h nd b,
      topo g ->
      (forall x, In x (A ++ B) -> e_node x < length g) ->
      length g <= e_node h ->
      nth_error (g ++ extra) (e_node h) = Some nd -> leafnd nd ->
      buf_of (g ++ extra) (e_node h) = e_node h ->
      b < length g ->
      sc (g ++ extra) (A ++ h :: B) b = sc g (A ++ B) b.
  Proof.
    intros g extra A B h nd b Ht Hin Hh Hnd (Hch & Hbop) Hbuf Hb. unfold sc.
    assert (Hcnt : forall l : list handle, (forall x, In x l -> e_node x < length g) ->
               count_if (fun x => buf_of (g ++ extra) (e_node x) =? b) l
               = count_if (fun x => buf_of g (e_node x) =? b) l).
    { intros l Hl. apply count_if_ext. intros x Hx. rewrite buf_of_app_old by (apply Hl; exact Hx).
      reflexivity. }
    f_equal.
    - rewrite !count_if_app, count_if_cons, Hbuf.
      assert (Hne : (e_node h =? b) = false) by (apply Nat.eqb_neq; lia). rewrite Hne.
      rewrite (Hcnt A), (Hcnt B); [reflexivity | |];
        intros x Hx; apply Hin; apply in_or_app; [right | left]; exact Hx.
    - destruct (live_spec (g ++ extra) (A ++ h :: B)) as (Hnd1 & Hl1).
      destruct (live_spec g (A ++ B)) as (Hnd2 & Hl2).
      assert (Hk : kids (g ++ extra) (e_node h) = []).
      { unfold kids. rewrite Hnd, Hch. reflexivity. }
      assert (Hold : forall x, In x (live g (A ++ B)) -> x < length g).
      { intros x Hx. apply Hl2 in Hx. destruct Hx as (h0 & Hh0 & Hc).
        apply (creach_le g _ _ Ht) in Hc. specialize (Hin h0 Hh0). lia. }
      assert (Hperm : Permutation (live (g ++ extra) (A ++ h :: B)) (e_node h :: live g (A ++ B))).
      { apply NoDup_Permutation.
        - exact Hnd1.
        - constructor; [| exact Hnd2]. intro Hx. apply Hold in Hx. lia.
        - intro x. rewrite Hl1. split.
          + intros (h0 & Hh0 & Hc). apply in_app_or in Hh0. destruct Hh0 as [Hh0|[Hh0|Hh0]].
            * right. apply Hl2. exists h0. split; [apply in_or_app; left; exact Hh0 |].
              apply (creach_app_old g extra _ x Ht); [apply Hin; apply in_or_app; left; exact Hh0 | exact Hc].
            * subst h0. left. symmetry. apply (creach_leaf _ _ _ Hk Hc).
            * right. apply Hl2. exists h0. split; [apply in_or_app; right; exact Hh0 |].
              apply (creach_app_old g extra _ x Ht); [apply Hin; apply in_or_app; right; exact Hh0 | exact Hc].
          + intros [Hx|Hx].
            * subst x. exists h. split; [apply in_or_app; right; left; reflexivity | apply cr_refl].
            * apply Hl2 in Hx. destruct Hx as (h0 & Hh0 & Hc). exists h0. split.
              -- apply in_app_or in Hh0. apply in_or_app. destruct Hh0 as [H0|H0];
                   [left; exact H0 | right; right; exact H0].
              -- apply creach_app. exact Hc. }
      rewrite (held_perm _ _ _ b Hperm). unfold held at 1. simpl. fold (held (g ++ extra) (live g (A ++ B)) b).
      assert (Hz : holds (g ++ extra) b (e_node h) = 0).
      { apply (holds_zero _ b _ nd Hnd).
        - intros e He. rewrite Hch in He. destruct He.
        - intro Hs. unfold is_sig in Hs. rewrite Hbop in Hs. discriminate Hs. }
      rewrite Hz. simpl. apply held_ext_in. intros n Hn.
      apply holds_app_old; [exact Ht | apply Hold; exact Hn].
  Qed.

  (** (C09) the result of a plain operation on untracked operands holds none of them: once
      the result handle is in the pool, every existing buffer has the count it had before *)
  Theorem untracked_op_keeps_counts : forall (s : state) k hs s' h b,
      topo (st_nodes s) ->
      (forall x, In x (roots s) -> e_node x < length (st_nodes s)) ->
      plain_op k = true -> Forall (fun x : handle => e_tracked x = false) hs ->
      apply_op O s k hs = Some (s', h) ->
      b < length (st_nodes s) ->
      strong_count (push s' (Some h)) b = strong_count s b.
  Proof.
    intros s k hs s' h b Ht Hin Hk Hall H Hb.
    destruct (apply_op_untracked s k hs s' h Hk Hall H)
      as (((F1 & F2 & F3 & F4) & extra & Hn & _) & (_ & Hge & Hbuf & nd & Hnd & Hleaf)).
    rewrite !strong_count_sc.
    assert (Hr' : roots (push s' (Some h))
                  = pool_handles (st_pool s) ++ h ::
                    (flat_map (fun l => [l_w l; l_b l]) (st_layers s)
                     ++ match st_output s with Some x => [x] | None => [] end)).
    { rewrite roots_eq. simpl. rewrite F1, F2, F3, pool_handles_app. simpl.
      rewrite <- app_assoc. reflexivity. }
    rewrite Hr'. change (st_nodes (push s' (Some h))) with (st_nodes s'). rewrite Hn.
    rewrite Hn in Hnd, Hbuf. rewrite (roots_eq s) in *.
    apply (sc_append_leaf_root (st_nodes s) extra _ _ h nd b Ht Hin Hge Hnd Hleaf Hbuf Hb).
  Qed.

  (** * (O6) after [model_update] the rebound parameters are fresh leaves *)

  Theorem model_update_fresh_params : forall s : state,
      gd_pre s (model_params s) ->
      exists s', model_update O s = Some s' /\
        st_pool s' = st_pool s /\ st_output s' = st_output s /\
        length (model_params s') = length (model_params s) /\
        forall i h, nth_error (model_params s) i = Some h ->
          (* a parameter without gradient keeps its handle and its node *)
          (grad_of s h = None -> nth_error (model_params s') i = Some h) /\
          (* a parameter with a gradient -- the first handle of its node in the list -- is
             rebound to a fresh childless node without closure that owns a fresh buffer:
             nothing of the previous iteration is held *)
          (forall p g, h_arr s h = Some p -> grad_of s h = Some g ->
             ~ In (e_node h) (map e_node (firstn i (model_params s))) ->
             exists h' nd', nth_error (model_params s') i = Some h' /\
               length (st_nodes s) <= e_node h' /\
               nth_error (st_nodes s') (e_node h') = Some nd' /\
               n_children nd' = [] /\ p_bop (n_pay nd') = None /\
               p_buf (n_pay nd') = e_node h').
  Proof.
    intros s Hpre.
    destruct (model_update_spec O s Hpre) as (s1 & out & Hup & Hpost & Hmu & Hparams & _ & _).
    exists (with_layers s1 (rebuild_layers (st_layers s) out)).
    destruct Hpost as ((P1 & P2 & P3 & P4 & P5 & P6) & Hlen & Hlen' & Hfrozen & Hunfrozen & _).
    split; [exact Hmu |]. split; [exact P1 |]. split; [exact P5 |].
    rewrite Hparams. split; [exact Hlen |].
    intros i h Hi. split.
    - intro Hg. apply (Hfrozen i h Hi Hg).
    - intros p g Hp Hg Hfirst. destruct (Hunfrozen i h p g Hi Hp Hg Hfirst) as (Hout & Hnode).
      eexists. eexists. split; [exact Hout |]. simpl.
      split; [lia |]. split; [exact Hnode |]. simpl. repeat split.
  Qed.
End Ownership.

Print Assumptions live_spec.
Print Assumptions creach_le.
Print Assumptions strong_count_cells_irrelevant.
Print Assumptions strong_count_backward.
Print Assumptions strong_count_clear_grad.
Print Assumptions sole_owner.
Print Assumptions takevec_step.
Print Assumptions root_and_entry_ge2.
Print Assumptions drop_step.
Print Assumptions leaf_roots_sole_owner.
Print Assumptions only_root_sole_owner.
Print Assumptions alloc_fresh_buffer.
Print Assumptions alloc_buf_le.
Print Assumptions apply_op_untracked.
Print Assumptions untracked_op_keeps_counts.
Print Assumptions model_forward_roots.
Print Assumptions model_update_fresh_params.
