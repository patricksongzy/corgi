(** User-facing compositions of the engine theorems: passes preserve the invariants,
    are independent of earlier passes, accumulate additively (C10); every closure runs
    once with its adjoint (C11); flags and support (C09); linearity in the seed (C17);
    reverse mode agrees with forward mode (C01). *)

From Coq Require Import List Arith Bool Lia PeanoNat Permutation.
From Corgi Require Import Lib.OptionMonad Model.Engine Proofs.EngineDefs Proofs.EngineBase
     Proofs.Propagate Proofs.EngineInv Proofs.AdjointSpec Proofs.SweepFacts Proofs.ValueAlg
     Proofs.SweepChar Proofs.EngineSeg Proofs.EngineValue.
Import ListNotations.

(** the slot [o] became [o'] under a pass whose table entry for the node is [od] *)
Definition stored_opt {P D} (E : eops P D) (o : option D) (od : option D) (o' : option D) : Prop :=
  match od with
  | None => o' = o
  | Some d => stored E o d o'
  end.

Section Structure.
  Context {P D : Type}.
  Variable E : eops P D.

  Lemma wfg_skel : forall g g' : store P D, skel_eq g g' -> wfg E g -> wfg E g'.
  Proof.
    intros g g' Hs Hwf id nd' Hn'.
    destruct (skel_eq_some g' g id nd' (skel_eq_sym g g' Hs) Hn') as (nd & Hn & Hp & Hc).
    destruct (Hwf id nd Hn) as (H1 & H2). unfold hasop in *. rewrite Hp, Hc. split; assumption.
  Qed.

  Lemma bop_contract_skel : forall g g' : store P D,
      skel_eq g g' -> bop_contract E g -> bop_contract E g'.
  Proof.
    intros g g' Hs Hbc id nd' pays delta ds Hn' Hb.
    destruct (skel_eq_some g' g id nd' (skel_eq_sym g g' Hs) Hn') as (nd & Hn & Hp & Hc).
    rewrite Hp, Hc in Hb. rewrite Hc. apply (Hbc id nd pays delta ds Hn Hb).
  Qed.

  Lemma reach_skel : forall (g g' : store P D) r id, skel_eq g g' -> reach g r id -> reach g' r id.
  Proof.
    intros g g' r id Hs H. induction H as [|m nd e Hr IH Hn Hin Ht]; [apply reach_root |].
    destruct (skel_eq_some g g' m nd Hs Hn) as (nd2 & Hb & _ & Hc).
    apply (reach_step g' r m nd2 e IH Hb); [rewrite <- Hc; exact Hin | exact Ht].
  Qed.

  Lemma reach_skel_iff : forall (g g' : store P D) r id,
      skel_eq g g' -> (reach g r id <-> reach g' r id).
  Proof.
    intros g g' r id Hs. split; apply reach_skel; [exact Hs | apply skel_eq_sym; exact Hs].
  Qed.

  Lemma seed_of_skel : forall (g g' : store P D) r seed,
      skel_eq g g' -> seed_of E g r seed = seed_of E g' r seed.
  Proof.
    intros g g' r seed Hs. unfold seed_of. destruct seed as [s|]; [reflexivity |].
    destruct (skel_eq_nth g g' r Hs) as [[Ha Hb] | (nd1 & nd2 & Ha & Hb & Hp & _)];
      rewrite Ha, Hb; simpl; [reflexivity | rewrite Hp; reflexivity].
  Qed.

  Lemma hasop_skel : forall (g g' : store P D) id,
      skel_eq g g' ->
      ((exists nd, nth_error g id = Some nd /\ hasop E nd = true) <->
       (exists nd, nth_error g' id = Some nd /\ hasop E nd = true)).
  Proof.
    assert (Hone : forall (g g' : store P D) id, skel_eq g g' ->
               (exists nd, nth_error g id = Some nd /\ hasop E nd = true) ->
               (exists nd, nth_error g' id = Some nd /\ hasop E nd = true)).
    { intros g g' id Hs (nd & Hn & Hop).
      destruct (skel_eq_some g g' id nd Hs Hn) as (nd2 & Hb & Hp & _).
      exists nd2. split; [exact Hb |]. unfold hasop in *. rewrite <- Hp. exact Hop. }
    intros g g' id Hs. split; apply Hone; [exact Hs | apply skel_eq_sym; exact Hs].
  Qed.

  Theorem pass_structure : forall (g : store P D) r keep seed g' log,
      wfg E g -> clean g -> bop_contract E g -> r < length g ->
      run_backward E g r keep seed = Some (g', log) ->
      skel_eq g g' /\ wfg E g' /\ clean g' /\ bop_contract E g'.
  Proof.
    intros g r keep seed g' log Hwf Hclean Hbc Hr Hrun.
    destruct (pass_spec E g r keep seed g' log Hwf Hclean Hbc Hr Hrun)
      as (Hclean' & Hlen & Hskel & _).
    assert (Hs : skel_eq g g').
    { split; [symmetry; exact Hlen |]. intros id nd nd' Hn Hn'.
      destruct (Hskel id nd nd' Hn Hn') as (H1 & H2). split; symmetry; assumption. }
    split; [exact Hs |]. split; [eapply wfg_skel; eassumption |].
    split; [exact Hclean' | eapply bop_contract_skel; eassumption].
  Qed.

  (** the default seed: [None] behaves exactly like [Some ones] (definitional in the model) *)
  Theorem run_backward_default_seed : forall (g : store P D) r keep ndr,
      nth_error g r = Some ndr ->
      run_backward E g r keep None = run_backward E g r keep (Some (eo_ones E (n_pay ndr))).
  Proof.
    intros g r keep ndr Hndr. unfold run_backward. rewrite !backward_S, Hndr. reflexivity.
  Qed.

  Lemma seed_of_total : forall (g : store P D) r seed,
      r < length g -> exists s0, seed_of E g r seed = Some s0.
  Proof.
    intros g r seed Hr. unfold seed_of. destruct seed as [s|]; [exists s; reflexivity |].
    destruct (nth_error g r) as [nd|] eqn:Hn; [| apply nth_error_None in Hn; lia].
    eexists. reflexivity.
  Qed.

  (** (T3, C09 engine part) flags and support of a pass *)
  Theorem pass_flags_and_support : forall (g : store P D) r keep seed g' log,
      wfg E g -> clean g -> bop_contract E g -> r < length g ->
      run_backward E g r keep seed = Some (g', log) ->
      (* payload and children -- hence every entry with its flags -- are as before:
         the clear/restore pair around the closure is neutral *)
      length g' = length g /\
      (forall id nd nd', nth_error g id = Some nd -> nth_error g' id = Some nd' ->
           n_pay nd' = n_pay nd /\ n_children nd' = n_children nd /\
           forall i e, nth_error (n_children nd) i = Some e ->
                       nth_error (n_children nd') i = Some e) /\
      (* a gradient slot changes only on the differentiated sub-graph: nothing flows
         through an untracked entry *)
      (forall id nd nd', nth_error g id = Some nd -> nth_error g' id = Some nd' ->
           ~ reach g r id -> n_grad nd' = n_grad nd) /\
      (* what a pass stores is a plain value: the slot is untouched, or holds the adjoint,
         or holds [eo_add old adjoint] *)
      (forall id nd nd', nth_error g id = Some nd -> nth_error g' id = Some nd' ->
           n_grad nd' = n_grad nd \/ exists delta, stored E (n_grad nd) delta (n_grad nd')).
  Proof.
    intros g r keep seed g' log Hwf Hclean Hbc Hr Hrun.
    destruct (pass_spec E g r keep seed g' log Hwf Hclean Hbc Hr Hrun)
      as (_ & Hlen & Hskel & Hout & _).
    split; [exact Hlen |]. split.
    { intros id nd nd' Hn Hn'. destruct (Hskel id nd nd' Hn Hn') as (H1 & H2).
      split; [exact H1 |]. split; [exact H2 |]. intros i e He. rewrite H2. exact He. }
    split; [exact Hout |].
    intros id nd nd' Hn Hn'.
    destruct (seed_of_total g r seed Hr) as (s0 & Hseed).
    destruct (engine_facts E g r keep seed s0 g' log Hwf Hclean Hbc Hr Hseed Hrun)
      as [FT' H FT _ _ _ _ _ _ Hrule _].
    pose proof (Hrule id nd nd' Hn Hn') as Hru.
    destruct (lk id FT) as [[d k]|]; [| left; exact Hru].
    destruct (_ || k); [right; exists d; exact Hru | left; exact Hru].
  Qed.
End Structure.

Section Value.
  Context {P D : Type}.
  Variable E : eops P D.
  Variable S : Type.
  Variable sh : D -> S.
  Variable psh : P -> S.
  Hypothesis add_ok : forall x y, sh x = sh y -> exists z, eo_add E x y = Some z /\ sh z = sh x.
  Hypothesis add_comm : forall x y, sh x = sh y -> eo_add E x y = eo_add E y x.
  Hypothesis add_assoc : forall x y z xy yz, sh x = sh y -> sh y = sh z ->
      eo_add E x y = Some xy -> eo_add E y z = Some yz -> eo_add E xy z = eo_add E x yz.
  Hypothesis flat_sh : forall d p d', eo_flat E d p = Some d' -> sh d' = psh p.

  Definition gshape (g : store P D) : Prop :=
    forall id nd x, nth_error g id = Some nd -> n_grad nd = Some x -> sh x = psh (n_pay nd).

  Definition good (g : store P D) : Prop :=
    wfg E g /\ clean g /\ bop_contract E g /\ gshape g.

  (** the pass (r, seed) is admissible on [g] and uses the seed [s0] *)
  Definition seed_ok (g : store P D) (r : nat) (seed : option D) (s0 : D) : Prop :=
    r < length g /\ seed_of E g r seed = Some s0 /\
    exists ndr, nth_error g r = Some ndr /\ sh s0 = psh (n_pay ndr).

  Lemma seed_ok_skel : forall g g' r seed s0,
      skel_eq g g' -> seed_ok g r seed s0 -> seed_ok g' r seed s0.
  Proof.
    intros g g' r seed s0 Hs (Hr & Hseed & ndr & Hndr & Hsh).
    split; [destruct Hs as (Hl & _); lia |].
    split; [rewrite <- (seed_of_skel E g g' r seed Hs); exact Hseed |].
    destruct (skel_eq_some g g' r ndr Hs Hndr) as (nd2 & Hb & Hp & _).
    exists nd2. split; [exact Hb | congruence].
  Qed.

  (** (T1a) a pass preserves all standing invariants and the skeleton *)
  Theorem pass_preserves_invariants : forall g r keep seed s0 g' log,
      good g -> seed_ok g r seed s0 ->
      run_backward E g r keep seed = Some (g', log) ->
      good g' /\ skel_eq g g'.
  Proof.
    intros g r keep seed s0 g' log (Hwf & Hclean & Hbc & Hgs) (Hr & Hseed & ndr & Hndr & Hsh) Hrun.
    destruct (pass_structure E g r keep seed g' log Hwf Hclean Hbc Hr Hrun)
      as (Hs & Hwf' & Hclean' & Hbc').
    destruct (pass_value E S sh psh add_ok add_comm add_assoc flat_sh g r keep seed s0 ndr g' log
                         Hwf Hclean Hbc Hr Hndr Hseed Hsh Hgs Hrun)
      as (tab & _ & _ & _ & _ & _ & _ & _ & _ & _ & _ & _ & Hgs').
    split; [| exact Hs]. split; [exact Hwf' |]. split; [exact Hclean' |].
    split; [exact Hbc' | exact Hgs'].
  Qed.

  (** what a pass does to the leaves: the table entry is accumulated into the slot *)
  Lemma pass_leaf : forall g r keep seed s0 g' log,
      good g -> seed_ok g r seed s0 ->
      run_backward E g r keep seed = Some (g', log) ->
      exists tab, adjoints E g r s0 = Some tab /\ length tab = length g /\
        (forall id delta, In (id, delta) log -> nth id tab None = Some delta) /\
        forall id nd nd', nth_error g id = Some nd -> nth_error g' id = Some nd' ->
                          n_children nd = [] ->
                          stored_opt E (n_grad nd) (nth id tab None) (n_grad nd').
  Proof.
    intros g r keep seed s0 g' log (Hwf & Hclean & Hbc & Hgs) (Hr & Hseed & ndr & Hndr & Hsh) Hrun.
    destruct (pass_spec E g r keep seed g' log Hwf Hclean Hbc Hr Hrun)
      as (_ & _ & _ & Hout & _).
    destruct (pass_value E S sh psh add_ok add_comm add_assoc flat_sh g r keep seed s0 ndr g' log
                         Hwf Hclean Hbc Hr Hndr Hseed Hsh Hgs Hrun)
      as (tab & Htab & Hlen & _ & Hlog & Hre & _ & _ & Hleaf & _).
    exists tab. split; [exact Htab |]. split; [exact Hlen |].
    split.
    { intros id delta Hin. rewrite nth_nth_error, (Hlog id delta Hin). reflexivity. }
    intros id nd nd' Hn Hn' Hch.
    assert (Hid : id < length g) by (eapply nth_lt; exact Hn).
    unfold stored_opt. destruct (nth id tab None) as [d|] eqn:Hd.
    - apply (Hleaf id nd nd' d Hn Hn'); [| exact Hch].
      rewrite nth_nth_error in Hd. destruct (nth_error tab id) as [x|] eqn:Hx; congruence.
    - apply (Hout id nd nd' Hn Hn'). intro Hreach. apply (Hre id Hid) in Hreach.
      apply Hreach. exact Hd.
  Qed.

  (** (T1b) a pass computes the same thing whatever the gradient slots hold: two stores
      with the same skeleton give the same adjoint table and the same closure calls *)
  Theorem pass_independent : forall g1 g2 r keep seed s0 g1' log1 g2' log2,
      skel_eq g1 g2 -> good g1 -> good g2 -> seed_ok g1 r seed s0 ->
      run_backward E g1 r keep seed = Some (g1', log1) ->
      run_backward E g2 r keep seed = Some (g2', log2) ->
      seed_of E g2 r seed = Some s0 /\
      adjoints E g1 r s0 = adjoints E g2 r s0 /\
      (forall id delta, In (id, delta) log1 <-> In (id, delta) log2) /\
      Permutation log1 log2.
  Proof.
    intros g1 g2 r keep seed s0 g1' log1 g2' log2 Hs Hg1 Hg2 Hso1 Hrun1 Hrun2.
    pose proof (seed_ok_skel g1 g2 r seed s0 Hs Hso1) as Hso2.
    destruct (pass_leaf g1 r keep seed s0 g1' log1 Hg1 Hso1 Hrun1) as (t1 & Ht1 & _ & Hl1 & _).
    destruct (pass_leaf g2 r keep seed s0 g2' log2 Hg2 Hso2 Hrun2) as (t2 & Ht2 & _ & Hl2 & _).
    pose proof (adjoints_skel E g1 g2 r s0 Hs) as Hadj.
    assert (Ht : t1 = t2) by congruence. subst t2.
    destruct Hg1 as (Hwf1 & Hcl1 & Hbc1 & _). destruct Hg2 as (Hwf2 & Hcl2 & Hbc2 & _).
    destruct Hso1 as (Hr1 & _). destruct Hso2 as (Hr2 & Hseed2 & _).
    destruct (pass_spec E g1 r keep seed g1' log1 Hwf1 Hcl1 Hbc1 Hr1 Hrun1)
      as (_ & _ & _ & _ & Hnd1 & Hin1 & _).
    destruct (pass_spec E g2 r keep seed g2' log2 Hwf2 Hcl2 Hbc2 Hr2 Hrun2)
      as (_ & _ & _ & _ & Hnd2 & Hin2 & _).
    assert (Hids : forall id, In id (map fst log1) <-> In id (map fst log2)).
    { intro id. rewrite Hin1, Hin2, (reach_skel_iff g1 g2 r id Hs), (hasop_skel E g1 g2 id Hs).
      reflexivity. }
    assert (Hone : forall la lb : @trace D,
               (forall id delta, In (id, delta) la -> nth id t1 None = Some delta) ->
               (forall id delta, In (id, delta) lb -> nth id t1 None = Some delta) ->
               (forall id, In id (map fst la) -> In id (map fst lb)) ->
               forall id delta, In (id, delta) la -> In (id, delta) lb).
    { intros la lb Ha Hb Hsub id delta Hin.
      assert (Hi : In id (map fst lb)).
      { apply Hsub. change id with (fst (id, delta)). apply in_map. exact Hin. }
      apply in_map_iff in Hi. destruct Hi as ([id' d'] & Hf & Hin'). simpl in Hf. subst id'.
      pose proof (Ha id delta Hin) as H1. pose proof (Hb id d' Hin') as H2.
      assert (d' = delta) by congruence. subst d'. exact Hin'. }
    assert (Hsame : forall id delta, In (id, delta) log1 <-> In (id, delta) log2).
    { intros id delta. split.
      - apply (Hone log1 log2 Hl1 Hl2). intro i. apply Hids.
      - apply (Hone log2 log1 Hl2 Hl1). intro i. apply Hids. }
    split; [exact Hseed2 |]. split; [exact Hadj |]. split; [exact Hsame |].
    apply NoDup_Permutation.
    - eapply NoDup_map_inv. exact Hnd1.
    - eapply NoDup_map_inv. exact Hnd2.
    - intros [id delta]. apply Hsame.
  Qed.

  (** (T1c) two passes in a row: each leaf accumulates the two stand-alone tables,
      both computed on the ORIGINAL store *)
  Theorem two_passes_add : forall g r1 keep1 seed1 s1 r2 keep2 seed2 s2 g1 log1 g2 log2,
      good g -> seed_ok g r1 seed1 s1 -> seed_ok g r2 seed2 s2 ->
      run_backward E g r1 keep1 seed1 = Some (g1, log1) ->
      run_backward E g1 r2 keep2 seed2 = Some (g2, log2) ->
      exists tab1 tab2,
        adjoints E g r1 s1 = Some tab1 /\ adjoints E g r2 s2 = Some tab2 /\
        good g2 /\ skel_eq g g2 /\
        forall id nd nd2, nth_error g id = Some nd -> nth_error g2 id = Some nd2 ->
          n_children nd = [] ->
          exists o1, stored_opt E (n_grad nd) (nth id tab1 None) o1 /\
                     stored_opt E o1 (nth id tab2 None) (n_grad nd2).
  Proof.
    intros g r1 keep1 seed1 s1 r2 keep2 seed2 s2 g1 log1 g2 log2 Hg Hso1 Hso2 Hrun1 Hrun2.
    destruct (pass_preserves_invariants g r1 keep1 seed1 s1 g1 log1 Hg Hso1 Hrun1) as (Hg1 & Hs1).
    pose proof (seed_ok_skel g g1 r2 seed2 s2 Hs1 Hso2) as Hso2'.
    destruct (pass_preserves_invariants g1 r2 keep2 seed2 s2 g2 log2 Hg1 Hso2' Hrun2)
      as (Hg2 & Hs2).
    destruct (pass_leaf g r1 keep1 seed1 s1 g1 log1 Hg Hso1 Hrun1) as (t1 & Ht1 & _ & _ & Hleaf1).
    destruct (pass_leaf g1 r2 keep2 seed2 s2 g2 log2 Hg1 Hso2' Hrun2)
      as (t2 & Ht2 & _ & _ & Hleaf2).
    rewrite <- (adjoints_skel E g g1 r2 s2 Hs1) in Ht2.
    exists t1, t2. split; [exact Ht1 |]. split; [exact Ht2 |]. split; [exact Hg2 |].
    split; [eapply skel_eq_trans; eassumption |].
    intros id nd nd2 Hn Hn2 Hch.
    destruct (skel_eq_some g g1 id nd Hs1 Hn) as (nd1 & Hb & _ & Hc).
    exists (n_grad nd1). split.
    - apply (Hleaf1 id nd nd1 Hn Hb Hch).
    - apply (Hleaf2 id nd1 nd2 Hb Hn2). rewrite <- Hc. exact Hch.
  Qed.

  Lemma stored_opt_none : forall od o', stored_opt E None od o' -> o' = od.
  Proof. intros od o' H. destruct od as [d|]; simpl in H; exact H. Qed.

  (** ** (T1d) any sequence of passes and gradient clears *)

  Inductive step : Type :=
  | Pass (r : nat) (keep : bool) (seed : option D)
  | Clear (id : nat).

  (** what the user does to restart accumulation on a node *)
  Definition clear_grad (g : store P D) (id : nat) : option (store P D) :=
    nd <- nth_error g id ;; put g id (set_grad nd None).

  Fixpoint run_steps (g : store P D) (st : list step) : option (store P D) :=
    match st with
    | [] => Some g
    | Pass r keep seed :: st' => res <- run_backward E g r keep seed ;; run_steps (fst res) st'
    | Clear id :: st' => g' <- clear_grad g id ;; run_steps g' st'
    end.

  (** the slot of node [id] after the steps [st], starting from [o]: every pass accumulates
      the entry of its stand-alone table, computed on the ORIGINAL store [g0]; a clear of
      [id] restarts from [None] *)
  Fixpoint acc_steps (g0 : store P D) (st : list step) (id : nat) (o o' : option D) : Prop :=
    match st with
    | [] => o' = o
    | Pass r keep seed :: st' =>
      exists s0 tab o1,
        seed_of E g0 r seed = Some s0 /\ adjoints E g0 r s0 = Some tab /\
        stored_opt E o (nth id tab None) o1 /\ acc_steps g0 st' id o1 o'
    | Clear i :: st' => acc_steps g0 st' id (if i =? id then None else o) o'
    end.

  Definition step_ok (g0 : store P D) (s : step) : Prop :=
    match s with
    | Pass r _ seed => exists s0, seed_ok g0 r seed s0
    | Clear _ => True
    end.

  Lemma clear_grad_preserves : forall g i g',
      good g -> clear_grad g i = Some g' ->
      good g' /\ skel_eq g g' /\
      forall id nd nd', nth_error g id = Some nd -> nth_error g' id = Some nd' ->
                        n_grad nd' = if i =? id then None else n_grad nd.
  Proof.
    intros g i g' (Hwf & Hclean & Hbc & Hgs) Hc. unfold clear_grad in Hc.
    revert Hc. apply obind_elim. intros ndi Hndi Hput.
    pose proof (skel_eq_put_grad g i ndi None g' Hndi Hput) as Hs.
    apply put_inv in Hput. destruct Hput as (_ & _ & Hnth).
    assert (Hcase : forall id nd', nth_error g' id = Some nd' ->
               (id = i /\ nd' = set_grad ndi None) \/ (id <> i /\ nth_error g id = Some nd')).
    { intros id nd' Hn'. rewrite Hnth in Hn'. destruct (id =? i) eqn:Hid.
      - apply Nat.eqb_eq in Hid. left. split; [exact Hid | congruence].
      - apply Nat.eqb_neq in Hid. right. split; assumption. }
    split; [| split; [exact Hs |]].
    - split; [eapply wfg_skel; eassumption |]. split; [| split; [eapply bop_contract_skel; eassumption |]].
      + intros id nd' Hn'. destruct (Hcase id nd' Hn') as [(Hid & Hnd') | (Hid & Hn)].
        * subst id nd'. simpl. apply (Hclean i ndi Hndi).
        * apply (Hclean id nd' Hn).
      + intros id nd' x Hn' Hx. destruct (Hcase id nd' Hn') as [(Hid & Hnd') | (Hid & Hn)].
        * subst nd'. simpl in Hx. discriminate Hx.
        * apply (Hgs id nd' x Hn Hx).
    - intros id nd nd' Hn Hn'. destruct (Hcase id nd' Hn') as [(Hid & Hnd') | (Hid & Hn2)].
      + subst id nd'. rewrite Nat.eqb_refl. reflexivity.
      + assert (Hne : (i =? id) = false) by (apply Nat.eqb_neq; congruence).
        rewrite Hne. congruence.
  Qed.

  Lemma steps_accumulate_gen : forall g0 st g gN,
      skel_eq g0 g -> good g -> Forall (step_ok g0) st ->
      run_steps g st = Some gN ->
      good gN /\ skel_eq g0 gN /\
      forall id nd ndN, nth_error g id = Some nd -> nth_error gN id = Some ndN ->
                        n_children nd = [] -> acc_steps g0 st id (n_grad nd) (n_grad ndN).
  Proof.
    intros g0 st. induction st as [|s st IH]; intros g gN Hs Hg Hok Hrun.
    - simpl in Hrun. injection Hrun as Hrun. subst gN.
      split; [exact Hg |]. split; [exact Hs |].
      intros id nd ndN Hn HnN _. simpl. congruence.
    - inversion Hok as [|s' st' Hs1 Hok']. subst s' st'.
      destruct s as [r keep seed | i]; simpl in Hrun.
      + revert Hrun. apply obind_elim. intros [g' log] Hpass Hrun. simpl in Hrun.
        destruct Hs1 as (s0 & Hso0).
        pose proof (seed_ok_skel g0 g r seed s0 Hs Hso0) as Hso.
        destruct (pass_preserves_invariants g r keep seed s0 g' log Hg Hso Hpass) as (Hg' & Hs').
        destruct (pass_leaf g r keep seed s0 g' log Hg Hso Hpass) as (tab & Htab & _ & _ & Hleaf).
        rewrite <- (adjoints_skel E g0 g r s0 Hs) in Htab.
        destruct (IH g' gN (skel_eq_trans g0 g g' Hs Hs') Hg' Hok' Hrun) as (HgN & HsN & Hacc).
        split; [exact HgN |]. split; [exact HsN |].
        intros id nd ndN Hn HnN Hch.
        destruct (skel_eq_some g g' id nd Hs' Hn) as (nd' & Hb & _ & Hc).
        simpl. exists s0, tab, (n_grad nd').
        split; [destruct Hso0 as (_ & Hseed & _); exact Hseed |]. split; [exact Htab |].
        split; [apply (Hleaf id nd nd' Hn Hb Hch) |].
        apply (Hacc id nd' ndN Hb HnN). rewrite <- Hc. exact Hch.
      + revert Hrun. apply obind_elim. intros g' Hclr Hrun.
        destruct (clear_grad_preserves g i g' Hg Hclr) as (Hg' & Hs' & Hgr).
        destruct (IH g' gN (skel_eq_trans g0 g g' Hs Hs') Hg' Hok' Hrun) as (HgN & HsN & Hacc).
        split; [exact HgN |]. split; [exact HsN |].
        intros id nd ndN Hn HnN Hch.
        destruct (skel_eq_some g g' id nd Hs' Hn) as (nd' & Hb & _ & Hc).
        simpl. rewrite <- (Hgr id nd nd' Hn Hb).
        apply (Hacc id nd' ndN Hb HnN). rewrite <- Hc. exact Hch.
  Qed.

  (** (T1d) gradients accumulate additively over any sequence of passes, counted from the
      last time the slot was cleared; every table is the one of the stand-alone pass on
      the original store *)
  Theorem steps_accumulate : forall g0 st gN,
      good g0 -> Forall (step_ok g0) st -> run_steps g0 st = Some gN ->
      good gN /\ skel_eq g0 gN /\
      forall id nd ndN, nth_error g0 id = Some nd -> nth_error gN id = Some ndN ->
                        n_children nd = [] -> acc_steps g0 st id (n_grad nd) (n_grad ndN).
  Proof.
    intros g0 st gN Hg Hok Hrun.
    apply (steps_accumulate_gen g0 st g0 gN (skel_eq_refl g0) Hg Hok Hrun).
  Qed.

  (** ** (T2, C11) every closure runs once, in order, with its adjoint *)

  (** all contributions sent by the nodes with a non-empty slot, evaluated at their
      adjoints, in sweep order *)
  Definition inc_all (g : store P D) (tab : table) (r : nat) : list (nat * D) :=
    flat_map (fun n => match nth n tab None with
                       | Some a => match contribs E g n a with Some cs => cs | None => [] end
                       | None => []
                       end) (rng 0 (Datatypes.S r)).

  Theorem closure_once_complete : forall g r keep seed s0 g' log,
      good g -> seed_ok g r seed s0 ->
      run_backward E g r keep seed = Some (g', log) ->
      exists tab, adjoints E g r s0 = Some tab /\
        (* once *)
        NoDup (map fst log) /\
        (* exactly the closures of the differentiated sub-graph *)
        (forall id, In id (map fst log) <->
                    (reach g r id /\ exists nd, nth_error g id = Some nd /\ hasop E nd = true)) /\
        (* consumers first *)
        (forall n m, reach g r n -> tedge g n m ->
             (exists nd, nth_error g m = Some nd /\ hasop E nd = true) ->
             before (map fst log) n m) /\
        (* each call received the node's adjoint *)
        (forall id delta, In (id, delta) log -> nth id tab None = Some delta) /\
        (* which is the seed for the root and otherwise the accumulation, in any order, of
           exactly the contributions addressed to the node by the differentiated nodes *)
        (forall id l, id < length g -> Permutation l (vals id (inc_all g tab r)) ->
             accum E (if id =? r then Some s0 else None) l = Some (nth id tab None)).
  Proof.
    intros g r keep seed s0 g' log Hg Hso Hrun.
    destruct (pass_leaf g r keep seed s0 g' log Hg Hso Hrun) as (tab & Htab & Hlen & Hlog & _).
    destruct Hg as (Hwf & Hclean & Hbc & Hgs). destruct Hso as (Hr & Hseed & ndr & Hndr & Hsh).
    destruct (pass_spec E g r keep seed g' log Hwf Hclean Hbc Hr Hrun)
      as (_ & _ & _ & _ & Hnd & Hin & Hbef).
    exists tab. split; [exact Htab |]. split; [exact Hnd |]. split; [exact Hin |].
    split; [exact Hbef |]. split; [exact Hlog |].
    destruct (engine_facts E g r keep seed s0 g' log Hwf Hclean Hbc Hr Hseed Hrun)
      as [FT' H FT HA1 Hnodes HA2 HA3 HA4 _ _ _].
    assert (HA6 : exists x, nth_error g r = Some x /\ sh s0 = psh (n_pay x))
      by (exists ndr; split; assumption).
    destruct (sweep_char E S sh psh add_ok add_comm add_assoc flat_sh g r s0 Hwf Hr FT H
                         HA1 HA2 HA3 HA4 HA6) as (tab' & Htab' & _ & Hslot).
    assert (tab' = tab) by congruence. subst tab'.
    assert (Hinc : CSab E g r FT 0 = inc_all g tab r).
    { unfold CSab, inc_all. rewrite Nat.sub_0_r. apply flat_map_ext_in.
      intros n Hn. apply rng_in in Hn.
      rewrite (Hslot n) by lia. unfold csn, dvl. rewrite (filter_node_lk FT n HA1).
      destruct (lk n FT) as [[d k]|]; simpl; [| reflexivity].
      unfold cso, fnode, fdel. simpl. apply app_nil_r. }
    intros id l Hid Hperm.
    pose proof (HA4' E S sh psh add_ok add_comm add_assoc flat_sh g r s0 Hwf Hr FT H
                     HA2 HA3 HA4 HA6 id Hid) as Hacc.
    rewrite Hinc, <- (Hslot id Hid) in Hacc. unfold init in Hacc. rewrite <- Hacc.
    destruct (nth_error g id) as [c|] eqn:Hc; [| apply nth_error_None in Hc; lia].
    apply (accum_perm E S sh add_ok add_comm add_assoc (psh (n_pay c))).
    - exact Hperm.
    - destruct (id =? r) eqn:Hidr; simpl; [| exact I].
      apply Nat.eqb_eq in Hidr. subst id. congruence.
    - apply Forall_forall. intros d Hd.
      apply (Permutation_in _ Hperm) in Hd. apply vals_in in Hd.
      unfold inc_all in Hd. apply in_flat_map in Hd. destruct Hd as (n & _ & Hd).
      destruct (nth n tab None) as [a|]; [| destruct Hd].
      destruct (contribs E g n a) as [cs|] eqn:Hcs; [| destruct Hd].
      destruct (contribs_targets E g n a cs id d Hwf Hcs Hd) as (_ & c' & d0 & Hc' & Hfl).
      rewrite Hc in Hc'. injection Hc' as Hc'. subst c'. eapply flat_sh. exact Hfl.
  Qed.

  (** ** (T4, C17) a pass is linear in its seed *)

  Section Linear.
    Variable comb : D -> D -> D.
    Hypothesis H_bop : forall p pays saved x y dx dy,
        sh x = sh y ->
        eo_bop E p pays saved x = Some dx -> eo_bop E p pays saved y = Some dy ->
        eo_bop E p pays saved (comb x y) = Some (map2o comb dx dy) /\
        (forall i a b, nth_error dx i = Some (Some a) -> nth_error dy i = Some (Some b) ->
                       sh a = sh b).
    Hypothesis H_flat : forall x y p x' y',
        sh x = sh y ->
        eo_flat E x p = Some x' -> eo_flat E y p = Some y' ->
        eo_flat E (comb x y) p = Some (comb x' y') /\ sh x' = sh y'.
    Hypothesis H_add : forall x1 x2 y1 y2 x y,
        sh x1 = sh y1 -> sh x2 = sh y2 ->
        eo_add E x1 x2 = Some x -> eo_add E y1 y2 = Some y ->
        eo_add E (comb x1 y1) (comb x2 y2) = Some (comb x y) /\ sh x = sh y.

    Theorem pass_linear : forall g r keep ndr s1 s2 g1 l1 g2 l2 g3 l3,
        good g -> r < length g -> nth_error g r = Some ndr ->
        sh s1 = psh (n_pay ndr) -> sh s2 = psh (n_pay ndr) ->
        sh (comb s1 s2) = psh (n_pay ndr) ->
        run_backward E g r keep (Some s1) = Some (g1, l1) ->
        run_backward E g r keep (Some s2) = Some (g2, l2) ->
        run_backward E g r keep (Some (comb s1 s2)) = Some (g3, l3) ->
        forall id nd nd1 nd2 nd3,
          nth_error g id = Some nd -> nth_error g1 id = Some nd1 ->
          nth_error g2 id = Some nd2 -> nth_error g3 id = Some nd3 ->
          n_children nd = [] -> n_grad nd = None ->
          (n_grad nd1 = None /\ n_grad nd2 = None /\ n_grad nd3 = None) \/
          (exists x1 x2, n_grad nd1 = Some x1 /\ n_grad nd2 = Some x2 /\
                         n_grad nd3 = Some (comb x1 x2)).
    Proof.
      intros g r keep ndr s1 s2 g1 l1 g2 l2 g3 l3 Hg Hr Hndr Hs1 Hs2 Hs3 Hrun1 Hrun2 Hrun3
             id nd nd1 nd2 nd3 Hn Hn1 Hn2 Hn3 Hch Hgn.
      assert (Hso : forall s, sh s = psh (n_pay ndr) -> seed_ok g r (Some s) s).
      { intros s Hs. split; [exact Hr |]. split; [reflexivity |]. exists ndr. split; assumption. }
      destruct (pass_leaf g r keep (Some s1) s1 g1 l1 Hg (Hso s1 Hs1) Hrun1)
        as (t1 & Ht1 & _ & _ & Hleaf1).
      destruct (pass_leaf g r keep (Some s2) s2 g2 l2 Hg (Hso s2 Hs2) Hrun2)
        as (t2 & Ht2 & _ & _ & Hleaf2).
      destruct (pass_leaf g r keep (Some (comb s1 s2)) (comb s1 s2) g3 l3 Hg (Hso _ Hs3) Hrun3)
        as (t3 & Ht3 & _ & _ & Hleaf3).
      pose proof (Hleaf1 id nd nd1 Hn Hn1 Hch) as H1. rewrite Hgn in H1.
      pose proof (Hleaf2 id nd nd2 Hn Hn2 Hch) as H2. rewrite Hgn in H2.
      pose proof (Hleaf3 id nd nd3 Hn Hn3 Hch) as H3. rewrite Hgn in H3.
      apply stored_opt_none in H1. apply stored_opt_none in H2. apply stored_opt_none in H3.
      destruct Hg as (_ & _ & Hbc & _).
      destruct (sweep_linear_ok E comb (fun x y => sh x = sh y) H_bop H_flat H_add
                                g r s1 s2 t1 t2 Hbc (eq_trans Hs1 (eq_sym Hs2)) Ht1 Ht2)
        as (Hlin & _ & Hnone & _).
      assert (Ht : t3 = map2o comb t1 t2) by congruence.
      rewrite Ht, map2o_nth in H3. rewrite H1, H2, H3.
      destruct (nth id t1 None) as [x1|] eqn:Hx1.
      - destruct (nth id t2 None) as [x2|] eqn:Hx2.
        + right. exists x1, x2. simpl. tauto.
        + exfalso. pose proof (proj2 (Hnone id) Hx2) as Hc. congruence.
      - left. simpl. split; [reflexivity |]. split; [apply (Hnone id); exact Hx1 | reflexivity].
    Qed.
  End Linear.

  (** ** (T5, C01) reverse mode agrees with forward mode *)

  Section Forward.
    Variable g : store P D.
    Variable T : Type.
    Variable K : Type.
    Variable k0 : K.
    Variable kadd : K -> K -> K.
    Hypothesis kadd_assoc : forall a b c, kadd a (kadd b c) = kadd (kadd a b) c.
    Hypothesis kadd_comm : forall a b, kadd a b = kadd b a.
    Hypothesis kadd_0_l : forall a, kadd k0 a = a.
    Variable pair : D -> T -> K.
    Variable tan : nat -> T.
    Hypothesis H_pair_add : forall x y z t,
        eo_add E x y = Some z -> pair z t = kadd (pair x t) (pair y t).
    Hypothesis H_local : forall n nd delta cs,
        nth_error g n = Some nd -> hasop E nd = true -> contribs E g n delta = Some cs ->
        pair delta (tan n) = ksum kadd k0 (map (fun c => pair (snd c) (tan (fst c))) cs).

    (** the seed paired with the forward tangent of the result equals the sum, over the
        nodes without a closure (the leaves), of the gradient the pass stored paired with
        the leaf's tangent *)
    Theorem reverse_equals_forward : forall r keep seed s0 g' log,
        good g -> (forall id nd, nth_error g id = Some nd -> n_grad nd = None) ->
        seed_ok g r seed s0 ->
        run_backward E g r keep seed = Some (g', log) ->
        pair s0 (tan r) =
        ksum kadd k0
             (map (fun m => match grd g' m with
                            | Some d => pair d (tan m)
                            | None => k0
                            end)
                  (filter (fun m => negb (isop E g m)) (seq 0 (Datatypes.S r)))).
    Proof.
      intros r keep seed s0 g' log Hg Hempty Hso Hrun.
      destruct (pass_leaf g r keep seed s0 g' log Hg Hso Hrun) as (tab & Htab & _ & _ & Hleaf).
      destruct (pass_preserves_invariants g r keep seed s0 g' log Hg Hso Hrun) as (_ & Hs).
      destruct Hg as (Hwf & _). destruct Hso as (Hr & _).
      rewrite (adjoint_identity E g T K k0 kadd kadd_assoc kadd_comm kadd_0_l pair tan
                                H_pair_add H_local r s0 tab Hwf Hr Htab).
      f_equal. apply map_ext_in. intros m Hm. apply filter_In in Hm. destruct Hm as (Hm & Hop).
      apply in_seq in Hm.
      destruct (skel_eq_nth g g' m Hs) as [[Ha _] | (nd & nd' & Ha & Hb & _ & _)].
      - apply nth_error_None in Ha. lia.
      - assert (Hch : n_children nd = []).
        { destruct (Hwf m nd Ha) as (_ & Hnil). apply Hnil.
          unfold isop in Hop. rewrite Ha in Hop. apply negb_true_iff in Hop. exact Hop. }
        pose proof (Hleaf m nd nd' Ha Hb Hch) as Hst. rewrite (Hempty m nd Ha) in Hst.
        apply stored_opt_none in Hst. rewrite (grd_nth g' m nd' Hb), Hst. reflexivity.
    Qed.
  End Forward.
End Value.

Print Assumptions pass_structure.
Print Assumptions run_backward_default_seed.
Print Assumptions pass_flags_and_support.
Print Assumptions pass_preserves_invariants.
Print Assumptions pass_independent.
Print Assumptions two_passes_add.
Print Assumptions steps_accumulate.
Print Assumptions closure_once_complete.
Print Assumptions pass_linear.
Print Assumptions reverse_equals_forward.
