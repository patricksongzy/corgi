(** C19, closeness half: forward rounding-error bounds for the model run at a rounded-real
    instance ([rounded_ops emin prec], Model/RoundedScalar.v: radix 2, [FLT_exp emin prec],
    round to nearest even; binary32 = (-149, 24), binary64 = (-1074, 53)) against the SAME
    model run over the reals ([R_ops]).  Flocq (4.1) supplies the one-rounding facts
    ([error_N_FLT], [FLT_plus_error_N_ex]); everything else is proved here.  Flocq and Reals
    are imported only by this file and Model/RoundedScalar.v.

    Notation: [u prec = 2^(-prec)] (unit round-off), [eta emin = 2^(emin-1)] (half the
    smallest subnormal), [theta k = (1+u)^k - 1], [gamma k = k u / (1 - k u)];
    [theta k <= gamma k] whenever [k u < 1] ([theta_le_gamma], Higham, Accuracy and
    Stability, Lemma 3.1).  [rsum = vsum R_ops] is the exact real sum.

    (a) one operation: [fadd_err], [fsub_err] (representable operands: purely relative),
        [fmul_err], [fdiv_err], [funary_err], [rn_err] (relative [u] plus absolute [eta]);
    (b) summation, the model's left fold: [vsum_err] ([theta (n-1)]), [vsum_err_gamma];
    (c) dot product [fadd c (vsum (map (fun k => fmul (A k) (B k)) (seq 0 n)))], the element
        formula of [matmul_spec] and [conv_spec]: [dot_err], [dot_err_gamma], instances of
        [vsum_close], [dot_close] (sums of terms that carry a relative and an absolute error);
        array level: [matmul_rounding] (all flag pairs, all admissible additive terms);
    (d) [a_sum_rounding], [conv_rounding], [ew_rounding] (add / mul / div, one rounding each);
    (e) two formats on the same data: [matmul_two_formats], [conv_two_formats],
        [a_sum_two_formats]; binary32 against binary64 in gamma form: [matmul_f32_f64].
    The factors of a product need not be representable for (c): the product is rounded
    whatever they are; only the additive term (and, for sums, the summands) must be.
    NOT MODELLED: overflow (the exponent range of [FLT_exp] is unbounded above: results are
    assumed to stay below [2^128] resp. [2^1024]), NaN/infinities, signed zeros, and a libm
    that is merely faithful (the instance's [exp]/[ln]/[powf] are correctly rounded).
    No axiom is declared here. *)

From Coq Require Import List Arith Bool Lia PeanoNat ZArith Reals Lra Psatz.
From Flocq Require Import Core Relative Plus_error.
From Corgi Require Import Lib.OptionMonad Lib.IdxDefs Lib.Idx Model.Scalar Model.RealScalar
     Model.RoundedScalar Model.Arr Model.SlicedOp Model.Elementwise Lib.Sums Proofs.ArrFacts
     Proofs.BroadcastDims Proofs.SpecDefs Proofs.SlicedOpSpec Proofs.EwSpec Proofs.ReduceSpec
     Model.Linalg Model.Image Proofs.MatmulSpec Proofs.ConvSpec Proofs.DualLift Proofs.RealDerivs.
Import ListNotations.

Local Open Scope R_scope.

Notation rsum := (vsum R_ops).

Lemma rsum_nil : rsum [] = 0.
Proof. reflexivity. Qed.

Lemma rsum_cons : forall x l, rsum (x :: l) = x + rsum l.
Proof. intros. exact (vsum_cons R_ops R_is_cring x l). Qed.

Lemma rsum_abs_nonneg : forall l, 0 <= rsum (map Rabs l).
Proof.
  induction l as [|x l IH]; cbn [map]; [rewrite rsum_nil; lra|].
  rewrite rsum_cons. pose proof (Rabs_pos x). lra.
Qed.

Lemma rsum_abs_le : forall l, Rabs (rsum l) <= rsum (map Rabs l).
Proof.
  induction l as [|x l IH]; cbn [map]; [rewrite rsum_nil, Rabs_R0; lra|].
  rewrite !rsum_cons. pose proof (Rabs_triang x (rsum l)). lra.
Qed.

Section Format.
  Variables emin prec : Z.
  Context {Hprec : Prec_gt_0 prec}.

  Notation fmt := (generic_format radix2 (FLT_exp emin prec)).
  Notation rn := (rnd emin prec).
  Notation O := (rounded_ops emin prec).

  (** unit round-off and underflow unit *)
  Definition u : R := bpow radix2 (- prec).
  Definition eta : R := bpow radix2 (emin - 1).

  Lemma u_u_ro : u = u_ro radix2 prec.
  Proof.
    unfold u, u_ro. replace (- prec + 1)%Z with (1 + - prec)%Z by lia.
    rewrite bpow_plus. change (bpow radix2 1) with 2. field.
  Qed.

  Lemma eta_half : eta = / 2 * bpow radix2 emin.
  Proof.
    unfold eta. replace (emin - 1)%Z with (- (1) + emin)%Z by lia.
    rewrite bpow_plus. change (bpow radix2 (- (1))) with (/ 2). reflexivity.
  Qed.

  Lemma u_pos : 0 < u.
  Proof. apply bpow_gt_0. Qed.

  Lemma eta_pos : 0 < eta.
  Proof. apply bpow_gt_0. Qed.

  Lemma rn_fmt : forall x, fmt (rn x).
  Proof. intros x. apply generic_format_round; auto with typeclass_instances. Qed.

  Lemma rn_id : forall x, fmt x -> rn x = x.
  Proof. intros x Hx. apply round_generic; auto with typeclass_instances. Qed.

  Lemma fmt_0 : fmt 0.
  Proof. apply generic_format_0. Qed.

  Lemma fmt_opp : forall x, fmt x -> fmt (- x).
  Proof. intros. apply generic_format_opp. assumption. Qed.

  (** any real: relative error [u] plus absolute error [eta] *)
  Theorem rn_err : forall x, Rabs (rn x - x) <= u * Rabs x + eta.
  Proof.
    intros x.
    destruct (error_N_FLT radix2 emin prec Hprec (fun t => negb (Z.even t)) x)
      as (eps & e & Heps & He & _ & Hr).
    change (/ 2 * bpow radix2 (- prec + 1)) with (u_ro radix2 prec) in Heps.
    rewrite <- u_u_ro in Heps. rewrite <- eta_half in He.
    assert (Hr' : rn x = x * (1 + eps) + e) by exact Hr. rewrite Hr'.
    replace (x * (1 + eps) + e - x) with (x * eps + e) by ring.
    pose proof (Rabs_triang (x * eps) e) as T. rewrite Rabs_mult in T.
    pose proof (Rabs_pos x). nra.
  Qed.

  (** sum of two representable numbers: purely relative (no underflow term) *)
  Theorem rn_plus_err : forall x y, fmt x -> fmt y -> Rabs (rn (x + y) - (x + y)) <= u * Rabs (x + y).
  Proof.
    intros x y Fx Fy.
    destruct (FLT_plus_error_N_ex radix2 emin prec (fun t => negb (Z.even t)) x y Fx Fy)
      as (eps & Heps & Hr).
    pose proof (u_rod1pu_ro_le_u_ro radix2 prec) as Hu. rewrite <- u_u_ro in Heps, Hu.
    assert (Hr' : rn (x + y) = (x + y) * (1 + eps)) by exact Hr. rewrite Hr'.
    replace ((x + y) * (1 + eps) - (x + y)) with ((x + y) * eps) by ring.
    rewrite Rabs_mult. pose proof (Rabs_pos (x + y)). nra.
  Qed.

  Theorem fadd_err : forall x y, fmt x -> fmt y ->
      fmt (fadd O x y) /\ Rabs (fadd O x y - (x + y)) <= u * Rabs (x + y).
  Proof. intros x y Fx Fy. split; [apply rn_fmt|apply rn_plus_err; assumption]. Qed.

  Theorem fsub_err : forall x y, fmt x -> fmt y ->
      fmt (fsub O x y) /\ Rabs (fsub O x y - (x - y)) <= u * Rabs (x - y).
  Proof.
    intros x y Fx Fy. split; [apply rn_fmt|]. cbn [fsub rounded_ops]. unfold Rminus at 1 3 4.
    apply rn_plus_err; [exact Fx|apply fmt_opp; exact Fy].
  Qed.

  Theorem fmul_err : forall x y,
      fmt (fmul O x y) /\ Rabs (fmul O x y - x * y) <= u * Rabs (x * y) + eta.
  Proof. intros x y. split; [apply rn_fmt|apply rn_err]. Qed.

  Theorem fdiv_err : forall x y,
      fmt (fdiv O x y) /\ Rabs (fdiv O x y - x / y) <= u * Rabs (x / y) + eta.
  Proof. intros x y. split; [apply rn_fmt|apply rn_err]. Qed.

  Theorem fneg_exact : forall x, fneg O x = - x /\ (fmt x -> fmt (fneg O x)).
  Proof. intros x. split; [reflexivity|apply fmt_opp]. Qed.

  (** the idealised libm functions and [n as Float]: one rounding of the real value *)
  Theorem funary_err : forall x,
      Rabs (fexp O x - exp x) <= u * Rabs (exp x) + eta /\
      Rabs (fln O x - ln x) <= u * Rabs (ln x) + eta /\
      (forall e, Rabs (fpow O x e - fpow R_ops x e) <= u * Rabs (fpow R_ops x e) + eta).
  Proof. intros x. repeat split; intros; apply rn_err. Qed.

  Definition theta (k : nat) : R := (1 + u) ^ k - 1.
  Definition gamma (k : nat) : R := INR k * u / (1 - INR k * u).

  Lemma pow1u_ge_1 : forall k, 1 <= (1 + u) ^ k.
  Proof. intros k. apply pow_R1_Rle. pose proof u_pos. lra. Qed.

  Lemma theta_nonneg : forall k, 0 <= theta k.
  Proof. intros k. unfold theta. pose proof (pow1u_ge_1 k). lra. Qed.

  Lemma theta_S : forall k, theta (S k) = (1 + u) * theta k + u.
  Proof. intros k. unfold theta. cbn [pow]. ring. Qed.

  Lemma theta_mono : forall j k, (j <= k)%nat -> theta j <= theta k.
  Proof.
    intros j k H. unfold theta. apply Rplus_le_compat_r. apply Rle_pow; [|exact H].
    pose proof u_pos. lra.
  Qed.

  (** Higham, Lemma 3.1: [(1+u)^k - 1 <= k u / (1 - k u)] *)
  Lemma pow1u_bound : forall k, INR k * u < 1 -> (1 + u) ^ k * (1 - INR k * u) <= 1.
  Proof.
    induction k as [|k IH]; intros Hk.
    - cbn. lra.
    - rewrite S_INR in *. pose proof u_pos as Hu. pose proof (pos_INR k) as Hk0.
      assert (Hk' : INR k * u < 1) by nra. specialize (IH Hk').
      pose proof (pow1u_ge_1 k) as Hp. cbn [pow].
      replace ((1 + u) * (1 + u) ^ k * (1 - (INR k + 1) * u))
        with ((1 + u) ^ k * (1 - INR k * u) - (1 + u) ^ k * ((INR k + 1) * (u * u))) by ring.
      assert (0 <= (1 + u) ^ k * ((INR k + 1) * (u * u))).
      { apply Rmult_le_pos; [lra|]. apply Rmult_le_pos; [lra|]. apply Rmult_le_pos; lra. }
      lra.
  Qed.

  Theorem theta_le_gamma : forall k, INR k * u < 1 -> theta k <= gamma k.
  Proof.
    intros k Hk. pose proof (pow1u_bound k Hk) as H. unfold theta, gamma.
    assert (Hd : 0 < 1 - INR k * u) by lra.
    apply (Rmult_le_reg_r (1 - INR k * u)); [exact Hd|].
    replace (INR k * u / (1 - INR k * u) * (1 - INR k * u)) with (INR k * u) by (field; lra).
    lra.
  Qed.

  Lemma gamma_nonneg : forall k, INR k * u < 1 -> 0 <= gamma k.
  Proof. intros k Hk. pose proof (theta_le_gamma k Hk). pose proof (theta_nonneg k). lra. Qed.

  Lemma fold_err : forall l acc,
      fmt acc -> Forall (fun x => fmt x) l ->
      fmt (fold_left (fadd O) l acc) /\
      Rabs (fold_left (fadd O) l acc - (acc + rsum l))
      <= theta (length l) * (Rabs acc + rsum (map Rabs l)).
  Proof.
    induction l as [|x l IH]; intros acc Fa Fl.
    - cbn [fold_left length map]. split; [exact Fa|]. rewrite rsum_nil.
      replace (acc - (acc + 0)) with 0 by ring. rewrite Rabs_R0.
      unfold theta. cbn. pose proof (Rabs_pos acc). lra.
    - inversion Fl as [|? ? Fx Fl']; subst.
      cbn [fold_left length map]. rewrite !rsum_cons.
      set (a1 := fadd O acc x).
      destruct (fadd_err acc x Fa Fx) as [F1 E1]. fold a1 in F1, E1.
      destruct (IH a1 F1 Fl') as [FF EF]. split; [exact FF|].
      set (Fv := fold_left (fadd O) l a1) in *.
      set (S := rsum (map Rabs l)) in *. set (m := length l) in *.
      pose proof (rsum_abs_nonneg l) as HS. fold S in HS.
      pose proof (theta_nonneg m) as Ht. pose proof u_pos as Hu.
      pose proof (Rabs_triang acc x) as Tax.
      assert (Ha1 : Rabs a1 <= (1 + u) * (Rabs acc + Rabs x)).
      { replace a1 with ((a1 - (acc + x)) + (acc + x)) by ring.
        pose proof (Rabs_triang (a1 - (acc + x)) (acc + x)). nra. }
      replace (Fv - (acc + (x + rsum l))) with ((Fv - (a1 + rsum l)) + (a1 - (acc + x))) by ring.
      pose proof (Rabs_triang (Fv - (a1 + rsum l)) (a1 - (acc + x))) as T.
      rewrite theta_S.
      assert (H1 : theta m * (Rabs a1 + S) <= theta m * ((1 + u) * (Rabs acc + Rabs x) + S)).
      { apply Rmult_le_compat_l; lra. }
      assert (H2 : 0 <= u * theta m * S).
      { apply Rmult_le_pos; [apply Rmult_le_pos; lra|lra]. }
      assert (H3 : 0 <= u * S) by (apply Rmult_le_pos; lra).
      pose proof (Rabs_pos acc). pose proof (Rabs_pos x).
      nra.
  Qed.

  (** [vsum]: [n - 1] rounding errors (the first addition, to [0], is exact) *)
  Theorem vsum_err : forall l,
      Forall (fun x => fmt x) l ->
      fmt (vsum O l) /\
      Rabs (vsum O l - rsum l) <= theta (length l - 1) * rsum (map Rabs l).
  Proof.
    intros [|x l] Fl.
    - unfold vsum. cbn. split; [apply fmt_0|]. rewrite Rminus_0_r, Rabs_R0, Rmult_0_r. lra.
    - inversion Fl as [|? ? Fx Fl']; subst.
      unfold vsum at 1 2. cbn [fold_left f0 rounded_ops].
      assert (E : fadd O 0 x = x).
      { cbn [fadd rounded_ops]. rewrite Rplus_0_l. apply rn_id. exact Fx. }
      rewrite E. cbn [length map]. replace (S (length l) - 1)%nat with (length l) by lia.
      rewrite !rsum_cons. apply fold_err; assumption.
  Qed.

  Corollary vsum_err_gamma : forall l,
      Forall (fun x => fmt x) l -> INR (length l - 1) * u < 1 ->
      Rabs (vsum O l - rsum l) <= gamma (length l - 1) * rsum (map Rabs l).
  Proof.
    intros l Fl Hk. destruct (vsum_err l Fl) as [_ E].
    pose proof (theta_le_gamma _ Hk). pose proof (rsum_abs_nonneg l). nra.
  Qed.

  (** [e_j] approximates [E_j] with relative error [theta k] and absolute error [kap]; for the
      dot product of the model [e_j] is the rounded product, [k = 1], [kap = eta]. *)

  Lemma theta_1 : theta 1 = u.
  Proof. unfold theta. cbn. ring. Qed.

  Lemma close_sums : forall k kap e E,
      Forall2 (fun ej Ej => Rabs (ej - Ej) <= theta k * Rabs Ej + kap) e E ->
      length e = length E /\
      Rabs (rsum e - rsum E) <= theta k * rsum (map Rabs E) + INR (length E) * kap /\
      rsum (map Rabs e) <= (1 + theta k) * rsum (map Rabs E) + INR (length E) * kap.
  Proof.
    intros k kap e E H. induction H as [|ej Ej e E Hj _ (IL & IE & IA)].
    - cbn [map length INR]. rewrite !rsum_nil, Rminus_0_r, Rabs_R0. split; [reflexivity|lra].
    - cbn [map length]. rewrite S_INR, !rsum_cons. split; [congruence|]. split.
      + replace (ej + rsum e - (Ej + rsum E)) with ((ej - Ej) + (rsum e - rsum E)) by ring.
        pose proof (Rabs_triang (ej - Ej) (rsum e - rsum E)). lra.
      + assert (Rabs ej <= Rabs Ej + Rabs (ej - Ej)).
        { replace ej with (Ej + (ej - Ej)) at 1 by ring. apply Rabs_triang. }
        lra.
  Qed.

  (** the model's left-fold sum of such terms *)
  Theorem vsum_close : forall k kap e E,
      Forall (fun x => fmt x) e ->
      Forall2 (fun ej Ej => Rabs (ej - Ej) <= theta k * Rabs Ej + kap) e E -> 0 <= kap ->
      let n := length E in
      Rabs (vsum O e - rsum E)
      <= theta (n - 1 + k) * rsum (map Rabs E) + INR n * kap * (1 + u) ^ (n - 1).
  Proof.
    intros k kap e E Fe Hc Hk n.
    destruct (close_sums k kap e E Hc) as (HL & HE & HA). fold n in HE, HA.
    destruct (vsum_err e Fe) as [_ HV]. rewrite HL in HV. fold n in HV.
    set (T := rsum (map Rabs E)) in *. set (A := rsum (map Rabs e)) in *.
    assert (HT : 0 <= T) by apply rsum_abs_nonneg.
    pose proof (theta_nonneg (n - 1)) as H1. pose proof (theta_nonneg k) as H2.
    assert (HN : 0 <= INR n * kap) by (apply Rmult_le_pos; [apply pos_INR|exact Hk]).
    replace (vsum O e - rsum E) with ((vsum O e - rsum e) + (rsum e - rsum E)) by ring.
    pose proof (Rabs_triang (vsum O e - rsum e) (rsum e - rsum E)) as Tr.
    replace (theta (n - 1 + k)) with ((1 + theta (n - 1)) * (1 + theta k) - 1)
      by (unfold theta; rewrite pow_add; ring).
    replace ((1 + u) ^ (n - 1)) with (1 + theta (n - 1)) by (unfold theta; ring).
    assert (H3 : theta (n - 1) * A <= theta (n - 1) * ((1 + theta k) * T + INR n * kap))
      by (apply Rmult_le_compat_l; lra).
    nra.
  Qed.

  (** ... followed by the rounded addition onto a representable [c] (the additive term of
      [matmul]) *)
  Theorem dot_close : forall k kap c e E,
      fmt c -> Forall (fun x => fmt x) e ->
      Forall2 (fun ej Ej => Rabs (ej - Ej) <= theta k * Rabs Ej + kap) e E -> 0 <= kap ->
      let n := length E in
      Rabs (fadd O c (vsum O e) - (c + rsum E))
      <= theta (n + k) * (Rabs c + rsum (map Rabs E)) + INR n * kap * (1 + u) ^ n.
  Proof.
    intros k kap c e E Fc Fe Hc Hk n.
    pose proof u_pos as Hu. pose proof (Rabs_pos c) as Hc0.
    destruct E as [|E0 E'].
    - inversion Hc; subst. unfold n. cbn [length map INR pow].
      unfold vsum at 1. cbn [fold_left f0 fadd rounded_ops].
      rewrite rsum_nil, Rplus_0_r, (rn_id c Fc).
      replace (c - c) with 0 by ring. rewrite Rabs_R0.
      pose proof (theta_nonneg (0 + k)). nra.
    - set (EE := E0 :: E') in *. set (m := length E').
      assert (Hn : n = S m) by reflexivity.
      pose proof (vsum_close k kap e EE Fe Hc Hk) as HX. cbv zeta in HX. fold n in HX.
      rewrite Hn in *. replace (S m - 1)%nat with m in HX by lia.
      destruct (vsum_err e Fe) as [FS _].
      set (V := vsum O e) in *. set (T := rsum (map Rabs EE)) in *.
      set (X := Rabs (V - rsum EE)) in *.
      assert (HT : 0 <= T) by apply rsum_abs_nonneg.
      assert (HV : Rabs V <= T + X).
      { replace V with (rsum EE + (V - rsum EE)) at 1 by ring.
        pose proof (Rabs_triang (rsum EE) (V - rsum EE)) as Tr. pose proof (rsum_abs_le EE) as Ha.
        fold T in Ha. fold X in Tr. lra. }
      destruct (fadd_err c V Fc FS) as [_ ER].
      pose proof (Rabs_triang c V) as Tc.
      replace (fadd O c V - (c + rsum EE)) with ((fadd O c V - (c + V)) + (V - rsum EE)) by ring.
      pose proof (Rabs_triang (fadd O c V - (c + V)) (V - rsum EE)) as Tr. fold X in Tr.
      set (Y := INR (S m) * kap) in *.
      assert (HY : 0 <= Y) by (apply Rmult_le_pos; [apply pos_INR|exact Hk]).
      assert (H3 : (1 + u) * X <= (1 + u) * (theta (m + k) * T + Y * (1 + u) ^ m))
        by (apply Rmult_le_compat_l; lra).
      assert (H4 : u * T + (1 + u) * (theta (m + k) * T + Y * (1 + u) ^ m)
                   = theta (S m + k) * T + Y * (1 + u) ^ S m).
      { replace (S m + k)%nat with (S (m + k)) by lia. unfold theta. cbn [pow]. ring. }
      assert (H5 : u <= theta (S m + k)).
      { rewrite <- theta_1. apply theta_mono. lia. }
      assert (H6 : u * Rabs c <= theta (S m + k) * Rabs c) by (apply Rmult_le_compat_r; lra).
      assert (H7 : u * Rabs (c + V) <= u * (Rabs c + T + X)) by (apply Rmult_le_compat_l; lra).
      rewrite Rmult_plus_distr_l. lra.
  Qed.

  (** the rounded products: relative error [u], absolute error [eta] *)
  Lemma rounded_close_eta : forall t : list R,
      Forall (fun x => fmt x) (map rn t) /\
      Forall2 (fun ej Ej => Rabs (ej - Ej) <= theta 1 * Rabs Ej + eta) (map rn t) t.
  Proof.
    induction t as [|x t [IF IC]]; cbn [map]; [split; constructor|].
    split; constructor; try assumption; [apply rn_fmt|]. rewrite theta_1. apply rn_err.
  Qed.

  (** Higham's form of a bound [theta m * X + Y * (1 + u)^n] *)
  Lemma theta_gamma_affine : forall m n X Y,
      INR m * u < 1 -> (n <= m)%nat -> 0 <= X -> 0 <= Y ->
      theta m * X + Y * (1 + u) ^ n <= gamma m * X + Y * (1 + gamma n).
  Proof.
    intros m n X Y Hm Hnm HX HY.
    assert (Hn : INR n * u < 1).
    { apply le_INR in Hnm. pose proof u_pos. pose proof (pos_INR n). nra. }
    pose proof (theta_le_gamma m Hm) as G1. pose proof (theta_le_gamma n Hn) as G2.
    unfold theta in G2.
    assert (H1 : theta m * X <= gamma m * X) by (apply Rmult_le_compat_r; lra).
    assert (H2 : Y * (1 + u) ^ n <= Y * (1 + gamma n)) by (apply Rmult_le_compat_l; lra).
    lra.
  Qed.

  (** the form over an index range, as produced by [matmul_spec] and [conv_spec] *)
  Corollary dot_err : forall (c : R) (A B : nat -> R) (n : nat),
      fmt c ->
      let terms := map (fun k => A k * B k) (seq 0 n) in
      Rabs (fadd O c (vsum O (map (fun k => fmul O (A k) (B k)) (seq 0 n))) - (c + rsum terms))
      <= theta (S n) * (Rabs c + rsum (map Rabs terms)) + INR n * eta * (1 + u) ^ n.
  Proof.
    intros c A B n Fc terms.
    assert (El : length terms = n) by (unfold terms; rewrite map_length, seq_length; reflexivity).
    destruct (rounded_close_eta terms) as [FT CT].
    pose proof (dot_close 1 eta c _ terms Fc FT CT (Rlt_le _ _ eta_pos)) as H. cbv zeta in H.
    rewrite El, Nat.add_1_r in H. unfold terms in H at 1. rewrite map_map in H. exact H.
  Qed.

  Corollary dot_err_gamma : forall (c : R) (A B : nat -> R) (n : nat),
      fmt c -> INR (S n) * u < 1 ->
      let terms := map (fun k => A k * B k) (seq 0 n) in
      Rabs (fadd O c (vsum O (map (fun k => fmul O (A k) (B k)) (seq 0 n))) - (c + rsum terms))
      <= gamma (S n) * (Rabs c + rsum (map Rabs terms)) + INR n * eta * (1 + gamma n).
  Proof.
    intros c A B n Fc Hk terms. pose proof (dot_err c A B n Fc) as H. cbv zeta in H. fold terms in H.
    pose proof (rsum_abs_nonneg terms) as HT. pose proof (Rabs_pos c) as Hc. pose proof eta_pos.
    eapply Rle_trans; [exact H|]. apply (theta_gamma_affine (S n) n); try lia; [exact Hk|lra|].
    apply Rmult_le_pos; [apply pos_INR|lra].
  Qed.
End Format.

Section Arrays.
  Variables emin prec : Z.
  Context {Hprec : Prec_gt_0 prec}.

  Notation fmt := (generic_format radix2 (FLT_exp emin prec)).
  Notation O := (rounded_ops emin prec).
  Notation uu := (u prec).
  Notation ee := (eta emin).

  Definition fmt_arr (a : arr R) : Prop := Forall (fun x => fmt x) (vals a).

  Lemma nth_fmt : forall (l : list R) i, Forall (fun x => fmt x) l -> fmt (nth i l 0).
  Proof.
    intros l i H. destruct (Nat.lt_ge_cases i (length l)) as [Hi|Hi].
    - exact (proj1 (Forall_forall _ _) H _ (nth_In l 0 Hi)).
    - rewrite nth_overflow by exact Hi. apply generic_format_0.
  Qed.

  Lemma get_fmt : forall (a : arr R) I x, fmt_arr a -> get a I = Some x -> fmt x.
  Proof.
    intros a I x H E. unfold get in E. apply nth_error_In in E.
    exact (proj1 (Forall_forall _ _) H _ E).
  Qed.

  Definition dot_bound (n : nat) (c T : R) : R :=
    theta prec (S n) * (Rabs c + T) + INR n * ee * (1 + uu) ^ n.
  Definition dot_bound_gamma (n : nat) (c T : R) : R :=
    gamma prec (S n) * (Rabs c + T) + INR n * ee * (1 + gamma prec n).

  Lemma dot_bound_le_gamma : forall n c T,
      0 <= T -> INR (S n) * uu < 1 -> dot_bound n c T <= dot_bound_gamma n c T.
  Proof.
    intros n c T HT Hk. unfold dot_bound, dot_bound_gamma. pose proof (Rabs_pos c). pose proof (eta_pos emin).
    apply (theta_gamma_affine prec (S n) n); try lia; [exact Hk|lra|].
    apply Rmult_le_pos; [apply pos_INR|lra].
  Qed.

  Definition mm_terms (a : arr R) ta (b : arr R) tb la lb J i j n : list R :=
    map (fun k => getd R_ops a (a_idx ta la J i k) * getd R_ops b (b_idx tb lb J k j)) (seq 0 n).

  Theorem matmul_rounding : forall (a : arr R) ta (b : arr R) tb c la ar ac lb br bc,
      wf a -> wf b -> dims a = la ++ [ar; ac] -> dims b = lb ++ [br; bc] ->
      mm_inner_a ta ar ac = mm_inner_b tb br bc -> bcompat la lb ->
      bias_admissible c (mm_rows ta ar ac) (mm_cols tb br bc) ->
      (forall c', c = Some c' -> fmt_arr c') ->
      let rows := mm_rows ta ar ac in
      let cols := mm_cols tb br bc in
      let n := mm_inner_a ta ar ac in
      exists rf rr,
        a_matmul O a ta b tb c = Some rf /\ a_matmul R_ops a ta b tb c = Some rr /\
        dims rf = dims rr /\
        forall J i j, in_range J (bmax la lb) -> (i < rows)%nat -> (j < cols)%nat ->
          exists vf vr,
            get rf (J ++ [i; j]) = Some vf /\ get rr (J ++ [i; j]) = Some vr /\
            let ct := bias_flat R_ops c cols i j in
            let terms := mm_terms a ta b tb la lb J i j n in
            vr = ct + rsum terms /\
            Rabs (vf - vr) <= dot_bound n ct (rsum (map Rabs terms)).
  Proof.
    intros a ta b tb c la ar ac lb br bc Hwa Hwb Ea Eb Hin Hc Hb Fc rows cols n.
    destruct (matmul_core O a ta b tb c la ar ac lb br bc Hwa Hwb Ea Eb Hin Hc Hb)
      as (rf & Hrf & _ & Hdf & Hvf).
    destruct (matmul_core R_ops a ta b tb c la ar ac lb br bc Hwa Hwb Ea Eb Hin Hc Hb)
      as (rr & Hrr & _ & Hdr & Hvr).
    exists rf, rr. split; [exact Hrf|]. split; [exact Hrr|]. split; [congruence|].
    intros J i j HJ Hi Hj.
    destruct (Hvf J i j HJ Hi Hj) as [_ Gf]. destruct (Hvr J i j HJ Hi Hj) as [_ Gr].
    eexists. eexists. split; [exact Gf|]. split; [exact Gr|]. cbv zeta.
    split; [reflexivity|].
    assert (Fct : fmt (bias_flat R_ops c cols i j)).
    { unfold bias_flat. destruct c as [c'|]; [|apply generic_format_0].
      apply nth_fmt. apply (Fc c'). reflexivity. }
    exact (dot_err emin prec (bias_flat R_ops c cols i j)
                   (fun k => getd R_ops a (a_idx ta la J i k))
                   (fun k => getd R_ops b (b_idx tb lb J k j)) n Fct).
  Qed.

  (** ** [sum(k)]: each block is a left-fold sum *)

  Theorem a_sum_rounding : forall k (a : arr R),
      wf a -> (1 <= k <= length (dims a))%nat -> fmt_arr a ->
      let lead := firstn (length (dims a) - k) (dims a) in
      let g := prod (lastn k (dims a)) in
      exists cf cr,
        a_sum O k a = Some cf /\ a_sum R_ops k a = Some cr /\ dims cf = dims cr /\
        forall J, in_range J lead ->
          let blk := block g (rowmajor lead J) (vals a) in
          exists vf,
            get cf (J ++ [0%nat]) = Some vf /\ get cr (J ++ [0%nat]) = Some (rsum blk) /\
            length blk = g /\
            Rabs (vf - rsum blk) <= theta prec (g - 1) * rsum (map Rabs blk).
  Proof.
    intros k a Hwa Hk Fa lead g.
    destruct (a_sum_spec O k a Hwa Hk) as (cf & Hcf & _ & Hdf & Hvf).
    destruct (a_sum_spec R_ops k a Hwa Hk) as (cr & Hcr & _ & Hdr & Hvr).
    cbv zeta in Hvf, Hvr, Hdf, Hdr. fold lead in Hvf, Hvr, Hdf, Hdr. fold g in Hvf, Hvr.
    exists cf, cr. split; [exact Hcf|]. split; [exact Hcr|]. split; [congruence|].
    intros J HJ blk. exists (vsum O blk).
    split; [apply Hvf; exact HJ|]. split; [apply Hvr; exact HJ|].
    assert (Hlen : length blk = g).
    { apply (block_length _ _ (prod lead)); [|apply rowmajor_lt_prod; exact HJ].
      destruct Hwa as [_ Hl]. rewrite <- Hl.
      rewrite <- (firstn_lastn k (dims a)) at 1. rewrite prod_app. reflexivity. }
    split; [exact Hlen|].
    assert (Fb : Forall (fun x => fmt x) blk).
    { unfold blk, block. apply Forall_firstn, Forall_skipn. exact Fa. }
    destruct (vsum_err emin prec blk Fb) as [_ E]. rewrite Hlen in E. exact E.
  Qed.

  (** ** [conv]: every output element is a dot product of [depth * fr * fc] terms *)

  Definition conv_img_idx (B : list nat) (y x sr sc fr fc q : nat) : list nat :=
    B ++ [(q / (fr * fc))%nat; (y * sr + (q / fc) mod fr)%nat; (x * sc + q mod fc)%nat].
  Definition conv_flt_idx (f fr fc q : nat) : list nat :=
    [f; (q / (fr * fc))%nat; ((q / fc) mod fr)%nat; (q mod fc)%nat].
  Definition conv_terms (image filters : arr R) B f y x sr sc fr fc n : list R :=
    map (fun q => getd R_ops image (conv_img_idx B y x sr sc fr fc q)
                  * getd R_ops filters (conv_flt_idx f fr fc q))
        (seq 0 n).

  Theorem conv_rounding : forall (image filters : arr R) batch depth rows cols count fr fc sr sc,
      wf image -> wf filters ->
      dims image = batch ++ [depth; rows; cols] -> dims filters = [count; depth; fr; fc] ->
      (1 <= sr)%nat -> (1 <= sc)%nat -> (fr <= rows)%nat -> (fc <= cols)%nat ->
      let rc := out_count rows fr sr in
      let cc := out_count cols fc sc in
      let n := (depth * fr * fc)%nat in
      exists rf rr,
        conv O image filters sr sc = Some rf /\ conv R_ops image filters sr sc = Some rr /\
        dims rf = dims rr /\
        forall B f y x, in_range B batch -> (f < count)%nat -> (y < rc)%nat -> (x < cc)%nat ->
          exists vf vr,
            get rf (B ++ [f; y; x]) = Some vf /\ get rr (B ++ [f; y; x]) = Some vr /\
            let terms := conv_terms image filters B f y x sr sc fr fc n in
            vr = 0 + rsum terms /\
            Rabs (vf - vr) <= dot_bound n 0 (rsum (map Rabs terms)).
  Proof.
    intros image filters batch depth rows cols count fr fc sr sc Hwi Hwf Ei Ef Hsr Hsc Hfr Hfc rc cc n.
    destruct (conv_spec O image filters batch depth rows cols count fr fc sr sc
                        Hwi Hwf Ei Ef Hsr Hsc Hfr Hfc) as (rf & Hrf & _ & Hdf & Hvf).
    destruct (conv_spec R_ops image filters batch depth rows cols count fr fc sr sc
                        Hwi Hwf Ei Ef Hsr Hsc Hfr Hfc) as (rr & Hrr & _ & Hdr & Hvr).
    exists rf, rr. split; [exact Hrf|]. split; [exact Hrr|]. split; [congruence|].
    intros B f y x HB Hf Hy Hx.
    destruct (Hvf B f y x HB Hf Hy Hx) as [_ Gf]. destruct (Hvr B f y x HB Hf Hy Hx) as [_ Gr].
    eexists. eexists. split; [exact Gf|]. split; [exact Gr|]. cbv zeta.
    split; [reflexivity|].
    exact (dot_err emin prec 0
             (fun q => getd R_ops image (conv_img_idx B y x sr sc fr fc q))
             (fun q => getd R_ops filters (conv_flt_idx f fr fc q))
             n (generic_format_0 _ _)).
  Qed.

  (** ** element-wise operations: one rounding per element *)

  Theorem ew_rounding : forall (a b : arr R),
      wf a -> wf b -> dims a <> [] -> dims b <> [] -> bcompat (dims a) (dims b) ->
      exists sf sr mf mr df dr,
        a_add O a b = Some sf /\ a_add R_ops a b = Some sr /\ dims sf = dims sr /\
        a_mul O a b = Some mf /\ a_mul R_ops a b = Some mr /\ dims mf = dims mr /\
        a_div O a b = Some df /\ a_div R_ops a b = Some dr /\ dims df = dims dr /\
        forall I, in_range I (bmax (dims a) (dims b)) ->
          exists x y,
            get a (bclamp (dims a) I) = Some x /\ get b (bclamp (dims b) I) = Some y /\
            get sr I = Some (x + y) /\ get mr I = Some (x * y) /\ get dr I = Some (x / y) /\
            exists vs vm vd,
              get sf I = Some vs /\ get mf I = Some vm /\ get df I = Some vd /\
              (fmt_arr a -> fmt_arr b -> Rabs (vs - (x + y)) <= uu * Rabs (x + y)) /\
              Rabs (vs - (x + y)) <= uu * Rabs (x + y) + ee /\
              Rabs (vm - x * y) <= uu * Rabs (x * y) + ee /\
              Rabs (vd - x / y) <= uu * Rabs (x / y) + ee.
  Proof.
    intros a b Hwa Hwb Hna Hnb Hc.
    exists (ew_arr O (fadd O) a b), (ew_arr R_ops Rplus a b), (ew_arr O (fmul O) a b),
           (ew_arr R_ops Rmult a b), (ew_arr O (fdiv O) a b), (ew_arr R_ops Rdiv a b).
    pose proof (fun Og f => element_wise_op_closed Og f a b Hwa Hwb Hna Hnb Hc) as C.
    do 3 (split; [apply C|]; split; [apply C|]; split; [reflexivity|]). intros I HI.
    pose proof (fun f => ew_arr_get R_ops f a b I Hwa Hwb Hc HI) as GR.
    pose proof (fun f => ew_arr_get O f a b I Hwa Hwb Hc HI) as GO. cbv zeta in GR, GO.
    destruct (GR Rplus) as (Gx & Gy & _).
    do 2 eexists. split; [exact Gx|]. split; [exact Gy|].
    split; [apply GR|]. split; [apply GR|]. split; [apply GR|].
    do 3 eexists. split; [apply GO|]. split; [apply GO|]. split; [apply GO|].
    split; [|split; [|split]].
    - intros Fa Fb. apply (fadd_err emin prec); [exact (get_fmt a _ _ Fa Gx)|exact (get_fmt b _ _ Fb Gy)].
    - apply (rn_err emin prec).
    - apply (fmul_err emin prec).
    - apply (fdiv_err emin prec).
  Qed.
End Arrays.

Section TwoFormats.
  Variables emin1 prec1 emin2 prec2 : Z.
  Context {Hprec1 : Prec_gt_0 prec1} {Hprec2 : Prec_gt_0 prec2}.
  Hypothesis Hp : (prec1 <= prec2)%Z.
  Hypothesis He : (emin2 <= emin1)%Z.

  Notation fmt1 := (generic_format radix2 (FLT_exp emin1 prec1)).
  Notation fmt2 := (generic_format radix2 (FLT_exp emin2 prec2)).
  Notation O1 := (rounded_ops emin1 prec1).
  Notation O2 := (rounded_ops emin2 prec2).

  (** the wide format contains the narrow one *)
  Lemma fmt_incl : forall x, fmt1 x -> fmt2 x.
  Proof.
    intros x. apply generic_inclusion_mag. intros _. unfold FLT_exp. lia.
  Qed.

  Lemma fmt_arr_incl : forall a, fmt_arr emin1 prec1 a -> fmt_arr emin2 prec2 a.
  Proof.
    intros a H. unfold fmt_arr in *. eapply Forall_impl; [|exact H]. intros x. apply fmt_incl.
  Qed.

  Lemma tri : forall v1 v2 vr b1 b2,
      Rabs (v1 - vr) <= b1 -> Rabs (v2 - vr) <= b2 -> Rabs (v1 - v2) <= b1 + b2.
  Proof.
    intros v1 v2 vr b1 b2 H1 H2. replace (v1 - v2) with ((v1 - vr) + - (v2 - vr)) by ring.
    pose proof (Rabs_triang (v1 - vr) (- (v2 - vr))) as T. rewrite Rabs_Ropp in T. lra.
  Qed.

  Theorem matmul_two_formats : forall (a : arr R) ta (b : arr R) tb c la ar ac lb br bc,
      wf a -> wf b -> dims a = la ++ [ar; ac] -> dims b = lb ++ [br; bc] ->
      mm_inner_a ta ar ac = mm_inner_b tb br bc -> bcompat la lb ->
      bias_admissible c (mm_rows ta ar ac) (mm_cols tb br bc) ->
      (forall c', c = Some c' -> fmt_arr emin1 prec1 c') ->
      let rows := mm_rows ta ar ac in
      let cols := mm_cols tb br bc in
      let n := mm_inner_a ta ar ac in
      exists r1 r2,
        a_matmul O1 a ta b tb c = Some r1 /\ a_matmul O2 a ta b tb c = Some r2 /\
        dims r1 = dims r2 /\
        forall J i j, in_range J (bmax la lb) -> (i < rows)%nat -> (j < cols)%nat ->
          exists v1 v2,
            get r1 (J ++ [i; j]) = Some v1 /\ get r2 (J ++ [i; j]) = Some v2 /\
            let ct := bias_flat R_ops c cols i j in
            let T := rsum (map Rabs (mm_terms a ta b tb la lb J i j n)) in
            Rabs (v1 - v2) <= dot_bound emin1 prec1 n ct T + dot_bound emin2 prec2 n ct T.
  Proof.
    intros a ta b tb c la ar ac lb br bc Hwa Hwb Ea Eb Hin Hc Hb Fc rows cols n.
    destruct (matmul_rounding emin1 prec1 a ta b tb c la ar ac lb br bc Hwa Hwb Ea Eb Hin Hc Hb Fc)
      as (r1 & rr & H1 & Hr & D1 & V1).
    destruct (matmul_rounding emin2 prec2 a ta b tb c la ar ac lb br bc Hwa Hwb Ea Eb Hin Hc Hb)
      as (r2 & rr' & H2 & Hr' & D2 & V2).
    { intros c' E. apply fmt_arr_incl. exact (Fc c' E). }
    assert (rr' = rr) by congruence. subst rr'.
    exists r1, r2. split; [exact H1|]. split; [exact H2|]. split; [congruence|].
    intros J i j HJ Hi Hj.
    destruct (V1 J i j HJ Hi Hj) as (v1 & vr & G1 & Gr & _ & B1).
    destruct (V2 J i j HJ Hi Hj) as (v2 & vr' & G2 & Gr' & _ & B2).
    assert (vr' = vr) by congruence. subst vr'.
    exists v1, v2. split; [exact G1|]. split; [exact G2|]. cbv zeta.
    exact (tri v1 v2 vr _ _ B1 B2).
  Qed.

  Theorem conv_two_formats : forall (image filters : arr R) batch depth rows cols count fr fc sr sc,
      wf image -> wf filters ->
      dims image = batch ++ [depth; rows; cols] -> dims filters = [count; depth; fr; fc] ->
      (1 <= sr)%nat -> (1 <= sc)%nat -> (fr <= rows)%nat -> (fc <= cols)%nat ->
      let rc := out_count rows fr sr in
      let cc := out_count cols fc sc in
      let n := (depth * fr * fc)%nat in
      exists r1 r2,
        conv O1 image filters sr sc = Some r1 /\ conv O2 image filters sr sc = Some r2 /\
        dims r1 = dims r2 /\
        forall B f y x, in_range B batch -> (f < count)%nat -> (y < rc)%nat -> (x < cc)%nat ->
          exists v1 v2,
            get r1 (B ++ [f; y; x]) = Some v1 /\ get r2 (B ++ [f; y; x]) = Some v2 /\
            let T := rsum (map Rabs (conv_terms image filters B f y x sr sc fr fc n)) in
            Rabs (v1 - v2) <= dot_bound emin1 prec1 n 0 T + dot_bound emin2 prec2 n 0 T.
  Proof.
    intros image filters batch depth rows cols count fr fc sr sc Hwi Hwf Ei Ef Hsr Hsc Hfr Hfc rc cc n.
    destruct (conv_rounding emin1 prec1 image filters batch depth rows cols count fr fc sr sc
                            Hwi Hwf Ei Ef Hsr Hsc Hfr Hfc) as (r1 & rr & H1 & Hr & D1 & V1).
    destruct (conv_rounding emin2 prec2 image filters batch depth rows cols count fr fc sr sc
                            Hwi Hwf Ei Ef Hsr Hsc Hfr Hfc) as (r2 & rr' & H2 & Hr' & D2 & V2).
    assert (rr' = rr) by congruence. subst rr'.
    exists r1, r2. split; [exact H1|]. split; [exact H2|]. split; [congruence|].
    intros B f y x HB Hf Hy Hx.
    destruct (V1 B f y x HB Hf Hy Hx) as (v1 & vr & G1 & Gr & _ & B1).
    destruct (V2 B f y x HB Hf Hy Hx) as (v2 & vr' & G2 & Gr' & _ & B2).
    assert (vr' = vr) by congruence. subst vr'.
    exists v1, v2. split; [exact G1|]. split; [exact G2|]. cbv zeta.
    exact (tri v1 v2 vr _ _ B1 B2).
  Qed.

  Theorem a_sum_two_formats : forall k (a : arr R),
      wf a -> (1 <= k <= length (dims a))%nat -> fmt_arr emin1 prec1 a ->
      let lead := firstn (length (dims a) - k) (dims a) in
      let g := prod (lastn k (dims a)) in
      exists c1 c2,
        a_sum O1 k a = Some c1 /\ a_sum O2 k a = Some c2 /\ dims c1 = dims c2 /\
        forall J, in_range J lead ->
          let blk := block g (rowmajor lead J) (vals a) in
          exists v1 v2,
            get c1 (J ++ [0%nat]) = Some v1 /\ get c2 (J ++ [0%nat]) = Some v2 /\
            Rabs (v1 - v2) <= (theta prec1 (g - 1) + theta prec2 (g - 1)) * rsum (map Rabs blk).
  Proof.
    intros k a Hwa Hk Fa lead g.
    destruct (a_sum_rounding emin1 prec1 k a Hwa Hk Fa) as (c1 & cr & H1 & Hr & D1 & V1).
    destruct (a_sum_rounding emin2 prec2 k a Hwa Hk (fmt_arr_incl a Fa))
      as (c2 & cr' & H2 & Hr' & D2 & V2).
    assert (cr' = cr) by congruence. subst cr'.
    exists c1, c2. split; [exact H1|]. split; [exact H2|]. split; [congruence|].
    intros J HJ blk.
    destruct (V1 J HJ) as (v1 & G1 & _ & _ & B1). destruct (V2 J HJ) as (v2 & G2 & _ & _ & B2).
    exists v1, v2. split; [exact G1|]. split; [exact G2|].
    rewrite Rmult_plus_distr_r. exact (tri v1 v2 _ _ _ B1 B2).
  Qed.
End TwoFormats.

Local Instance prec24_gt_0 : Prec_gt_0 24 := eq_refl.
Local Instance prec53_gt_0 : Prec_gt_0 53 := eq_refl.

Notation fmt32 := (generic_format radix2 (FLT_exp (-149) 24)).
Notation fmt64 := (generic_format radix2 (FLT_exp (-1074) 53)).

Lemma u32_value : u 24 = / 16777216.
Proof. unfold u. cbn. reflexivity. Qed.

Lemma u64_le_u32 : u 53 <= u 24.
Proof. unfold u. apply bpow_le. lia. Qed.

Lemma fmt32_fmt64 : forall x, fmt32 x -> fmt64 x.
Proof. intros x. apply fmt_incl; lia. Qed.

(** the statement of C19 for one [matmul]: same operands (the additive term representable in
    binary32), the single-precision result against the double-precision result, element by
    element, in Higham's [gamma] form.  [n] is the inner dimension; [T] the sum of the
    absolute values of the exact products; [ct] the additive term of the element. *)
Theorem matmul_f32_f64 : forall (a : arr R) ta (b : arr R) tb c la ar ac lb br bc,
    wf a -> wf b -> dims a = la ++ [ar; ac] -> dims b = lb ++ [br; bc] ->
    mm_inner_a ta ar ac = mm_inner_b tb br bc -> bcompat la lb ->
    bias_admissible c (mm_rows ta ar ac) (mm_cols tb br bc) ->
    (forall c', c = Some c' -> fmt_arr (-149) 24 c') ->
    let rows := mm_rows ta ar ac in
    let cols := mm_cols tb br bc in
    let n := mm_inner_a ta ar ac in
    INR (S n) * u 24 < 1 ->
    exists r32 r64,
      a_matmul binary32_ops a ta b tb c = Some r32 /\ a_matmul binary64_ops a ta b tb c = Some r64 /\
      dims r32 = dims r64 /\
      forall J i j, in_range J (bmax la lb) -> (i < rows)%nat -> (j < cols)%nat ->
        exists v32 v64,
          get r32 (J ++ [i; j]) = Some v32 /\ get r64 (J ++ [i; j]) = Some v64 /\
          let ct := bias_flat R_ops c cols i j in
          let T := rsum (map Rabs (mm_terms a ta b tb la lb J i j n)) in
          Rabs (v32 - v64)
          <= (gamma 24 (S n) + gamma 53 (S n)) * (Rabs ct + T)
             + INR n * (eta (-149) * (1 + gamma 24 n) + eta (-1074) * (1 + gamma 53 n)).
Proof.
  intros a ta b tb c la ar ac lb br bc Hwa Hwb Ea Eb Hin Hc Hb Fc rows cols n Hk.
  destruct (matmul_two_formats (-149) 24 (-1074) 53 ltac:(lia) ltac:(lia)
              a ta b tb c la ar ac lb br bc Hwa Hwb Ea Eb Hin Hc Hb Fc)
    as (r1 & r2 & H1 & H2 & D & V).
  exists r1, r2. split; [exact H1|]. split; [exact H2|]. split; [exact D|].
  intros J i j HJ Hi Hj. destruct (V J i j HJ Hi Hj) as (v1 & v2 & G1 & G2 & B).
  exists v1, v2. split; [exact G1|]. split; [exact G2|]. cbv zeta in *.
  fold n in B. fold cols in B.
  set (ct := bias_flat R_ops c cols i j) in *.
  set (T := rsum (map Rabs (mm_terms a ta b tb la lb J i j n))) in *.
  assert (HT : 0 <= T) by apply rsum_abs_nonneg.
  assert (Hk64 : INR (S n) * u 53 < 1).
  { pose proof u64_le_u32. pose proof (pos_INR (S n)). nra. }
  pose proof (dot_bound_le_gamma (-149) 24 n ct T HT Hk) as L1.
  pose proof (dot_bound_le_gamma (-1074) 53 n ct T HT Hk64) as L2.
  unfold dot_bound_gamma in L1, L2. lra.
Qed.

(** [k * u < 1] for binary32 means [k < 2^24] *)
Lemma nu32_lt_1 : forall k, (Z.of_nat k < 16777216)%Z -> INR k * u 24 < 1.
Proof.
  intros k Hk. rewrite u32_value, INR_IZR_INZ. apply IZR_lt in Hk.
  pose proof (IZR_le 0 (Z.of_nat k) ltac:(lia)). lra.
Qed.

(** non-vacuity: [[1 2]] * [[3] [4]] = [[11]] *)
Example matmul_rounding_1x2_2x1 :
  let a := {| dims := [1; 2]%nat; vals := [1; 2] |} in
  let b := {| dims := [2; 1]%nat; vals := [3; 4] |} in
  exists r32 r64 rr v32 v64,
    a_matmul binary32_ops a false b false None = Some r32 /\
    a_matmul binary64_ops a false b false None = Some r64 /\
    a_matmul R_ops a false b false None = Some rr /\
    get rr [0; 0]%nat = Some 11 /\
    get r32 [0; 0]%nat = Some v32 /\ get r64 [0; 0]%nat = Some v64 /\
    Rabs (v32 - 11) <= dot_bound (-149) 24 2 0 11 /\
    Rabs (v32 - v64) <= dot_bound (-149) 24 2 0 11 + dot_bound (-1074) 53 2 0 11.
Proof.
  intros a b.
  assert (Hwa : wf a) by (split; cbn; [repeat constructor|reflexivity]).
  assert (Hwb : wf b) by (split; cbn; [repeat constructor|reflexivity]).
  assert (Hno : forall c', @None (arr R) = Some c' -> fmt_arr (-149) 24 c') by discriminate.
  destruct (matmul_rounding (-149) 24 a false b false None [] 1 2 [] 2 1
                            Hwa Hwb eq_refl eq_refl eq_refl I I Hno) as (r32 & rr & H32 & Hr & _ & V32).
  destruct (matmul_two_formats (-149) 24 (-1074) 53 ltac:(lia) ltac:(lia)
              a false b false None [] 1 2 [] 2 1 Hwa Hwb eq_refl eq_refl eq_refl I I Hno)
    as (r32' & r64 & H32' & H64 & _ & V2).
  assert (r32' = r32) by congruence. subst r32'.
  assert (R0 : in_range [] (bmax [] [])) by constructor.
  destruct (V32 [] 0%nat 0%nat R0 ltac:(cbn; lia) ltac:(cbn; lia)) as (v32 & vr & G32 & Gr & Evr & B32).
  destruct (V2 [] 0%nat 0%nat R0 ltac:(cbn; lia) ltac:(cbn; lia)) as (v32' & v64 & G32' & G64 & B2).
  assert (v32' = v32) by (cbn [app] in *; congruence). subst v32'.
  cbv zeta in Evr, B32, B2.
  assert (ET : rsum (map Rabs (mm_terms a false b false [] [] [] 0 0 (mm_inner_a false 1 2))) = 11).
  { unfold mm_terms, vsum. cbn. rewrite !Rabs_pos_eq by lra. lra. }
  assert (Er : vr = 11).
  { rewrite Evr. unfold mm_terms, vsum. cbn. lra. }
  rewrite ET in B32, B2. clear Evr ET. subst vr.
  change (mm_inner_a false 1 2) with 2%nat in B32, B2.
  change (bias_flat R_ops None (mm_cols false 2 1) 0 0) with 0 in B32, B2.
  exists r32, r64, rr, v32, v64. cbn [app] in *.
  split; [exact H32|]. split; [exact H64|]. split; [exact Hr|]. split; [exact Gr|].
  split; [exact G32|]. split; [exact G64|]. split; [exact B32|exact B2].
Qed.

(** Axioms used (all declared by Coq's standard library; none by this development) *)
Print Assumptions fadd_err.
Print Assumptions fmul_err.
Print Assumptions theta_le_gamma.
Print Assumptions vsum_err.
Print Assumptions vsum_err_gamma.
Print Assumptions dot_err_gamma.
Print Assumptions matmul_rounding.
Print Assumptions a_sum_rounding.
Print Assumptions conv_rounding.
Print Assumptions ew_rounding.
Print Assumptions matmul_two_formats.
Print Assumptions conv_two_formats.
Print Assumptions a_sum_two_formats.
Print Assumptions matmul_f32_f64.
Print Assumptions matmul_rounding_1x2_2x1.
