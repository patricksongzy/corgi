(** C01 for the CONCRETE engine [Program.E O]: reverse mode equals forward mode.

    After a successful backward pass on a sound, value-consistent store whose closures are
    supported (their local transpose identity is available), the gradients stored on the
    leaves are the transpose of the forward (dual-number) derivative of the result, applied
    to the seed:

      <s0, tan r> = sum over the leaves l <= r of <gradient stored on l, tangent of l>

    for every assignment of tangents to the leaves.  Untracked child entries are constants
    (stop-gradient) on both sides. *)

From Coq Require Import List Arith Bool Lia PeanoNat.
From Corgi Require Import Lib.OptionMonad Lib.Sums Model.Scalar Model.Arr Model.SlicedOp
     Model.Elementwise Model.Linalg Model.Ops Model.Engine Model.Program
     Proofs.ArrFacts Proofs.EngineDefs Proofs.EngineBase Proofs.Propagate Proofs.AdjointSpec
     Proofs.SweepBase Proofs.SweepAdjoint Proofs.SweepAdjointG Proofs.EngineValue
     Proofs.FlattenSpec Proofs.DualLift Proofs.LocalAdjoint Proofs.OpsWf Proofs.HistoryInv
     Proofs.ValueConcrete Proofs.FwdCode Proofs.CodeSupport Proofs.HistoryVC.
Import ListNotations.

Section C01.
  Context {F : Type} (O : ScalarOps F) (R : is_cring O).

  Local Notation pay := (@pay F).
  Local Notation gnode := (@gnode F).
  Local Notation E := (Program.E O).
  Local Notation E' := (ValueConcrete.E' O).
  Local Notation D2 := (dual_ops O).

  Lemma ksum_vsum : forall l : list F, ksum (fadd O) (f0 O) l = vsum O l.
  Proof.
    intro l. induction l as [|x l IH]; [reflexivity |].
    cbn [ksum fold_right]. fold (ksum (fadd O) (f0 O) l). rewrite IH, (vsum_cons O R). reflexivity.
  Qed.

  Lemma dot_nil_l : forall y : list F, dot O [] y = f0 O.
  Proof. intro y. reflexivity. Qed.

  Lemma dot_cons : forall a x b y, dot O (a :: x) (b :: y) = fadd O (fmul O a b) (dot O x y).
  Proof. intros a x b y. unfold dot. cbn [combine map fst snd]. apply (vsum_cons O R). Qed.

  Lemma dot_zipw_add : forall x y t : list F,
      length x = length y ->
      dot O (zipw (fadd O) x y) t = fadd O (dot O x t) (dot O y t).
  Proof.
    intro x. induction x as [|a x IH]; intros [|b y] t H; simpl in H; try lia.
    - cbn [zipw combine map]. rewrite dot_nil_l. symmetry. apply (cr_add_0_l O R).
    - destruct t as [|c t].
      + unfold dot. cbn [zipw]. rewrite !combine_nil. cbn [map]. rewrite (vsum_nil O).
        symmetry. apply (cr_add_0_l O R).
      + change (zipw (fadd O) (a :: x) (b :: y)) with (fadd O a b :: zipw (fadd O) x y).
        rewrite !dot_cons, IH by lia.
        rewrite (cr_distr_l O R).
        rewrite <- !(cr_add_assoc O R). f_equal.
        rewrite !(cr_add_assoc O R). rewrite (cr_add_comm O R (dot O x t) (fmul O b c)). reflexivity.
  Qed.

  Lemma skipn_nth_cons : forall {A} i (l : list A) d,
      i < length l -> skipn i l = nth i l d :: skipn (S i) l.
  Proof.
    intros A i. induction i as [|i IH]; intros [|x l] d H; simpl in H; try lia.
    - reflexivity.
    - cbn [skipn nth]. apply IH. lia.
  Qed.

  Section Tan.
    Variable g : list gnode.
    Variable lt : nat -> arr F.

    Lemma tans_length : forall n, length (tans O g lt n) = n.
    Proof.
      intro n. induction n as [|k IH]; [reflexivity |].
      cbn [tans]. rewrite app_length, IH. simpl. lia.
    Qed.

    Lemma tan_node : forall n, tan O g lt n = node_tan O g lt (tans O g lt n) n.
    Proof.
      intro n. unfold tan. cbn [tans]. rewrite app_nth2 by (rewrite tans_length; lia).
      rewrite tans_length, Nat.sub_diag. reflexivity.
    Qed.

    Lemma tans_nth : forall n m, m < n -> nth m (tans O g lt n) dummy_arr = tan O g lt m.
    Proof.
      intro n. induction n as [|k IH]; intros m Hm; [lia |].
      destruct (Nat.eq_dec m k) as [Heq | Hne].
      - subst m. reflexivity.
      - cbn [tans]. rewrite app_nth1 by (rewrite tans_length; lia). apply IH. lia.
    Qed.

    Lemma tan_leaf : forall n nd,
        nth_error g n = Some nd -> p_bop (n_pay nd) = None -> tan O g lt n = lt n.
    Proof. intros n nd Hnd Hb. rewrite tan_node. unfold node_tan. rewrite Hnd, Hb. reflexivity. Qed.

    Lemma tan_op : forall n nd code,
        nth_error g n = Some nd -> p_bop (n_pay nd) = Some code ->
        (forall e, In e (n_children nd) -> e_node e < n) ->
        tan O g lt n =
        match fwd_of_code D2 (inj2 O) code (p_dims (n_pay nd))
                          (lift_children O 0 (map e_tracked (n_children nd))
                                         (cvals g (n_children nd))
                                         (map (fun e => tan O g lt (e_node e)) (n_children nd))) with
        | Some RD => tangent RD
        | None => zeros_like O (pay_arr (n_pay nd))
        end.
    Proof.
      intros n nd code Hnd Hb Hlt. rewrite tan_node. unfold node_tan. rewrite Hnd, Hb. cbv zeta.
      rewrite (map_ext_in (fun e => nth (e_node e) (tans O g lt n) dummy_arr)
                          (fun e => tan O g lt (e_node e))); [reflexivity |].
      intros e He. apply tans_nth. apply Hlt. exact He.
    Qed.
  End Tan.

  (** every closure of the graph has its local identity, lifts to dual numbers, and is used
      on operands within its side condition *)
  Definition supported (g : list gnode) : Prop :=
    forall id nd code,
      nth_error g id = Some nd -> p_bop (n_pay nd) = Some code ->
      code_ok O code (p_dims (n_pay nd)) /\
      code_pre code (cvals g (n_children nd)) /\
      ~ matmul_nobias O code (cvals g (n_children nd)) (pay_arr (n_pay nd)).

  Definition leaf_tangents_ok (g : list gnode) (lt : nat -> arr F) : Prop :=
    forall l nd, nth_error g l = Some nd -> p_bop (n_pay nd) = None ->
                 tangent_for (pay_arr (n_pay nd)) (lt l).

  Definition grads_empty (g : list gnode) : Prop :=
    forall id nd, nth_error g id = Some nd -> n_grad nd = None.

  (** what the identity needs of one operation node with closure [code], dimensions [d],
      operand values [cs] and value [v]: whatever tangents the operands carry, the forward
      operation runs on the dual numbers with primal part [v], and the closure is the
      transpose of the tangent part *)
  Definition node_exact (code : bop_code F) (d : list nat) (cs : list (arr F)) (v : arr F) : Prop :=
    code_fits code cs v /\
    (forall ts flags, Forall2 tangent_for cs ts ->
       exists RD, fwd_of_code D2 (inj2 O) code d (lift_children O 0 flags cs ts) = Some RD /\
                  primal RD = v) /\
    (forall ts flags delta RD ds,
       Forall2 tangent_for cs ts ->
       fwd_of_code D2 (inj2 O) code d (lift_children O 0 flags cs ts) = Some RD -> primal RD = v ->
       wf delta -> dims delta = dims RD -> run_bop O code cs flags delta = Some ds ->
       exists xs, child_terms O 0 flags cs ts ds xs /\
                  dot O (vals delta) (vals (tangent RD)) = vsum O xs).

  Definition exact_nodes (g : list gnode) : Prop :=
    forall n nd code,
      nth_error g n = Some nd -> p_bop (n_pay nd) = Some code ->
      node_exact code (p_dims (n_pay nd)) (cvals g (n_children nd)) (pay_arr (n_pay nd)).

  Lemma nval_nth : forall (g : list gnode) id nd,
      nth_error g id = Some nd -> nval g id = pay_arr (n_pay nd).
  Proof. intros g id nd H. unfold nval. rewrite H. reflexivity. Qed.

  Lemma op_node_facts : forall (g : list gnode) n nd code,
      store_good g -> value_consistent O g ->
      nth_error g n = Some nd -> p_bop (n_pay nd) = Some code ->
      let cs := cvals g (n_children nd) in
      let v := pay_arr (n_pay nd) in
      length cs = arity code /\ Forall wf cs /\ code_fits code cs v /\
      (fwd_of_code O (fun s => s) code (p_dims (n_pay nd)) cs = Some v \/ matmul_nobias O code cs v).
  Proof.
    intros g n nd code Hg Hvc Hnd Hb cs v.
    split; [unfold cs, cvals; rewrite map_length; exact (store_good_arity g n nd Hg Hnd code Hb) |].
    split.
    - apply Forall_forall. intros c Hc. apply in_map_iff in Hc. destruct Hc as (e & <- & He).
      pose proof (store_good_child g n nd Hg Hnd e He) as Hlt. apply nth_lt in Hnd.
      destruct (nth_error g (e_node e)) as [ch|] eqn:Hch; [| apply nth_error_None in Hch; nlia].
      rewrite (nval_nth g _ ch Hch). exact (store_good_val g _ ch Hg Hch).
    - pose proof (Hvc n nd Hnd) as Hv. unfold node_vc in Hv. rewrite Hb in Hv. exact Hv.
  Qed.

  Section Nodes.
    Variable g : list gnode.
    Variable lt : nat -> arr F.
    Hypothesis Hg : store_good g.
    Hypothesis Hnodes : exact_nodes g.
    Hypothesis Hlt : leaf_tangents_ok g lt.

    Local Notation tan := (tan O g lt).

    Lemma children_tangents : forall n es,
        n <= length g -> (forall e, In e es -> e_node e < n) ->
        (forall m ndm, m < n -> nth_error g m = Some ndm ->
                       tangent_for (pay_arr (n_pay ndm)) (tan m)) ->
        Forall2 tangent_for (cvals g es) (map (fun e => tan (e_node e)) es).
    Proof.
      intros n es Hn Hes IH. induction es as [|e es IHes]; constructor.
      - assert (He : e_node e < n) by (apply Hes; left; reflexivity).
        destruct (nth_error g (e_node e)) as [c|] eqn:Hc; [| apply nth_error_None in Hc; nlia].
        rewrite (nval_nth g _ c Hc). exact (IH _ c He Hc).
      - apply IHes. intros e0 He0. apply Hes. right. exact He0.
    Qed.

    Lemma op_node : forall n nd code,
        nth_error g n = Some nd -> p_bop (n_pay nd) = Some code ->
        (forall m ndm, m < n -> nth_error g m = Some ndm ->
                       tangent_for (pay_arr (n_pay ndm)) (tan m)) ->
        let es := n_children nd in
        let cs := cvals g es in
        let ts := map (fun e => tan (e_node e)) es in
        exists RD,
          fwd_of_code D2 (inj2 O) code (p_dims (n_pay nd))
                      (lift_children O 0 (map e_tracked es) cs ts) = Some RD /\
          primal RD = pay_arr (n_pay nd) /\ tan n = tangent RD /\ Forall2 tangent_for cs ts.
    Proof.
      intros n nd code Hnd Hb IH es cs ts.
      pose proof (store_good_child g n nd Hg Hnd) as Hlt'.
      assert (Hts : Forall2 tangent_for cs ts)
        by (apply (children_tangents n); [apply Nat.lt_le_incl; eapply nth_lt; exact Hnd | exact Hlt' | exact IH]).
      destruct (Hnodes n nd code Hnd Hb) as (_ & Hlift & _).
      destruct (Hlift ts (map e_tracked es) Hts) as (RD & HRD & Hprim).
      exists RD. split; [exact HRD |]. split; [exact Hprim |]. split; [| exact Hts].
      rewrite (tan_op g lt n nd code Hnd Hb Hlt'). subst ts cs es. rewrite HRD. reflexivity.
    Qed.

    Lemma tan_ok_below : forall n m ndm,
        m < n -> nth_error g m = Some ndm -> tangent_for (pay_arr (n_pay ndm)) (tan m).
    Proof.
      intro n. induction n as [|k IH]; intros m ndm Hm Hnd; [lia |].
      destruct (Nat.eq_dec m k) as [Heq | Hne]; [| apply (IH m ndm); [lia | exact Hnd]].
      subst m. destruct (p_bop (n_pay ndm)) as [code|] eqn:Hb.
      - destruct (op_node k ndm code Hnd Hb IH) as (RD & HRD & Hprim & Htan & Hts).
        pose proof (store_good_val g k ndm Hg Hnd) as [Hp Hl]. rewrite <- Hprim in Hp, Hl |- *.
        cbn [primal dims vals] in Hp, Hl. rewrite map_length in Hl.
        rewrite Htan. split; [apply tangent_wf; split; assumption | reflexivity].
      - rewrite (tan_leaf g lt k ndm Hnd Hb). apply (Hlt k ndm Hnd Hb).
    Qed.

    Lemma tan_ok : forall m ndm, nth_error g m = Some ndm -> tangent_for (pay_arr (n_pay ndm)) (tan m).
    Proof. intros m ndm H. apply (tan_ok_below (S m) m ndm); [lia | exact H]. Qed.

    Definition pairF (d t : arr F) : F := dot O (vals d) (vals t).

    Lemma G_add' : forall (p : pay) x y z,
        grad_ok p x -> grad_ok p y -> eo_add E' x y = Some z -> grad_ok p z.
    Proof.
      intros p x y z [Hwx Hdx] [Hwy Hdy] Hz. cbn [eo_add ValueConcrete.E'] in Hz.
      assert (Hd : dims x = dims y) by congruence.
      rewrite (add'_wf O x y Hwx Hwy Hd) in Hz. injection Hz as Hz. subst z.
      destruct (padd_wf O x y Hwx Hwy Hd) as [Hw Hdp]. split; [exact Hw | congruence].
    Qed.

    Lemma H_pair_add' : forall (p : pay) x y z t,
        grad_ok p x -> grad_ok p y -> eo_add E' x y = Some z ->
        pairF z t = fadd O (pairF x t) (pairF y t).
    Proof.
      intros p x y z t [Hwx Hdx] [Hwy Hdy] Hz. cbn [eo_add ValueConcrete.E'] in Hz.
      assert (Hd : dims x = dims y) by congruence.
      rewrite (add'_wf O x y Hwx Hwy Hd) in Hz. injection Hz as Hz. subst z.
      unfold pairF. cbn [padd vals]. apply dot_zipw_add.
      destruct Hwx as [_ Hlx]. destruct Hwy as [_ Hly]. rewrite <- Hlx, <- Hly, Hd. reflexivity.
    Qed.

    Lemma cfold_in_full : forall es ds cs c,
        cfold E' g es ds = Some cs -> In c cs ->
        exists e d ch, In e es /\ nth_error g (e_node e) = Some ch /\
                       eo_flat E' d (n_pay ch) = Some (snd c) /\ fst c = e_node e.
    Proof.
      intro es. induction es as [|e es IH]; intros ds cs c H Hin.
      - rewrite cfold_nil_l in H. injection H as H. subst cs. destruct Hin.
      - destruct ds as [|o ds].
        + rewrite cfold_nil_r in H. injection H as H. subst cs. destruct Hin.
        + rewrite cfold_cons in H. revert H. apply obind_elim. intros rest Hrest H.
          assert (Hrec : In c rest ->
                         exists e0 d ch, In e0 (e :: es) /\ nth_error g (e_node e0) = Some ch /\
                                         eo_flat E' d (n_pay ch) = Some (snd c) /\ fst c = e_node e0).
          { intro Hr. destruct (IH ds rest c Hrest Hr) as (e0 & d & ch & H1 & H2 & H3 & H4).
            exists e0, d, ch. split; [right; exact H1 | tauto]. }
          destruct o as [d|].
          * revert H. apply obind_elim. intros ch Hch H.
            revert H. apply obind_elim. intros d' Hd' H.
            injection H as H. subst cs. destruct Hin as [Heq | Hin]; [| exact (Hrec Hin)].
            subst c. exists e, d, ch. cbn [fst snd]. split; [left; reflexivity | tauto].
          * injection H as H. subst cs. exact (Hrec Hin).
    Qed.

    Lemma flat'_ok : forall d (p : pay) d', eo_flat E' d p = Some d' -> grad_ok p d'.
    Proof.
      intros d p d' H. cbn [eo_flat ValueConcrete.E'] in H. unfold flat' in H.
      destruct (wfb d) eqn:Hd; [| discriminate H]. apply wfb_spec in Hd.
      exact (flatten_to_shape O d d' _ Hd H).
    Qed.

    Lemma G_contribs' : forall n nd delta cs c,
        nth_error g n = Some nd -> grad_ok (n_pay nd) delta ->
        contribs E' g n delta = Some cs -> In c cs ->
        exists ndc, nth_error g (fst c) = Some ndc /\ grad_ok (n_pay ndc) (snd c).
    Proof.
      intros n nd delta cs c Hnd _ Hcs Hin.
      apply contribs_inv in Hcs. destruct Hcs as (nd' & Hnd' & Hcase).
      destruct Hcase as [[_ Hnil] | [_ (pays & ds & _ & _ & Hcf)]]; [subst cs; destruct Hin |].
      destruct (cfold_in_full _ ds cs c Hcf Hin) as (e & d & ch & _ & Hch & Hfl & Hfst).
      exists ch. rewrite Hfst. split; [exact Hch | eapply flat'_ok; exact Hfl].
    Qed.

    (** [child_terms] with the flags consumed position by position *)
    Fixpoint cterms (bs : list bool) (cs ts : list (arr F)) (ds : list (option (arr F)))
             (xs : list F) : Prop :=
      match bs, cs, ts, ds, xs with
      | [], [], [], [], [] => True
      | b :: bs', c :: cs', t :: ts', od :: ds', x :: xs' =>
        child_term O c t b od x /\ cterms bs' cs' ts' ds' xs'
      | _, _, _, _, _ => False
      end.

    Lemma child_terms_cterms : forall cs i flags ts ds xs,
        child_terms O i flags cs ts ds xs -> i + length cs = length flags ->
        cterms (skipn i flags) cs ts ds xs.
    Proof.
      intro cs. induction cs as [|c cs IH]; intros i flags ts ds xs H Hl.
      - destruct ts, ds, xs; cbn [child_terms] in H; try contradiction.
        simpl in Hl. rewrite Nat.add_0_r in Hl. subst i. rewrite skipn_all. exact I.
      - destruct ts as [|t ts], ds as [|od ds], xs as [|x xs]; cbn [child_terms] in H;
          try contradiction.
        destruct H as [H1 H2]. simpl in Hl.
        rewrite (skipn_nth_cons i flags false) by lia. cbn [cterms]. split.
        + exact H1.
        + apply IH; [exact H2 | lia].
    Qed.

    Lemma cfold_terms : forall es ds xs contrib,
        cterms (map e_tracked es) (cvals g es) (map (fun e => tan (e_node e)) es) ds xs ->
        (forall j e d, nth_error es j = Some e -> nth_error ds j = Some (Some d) ->
                       e_tracked e = true) ->
        cfold E' g es ds = Some contrib ->
        vsum O xs = ksum (fadd O) (f0 O) (map (pairc (arr F) F pairF tan) contrib).
    Proof.
      intro es. induction es as [|e es IH]; intros ds xs contrib Ht Htr Hcf.
      - destruct ds, xs; cbn [map cvals cterms] in Ht; try contradiction.
        rewrite cfold_nil_l in Hcf. injection Hcf as Hcf. subst contrib. reflexivity.
      - destruct ds as [|od ds], xs as [|x xs]; cbn [map cvals cterms] in Ht; try contradiction.
        destruct Ht as [Hterm Ht].
        rewrite cfold_cons in Hcf. revert Hcf. apply obind_elim. intros rest Hrest Hcf.
        assert (Htr' : forall j e0 d, nth_error es j = Some e0 -> nth_error ds j = Some (Some d) ->
                                      e_tracked e0 = true)
          by (intros j e0 d H1 H2; apply (Htr (S j) e0 d); assumption).
        pose proof (IH ds xs rest Ht Htr' Hrest) as Hsum.
        rewrite (vsum_cons O R), Hsum.
        destruct od as [d|].
        + revert Hcf. apply obind_elim. intros ch Hch Hcf.
          revert Hcf. apply obind_elim. intros d' Hd' Hcf.
          injection Hcf as Hcf. subst contrib.
          cbn [map ksum fold_right]. f_equal.
          unfold pairc. cbn [fst snd].
          cbn [child_term] in Hterm. destruct Hterm as (fd & Hfd & Hx).
          rewrite (nval_nth g _ ch Hch) in Hfd. change (dims (pay_arr (n_pay ch))) with (p_dims (n_pay ch)) in Hfd.
          cbn [eo_flat ValueConcrete.E'] in Hd'. unfold flat' in Hd'.
          destruct (wfb d); [| discriminate Hd'].
          assert (Hfd' : fd = d') by congruence. subst fd.
          assert (Hte : e_tracked e = true) by (apply (Htr 0 e d); reflexivity).
          rewrite Hte in Hx. exact Hx.
        + injection Hcf as Hcf. subst contrib.
          cbn [child_term] in Hterm. destruct Hterm as [_ Hx]. subst x. apply (cr_add_0_l O R).
    Qed.

    Lemma mapM_child_pay : forall es pays,
        mapM (child_pay g) es = Some pays -> map pay_arr pays = cvals g es.
    Proof.
      intro es. induction es as [|e es IH]; intros pays H.
      - injection H as H. subst pays. reflexivity.
      - simpl in H. revert H. apply obind_elim. intros p Hp H.
        revert H. apply obind_elim. intros ps Hps H. injection H as H. subst pays.
        unfold child_pay in Hp. revert Hp. apply obind_elim. intros c Hc Hp.
        injection Hp as Hp. subst p. cbn [map cvals]. rewrite (nval_nth g _ c Hc).
        f_equal. apply IH. exact Hps.
    Qed.

    Lemma H_local' : forall n nd delta contrib,
        nth_error g n = Some nd -> hasop E' nd = true -> grad_ok (n_pay nd) delta ->
        contribs E' g n delta = Some contrib ->
        pairF delta (tan n) = ksum (fadd O) (f0 O) (map (pairc (arr F) F pairF tan) contrib).
    Proof.
      intros n nd delta contrib Hnd Hop [Hwd Hdd] Hcs.
      apply contribs_inv in Hcs. destruct Hcs as (nd' & Hnd' & Hcase).
      assert (Heq : nd' = nd) by (unfold Program.gnode in *; congruence). subst nd'.
      destruct Hcase as [[Hop' _] | [_ (pays & ds & Hpays & Hds & Hcf)]]; [congruence |].
      unfold hasop in Hop. cbn [eo_hasop ValueConcrete.E' Program.E] in Hop.
      destruct (p_bop (n_pay nd)) as [code|] eqn:Hb; [| discriminate Hop].
      assert (Hds' : eo_bop E (n_pay nd) pays (map e_tracked (n_children nd)) delta = Some ds)
        by exact Hds.
      cbn [eo_bop ValueConcrete.E' Program.E] in Hds. rewrite Hb in Hds. cbn [obind] in Hds.
      rewrite (mapM_child_pay _ pays Hpays) in Hds.
      destruct (op_node n nd code Hnd Hb (fun m ndm _ H => tan_ok m ndm H))
        as (RD & HRD & Hprim & Htan & Hts).
      destruct (Hnodes n nd code Hnd Hb) as (_ & _ & Hloc).
      assert (HdR : dims delta = dims RD).
      { rewrite Hdd. change (dims RD) with (dims (primal RD)). rewrite Hprim. reflexivity. }
      destruct (Hloc _ _ delta RD ds Hts HRD Hprim Hwd HdR Hds) as (xs & Hterms & Hdot).
      unfold pairF at 1. rewrite Htan, Hdot.
      apply (cfold_terms (n_children nd) ds xs contrib).
      - apply (child_terms_cterms _ 0) in Hterms; [exact Hterms |].
        rewrite map_length. unfold cvals. rewrite map_length. reflexivity.
      - intros j e d He Hd.
        destruct (store_good_contract O g Hg n nd pays delta ds Hnd Hds') as [_ Hiff].
        apply (Hiff j e He). exists d. exact Hd.
      - exact Hcf.
    Qed.

    Lemma is_leaf_isop : forall m, is_leaf g m = negb (isop E' g m).
    Proof.
      intro m. unfold is_leaf, isop, hasop. cbn [eo_hasop ValueConcrete.E' Program.E].
      unfold Program.gnode.
      destruct (@nth_error (node pay (arr F)) g m) as [nd|]; [| reflexivity].
      destruct (p_bop (n_pay nd)); reflexivity.
    Qed.

    (** the identity in terms of the adjoint table of the pass, whatever the gradient slots
        held before; what the pass does to every leaf slot in terms of that table; where the
        table is non-empty *)
    Theorem backward_table : forall r keep seed s0 ndr g' log,
        r < length g -> nth_error g r = Some ndr ->
        seed_of E g r seed = Some s0 ->
        (forall sd, seed = Some sd -> wf sd /\ dims sd = p_dims (n_pay ndr)) ->
        run_backward E g r keep seed = Some (g', log) ->
        exists tab,
          adjoints E' g r s0 = Some tab /\ length tab = length g /\
          dot O (vals s0) (vals (tan r))
          = vsum O (map (fun m => match nth m tab None with
                                  | Some d => dot O (vals d) (vals (lt m))
                                  | None => f0 O
                                  end)
                        (filter (is_leaf g) (seq 0 (S r)))) /\
          (forall id, id < length g -> (nth id tab None <> None <-> EngineDefs.reach g r id)) /\
          (forall m nd nd', nth_error g m = Some nd -> nth_error g' m = Some nd' ->
                            n_children nd = [] ->
                            match nth m tab None with
                            | Some d => stored E' (n_grad nd) d (n_grad nd')
                            | None => n_grad nd' = n_grad nd
                            end) /\
          length g' = length g.
    Proof.
      intros r keep seed s0 ndr g' log Hr Hndr Hseed Hsd Hrun.
      destruct (pass_value_table O R g r keep seed s0 ndr g' log Hg Hr Hndr Hseed Hsd Hrun)
        as (_ & Hs0 & tab & [Htab Hlen _ _ H2 _ H4 H5a _ _ _ _]).
      destruct (adjoint_identity_g E' g (arr F) F (f0 O) (fadd O)
                                   (cr_add_assoc O R) (cr_add_comm O R) (cr_add_0_l O R)
                                   pairF tan grad_ok G_add' G_contribs' H_pair_add' H_local'
                                   r s0 tab ndr (store_good_wfg O g Hg) Hndr Hs0 Htab)
        as (_ & Hid).
      exists tab. split; [exact Htab |]. split; [exact Hlen |]. split; [| split; [exact H2 | split]].
      - change (dot O (vals s0) (vals (tan r))) with (pairF s0 (tan r)).
        rewrite Hid, ksum_vsum.
        rewrite (filter_ext (fun m => negb (isop E' g m)) (is_leaf g))
          by (intro m; symmetry; apply is_leaf_isop).
        f_equal. apply map_ext_in. intros m Hm. apply filter_In in Hm. destruct Hm as [Hm Hleaf].
        cbv beta. destruct (nth m tab None) as [d|]; [| reflexivity].
        apply in_seq in Hm. assert (Hmg : m < length g) by lia.
        destruct (nth_error g m) as [nd|] eqn:Hnd; [| apply nth_error_None in Hnd; nlia].
        unfold is_leaf in Hleaf. unfold Program.gnode in Hleaf, Hnd. rewrite Hnd in Hleaf.
        destruct (p_bop (n_pay nd)) as [code|] eqn:Hb; [discriminate Hleaf |].
        rewrite (tan_leaf g lt m nd Hnd Hb). reflexivity.
      - intros m nd nd' Hnd Hnd' Hch. rewrite nth_nth_error.
        destruct (nth_error tab m) as [[delta|]|] eqn:Ht.
        + apply (H5a m nd nd' delta Hnd Hnd' Ht Hch).
        + destruct (H4 m nd nd' Hnd Hnd') as [Hsame | (delta & Hd & _)]; [exact Hsame | congruence].
        + destruct (H4 m nd nd' Hnd Hnd') as [Hsame | (delta & Hd & _)]; [exact Hsame | congruence].
      - exact (proj1 (pass_skel O g r keep seed g' log Hg Hr Hrun)).
    Qed.

    (** with empty slots, the sum is over the gradients the pass stores on the leaves *)
    Theorem backward_exact_nodes : forall r keep seed s0 ndr g' log,
        grads_empty g -> r < length g -> nth_error g r = Some ndr ->
        seed_of E g r seed = Some s0 ->
        (forall sd, seed = Some sd -> wf sd /\ dims sd = p_dims (n_pay ndr)) ->
        run_backward E g r keep seed = Some (g', log) ->
        dot O (vals s0) (vals (tan r)) = leaf_pairing O g g' lt r.
    Proof.
      intros r keep seed s0 ndr g' log Hempty Hr Hndr Hseed Hsd Hrun.
      destruct (backward_table r keep seed s0 ndr g' log Hr Hndr Hseed Hsd Hrun)
        as (tab & _ & _ & Hid & _ & Hslot & Hlen').
      rewrite Hid. unfold leaf_pairing. f_equal. apply map_ext_in.
      intros m Hm. apply filter_In in Hm. destruct Hm as [Hm Hleaf]. apply in_seq in Hm.
      assert (Hmg : m < length g) by lia.
      destruct (nth_error g m) as [nd|] eqn:Hnd; [| apply nth_error_None in Hnd; nlia].
      destruct (nth_error g' m) as [nd'|] eqn:Hnd'; [| apply nth_error_None in Hnd'; nlia].
      unfold is_leaf in Hleaf. unfold Program.gnode in Hleaf, Hnd, Hnd'. rewrite Hnd in Hleaf.
      destruct (p_bop (n_pay nd)) as [code|] eqn:Hb; [discriminate Hleaf |].
      pose proof (Hslot m nd nd' Hnd Hnd' (store_good_leaf g m nd Hg Hnd Hb)) as Hs.
      rewrite (Hempty m nd Hnd) in Hs.
      unfold grad_at. unfold Program.gnode. rewrite Hnd'.
      destruct (nth m tab None) as [d|]; rewrite Hs; reflexivity.
    Qed.
  End Nodes.

  Section Graph.
    Variable g : list gnode.
    Variable lt : nat -> arr F.
    Hypothesis Hg : store_good g.
    Hypothesis Hvc : value_consistent O g.
    Hypothesis Hsup : supported g.
    Hypothesis Hlt : leaf_tangents_ok g lt.

    Local Notation tan := (tan O g lt).

    Lemma supported_exact_nodes : exact_nodes g.
    Proof.
      intros n nd code Hnd Hb.
      destruct (op_node_facts g n nd code Hg Hvc Hnd Hb) as (Hlen & Hwf & Hfit & Hfwd).
      destruct (Hsup n nd code Hnd Hb) as ((Hsupp & Hlift) & Hpre & Hnb).
      destruct Hfwd as [Hfwd | Hbad]; [| contradiction].
      split; [exact Hfit |]. split.
      - intros ts flags Hts. exact (Hlift _ ts flags _ Hlen Hwf Hts Hpre Hfwd).
      - intros ts flags delta RD ds Hts HRD Hprim. rewrite <- Hprim in Hfit.
        exact (Hsupp _ ts flags delta RD ds Hlen Hwf Hts Hpre HRD Hfit).
    Qed.

    Theorem backward_exact : forall r keep seed s0 ndr g' log,
        grads_empty g -> r < length g -> nth_error g r = Some ndr ->
        seed_of E g r seed = Some s0 ->
        (forall sd, seed = Some sd -> wf sd /\ dims sd = p_dims (n_pay ndr)) ->
        run_backward E g r keep seed = Some (g', log) ->
        dot O (vals s0) (vals (tan r)) = leaf_pairing O g g' lt r.
    Proof. exact (backward_exact_nodes g lt Hg supported_exact_nodes Hlt). Qed.
  End Graph.

  Definition proven_graph (g : list gnode) : Prop :=
    forall id nd code,
      nth_error g id = Some nd -> p_bop (n_pay nd) = Some code ->
      proven_code code = true /\ code_pre code (cvals g (n_children nd)).

  Lemma not_nobias : forall code cs v,
      (proven_code code = true \/ proven_code_div code = true) -> ~ matmul_nobias O code cs v.
  Proof. intros code cs v [H | H]; destruct code; try discriminate H; intro Hm; exact Hm. Qed.

  Theorem proven_graph_supported : forall g, proven_graph g -> supported g.
  Proof.
    intros g H id nd code Hnd Hb. destruct (H id nd code Hnd Hb) as [Hp Hpre].
    split; [apply (proven_ok O R); exact Hp |]. split; [exact Hpre |].
    apply not_nobias. left. exact Hp.
  Qed.

  Section Division.
    Hypothesis Hdiv : forall a b, fdiv O a b = fmul O a (fdiv O (f1 O) b).
    Hypothesis Hinv_mul : forall a b,
        fdiv O (f1 O) (fmul O a b) = fmul O (fdiv O (f1 O) a) (fdiv O (f1 O) b).
    Hypothesis Hpow2 : forall x, fpow O x (two O) = fmul O x x.

    (** ... including division, logarithm and reciprocal *)
    Definition proven_graph_div (g : list gnode) : Prop :=
      forall id nd code,
        nth_error g id = Some nd -> p_bop (n_pay nd) = Some code ->
        (proven_code code = true \/ proven_code_div code = true) /\
        code_pre code (cvals g (n_children nd)).

    Theorem proven_graph_div_supported : forall g, proven_graph_div g -> supported g.
    Proof.
      intros g H id nd code Hnd Hb. destruct (H id nd code Hnd Hb) as [Hp Hpre].
      split; [| split; [exact Hpre | apply not_nobias; exact Hp]].
      destruct Hp as [Hp | Hp];
        [apply (proven_ok O R); exact Hp | apply (proven_div_ok O R Hdiv Hinv_mul Hpow2); exact Hp].
    Qed.
  End Division.

  Definition unit_arr (d : list nat) (j : nat) : arr F :=
    {| dims := d; vals := map (fun i => if i =? j then f1 O else f0 O) (seq 0 (prod d)) |}.

  (** the tangent assignment "element [j] of leaf [l0]" *)
  Definition lt_unit (g : list gnode) (l0 j : nat) (l : nat) : arr F :=
    if l =? l0 then unit_arr (dims (nval g l)) j else zeros_like O (nval g l).

  Lemma dot_unit : forall (x : list F) n j,
      length x = n -> j < n ->
      dot O x (map (fun i => if i =? j then f1 O else f0 O) (seq 0 n)) = nth j x (f0 O).
  Proof.
    intros x n j Hx Hj. rewrite (dot_seq O x _ n Hx) by (rewrite map_length, seq_length; reflexivity).
    rewrite (vsum_map_ext O _ (fun k => if j =? k then nth j x (f0 O) else f0 O)).
    - apply (vsum_delta_seq O R (fun _ => nth j x (f0 O)) j n Hj).
    - intros k Hk. apply in_seq in Hk.
      rewrite nth_map_seq by lia. cbn [Nat.add]. rewrite (Nat.eqb_sym j k).
      destruct (k =? j) eqn:Hkj.
      + apply Nat.eqb_eq in Hkj. subst k. apply (cr_mul_1_r O R).
      + apply (cr_mul_0_r O R).
  Qed.

  Lemma vsum_only : forall {A} (eqb : A -> A -> bool) (f : A -> F) (a : A) (l : list A),
      (forall x y, eqb x y = true <-> x = y) ->
      NoDup l -> In a l -> (forall x, x <> a -> f x = f0 O) -> vsum O (map f l) = f a.
  Proof.
    intros A eqb f a l Heq. induction l as [|b l IH]; intros Hnd Hin Hz; [destruct Hin |].
    inversion Hnd as [|? ? Hnb Hnd']; subst. cbn [map]. rewrite (vsum_cons O R).
    destruct (eqb b a) eqn:Hba.
    - apply Heq in Hba. subst b.
      rewrite (vsum_zeros O R); [apply (cr_add_0_r O R) |].
      intros y Hy. apply in_map_iff in Hy. destruct Hy as (x & <- & Hx).
      apply Hz. intro Hxa. subst x. contradiction.
    - assert (Hne : b <> a) by (intro Hb; apply Heq in Hb; congruence).
      destruct Hin as [Hin | Hin]; [contradiction |].
      rewrite (Hz b Hne), (cr_add_0_l O R). apply IH; assumption.
  Qed.

  Theorem backward_partial : forall (g : list gnode) r keep seed s0 ndr g' log l0 nd0 j,
      store_good g -> value_consistent O g -> supported g -> grads_empty g ->
      r < length g -> nth_error g r = Some ndr ->
      seed_of E g r seed = Some s0 ->
      (forall sd, seed = Some sd -> wf sd /\ dims sd = p_dims (n_pay ndr)) ->
      run_backward E g r keep seed = Some (g', log) ->
      l0 <= r -> nth_error g l0 = Some nd0 -> p_bop (n_pay nd0) = None ->
      j < prod (p_dims (n_pay nd0)) ->
      nth j (match grad_at g' l0 with Some gl => vals gl | None => [] end) (f0 O)
      = dot O (vals s0) (vals (tan O g (lt_unit g l0 j) r)).
  Proof.
    intros g r keep seed s0 ndr g' log l0 nd0 j Hg Hvc Hsup Hempty Hr Hndr Hseed Hsd Hrun
           Hl0 Hnd0 Hb0 Hj.
    assert (Hlt : leaf_tangents_ok g (lt_unit g l0 j)).
    { intros l nd Hnd Hb. unfold lt_unit. rewrite (nval_nth g l nd Hnd).
      pose proof (store_good_val g l nd Hg Hnd) as Hw.
      destruct (l =? l0).
      - split; [| reflexivity]. destruct Hw as [Hp _]. split; cbn [unit_arr dims vals pay_arr].
        + exact Hp.
        + rewrite map_length, seq_length. reflexivity.
      - split; [apply zeros_like_wf; exact Hw | reflexivity]. }
    rewrite (backward_exact g (lt_unit g l0 j) Hg Hvc Hsup Hlt r keep seed s0 ndr g' log
                            Hempty Hr Hndr Hseed Hsd Hrun).
    unfold leaf_pairing.
    assert (Hseed' : forall sd nd, seed = Some sd -> nth_error g r = Some nd -> grad_ok (n_pay nd) sd).
    { intros sd nd Hs Hn. rewrite Hndr in Hn. injection Hn as Hn. subst nd. apply Hsd. exact Hs. }
    destruct (pass_good O g r keep seed g' log Hg Hr Hseed' Hrun) as [Hg' Hlen'].
    rewrite (vsum_only Nat.eqb _ l0).
    - unfold grad_at. unfold Program.gnode.
      destruct (@nth_error (node pay (arr F)) g' l0) as [nd0'|] eqn:Hnd0';
        [| destruct j; reflexivity].
      destruct (n_grad nd0') as [gl|] eqn:Hgl; [| destruct j; reflexivity].
      destruct (store_good_grad g' l0 nd0' Hg' Hnd0' gl Hgl) as [[_ Hlgl] Hdgl].
      unfold lt_unit. rewrite Nat.eqb_refl, (nval_nth g l0 nd0 Hnd0). cbn [unit_arr vals pay_arr dims].
      assert (Hpd : p_dims (n_pay nd0') = p_dims (n_pay nd0)).
      { destruct (pass_skel O g r keep seed g' log Hg Hr Hrun) as [_ Hskel].
        destruct (Hskel l0 nd0 nd0' Hnd0 Hnd0') as [Hp _]. rewrite Hp. reflexivity. }
      symmetry. apply dot_unit; [rewrite <- Hlgl, Hdgl, Hpd; reflexivity | exact Hj].
    - intros x y. apply Nat.eqb_eq.
    - apply NoDup_filter. apply seq_NoDup.
    - apply filter_In. split; [apply in_seq; lia |].
      unfold is_leaf. unfold Program.gnode in *. rewrite Hnd0, Hb0. reflexivity.
    - intros l Hne. destruct (grad_at g' l) as [gl|]; [| reflexivity].
      unfold lt_unit. apply Nat.eqb_neq in Hne. rewrite Hne. apply (dot_zeros_like O R).
  Qed.

  (** [good] and [value_consistent] hold in every reachable state ([HistoryVC.run_good2]);
      what remains to be checked for a given pass is that the closures of the graph are
      supported and that the gradient slots are empty *)
  Theorem history_backward_exact :
    forall (p : list (@instr F)) (s : @state F) lt r keep seed s0 ndr g' log,
      reachable_state O p s ->
      supported (st_nodes s) -> grads_empty (st_nodes s) -> leaf_tangents_ok (st_nodes s) lt ->
      nth_error (st_nodes s) r = Some ndr ->
      seed_of E (st_nodes s) r seed = Some s0 ->
      (forall sd, seed = Some sd -> wf sd /\ dims sd = p_dims (n_pay ndr)) ->
      run_backward E (st_nodes s) r keep seed = Some (g', log) ->
      dot O (vals s0) (vals (tan O (st_nodes s) lt r)) = leaf_pairing O (st_nodes s) g' lt r.
  Proof.
    intros p s lt r keep seed s0 ndr g' log Hre Hsup Hempty Hlt Hndr Hseed Hsd Hrun.
    destruct (run_good2 O p s Hre) as [[Hg _] Hvc].
    eapply backward_exact; try eassumption.
    eapply nth_lt. exact Hndr.
  Qed.
End C01.

Print Assumptions backward_exact.
Print Assumptions history_backward_exact.
Print Assumptions proven_graph_supported.
Print Assumptions proven_graph_div_supported.
Print Assumptions backward_partial.
