(** The interpreter is natural in the ghost tags and independent of the pool.

    [tmap f P s] renames the creation tag of every node through [f], sets the current tag to
    [f (st_tag s)] and replaces the pool by [P].  Every function of Model/Program.v that
    [step] calls on the state (operations, passes, optimizer, layers, costs) commutes with
    [tmap]: it computes the same arrays, handles and observations and returns the mapped
    state.  This is the key lemma of the transparency theorem (Proofs/Transparency.v): two
    programs that differ by extra clones and drops run on stores that differ only in tags. *)

From Coq Require Import List Arith Bool Lia PeanoNat.
From Corgi Require Import Lib.OptionMonad Model.Scalar Model.Arr Model.SlicedOp
     Model.Elementwise Model.Linalg Model.Image Model.Ops Model.Engine Model.Program
     Proofs.EngineDefs Proofs.EngineBase Proofs.EngineInv Proofs.StepView Proofs.ProgramFacts.
Import ListNotations.

Lemma omap_bind : forall {A B C} (x : option A) (k : A -> option B) (g : B -> C),
    option_map g (obind x k) = obind x (fun a => option_map g (k a)).
Proof. intros A B C [a|] k g; reflexivity. Qed.

(** * The engine is natural in the payload *)

Section EngineNat.
  Context {P D : Type}.
  Variable E : eops P D.
  Variable phi : P -> P.
  Hypothesis H_ones : forall p, eo_ones E (phi p) = eo_ones E p.
  Hypothesis H_flat : forall d p, eo_flat E d (phi p) = eo_flat E d p.
  Hypothesis H_hasop : forall p, eo_hasop E (phi p) = eo_hasop E p.
  Hypothesis H_bop : forall p ps t x, eo_bop E (phi p) (map phi ps) t x = eo_bop E p ps t x.

  Definition nmap (nd : node P D) : node P D :=
    {| n_pay := phi (n_pay nd); n_children := n_children nd; n_count := n_count nd;
       n_delta := n_delta nd; n_grad := n_grad nd |}.

  Lemma nth_nmap : forall (g : store P D) id,
      nth_error (map nmap g) id = option_map nmap (nth_error g id).
  Proof. intros g id. apply nth_error_map. Qed.

  Lemma put_nmap : forall (g : store P D) id nd,
      put (map nmap g) id (nmap nd) = option_map (map nmap) (put g id nd).
  Proof.
    intros g id nd. unfold put, set_nth. rewrite map_length.
    destruct (id <? length g); [|reflexivity]. cbn [option_map].
    rewrite map_app, firstn_map. cbn [map]. rewrite skipn_map. reflexivity.
  Qed.

  Definition pstepf (fuel : nat) (acc : option (store P D)) (e : entry) : option (store P D) :=
    g <- acc ;;
    if e_tracked e then
      c <- nth_error g (e_node e) ;;
      let cc := n_count c in
      g' <- put g (e_node e) (set_count c (S cc)) ;;
      if cc =? 0 then propagate fuel g' (e_node e) else Some g'
    else Some g.

  Lemma propagate_nmap : forall fuel (g : store P D) id,
      propagate fuel (map nmap g) id = option_map (map nmap) (propagate fuel g id).
  Proof.
    induction fuel as [|fuel IH]; intros g id; [reflexivity|].
    cbn [propagate]. rewrite nth_nmap. destruct (nth_error g id) as [nd|]; [|reflexivity].
    cbn [obind option_map n_children nmap]. fold (pstepf fuel).
    change (fold_left (pstepf fuel) (n_children nd) (option_map (map nmap) (Some g))
            = option_map (map nmap) (fold_left (pstepf fuel) (n_children nd) (Some g))).
    generalize (Some g) as acc. induction (n_children nd) as [|e es IHes]; intros acc; [reflexivity|].
    cbn [fold_left]. rewrite <- IHes. f_equal.
    destruct acc as [a|]; [|reflexivity]. cbn [option_map pstepf obind].
    destruct (e_tracked e); [|reflexivity].
    rewrite nth_nmap. destruct (nth_error a (e_node e)) as [c|]; [|reflexivity].
    cbn [obind option_map n_count nmap]. cbv zeta.
    change (set_count (nmap c) (S (n_count c))) with (nmap (set_count c (S (n_count c)))).
    rewrite put_nmap. destruct (put a (e_node e) (set_count c (S (n_count c)))) as [g'|]; [|reflexivity].
    cbn [obind option_map]. destruct (n_count c =? 0); [apply IH|reflexivity].
  Qed.

  Definition lift2 (r : option (store P D * @trace D)) : option (store P D * @trace D) :=
    option_map (fun r => (map nmap (fst r), snd r)) r.

  Definition rec_nat (rec : @rec_t P D) : Prop :=
    forall g id keep seed log, rec (map nmap g) id keep seed log = lift2 (rec g id keep seed log).

  Lemma deliver_nmap : forall rec, rec_nat rec -> forall acc p,
      deliver E rec (lift2 acc) p = lift2 (deliver E rec acc p).
  Proof.
    intros rec Hrec [[g lg]|] [e [d|]]; try reflexivity.
    unfold deliver. cbn [lift2 option_map obind fst snd].
    rewrite nth_nmap. destruct (nth_error g (e_node e)) as [c|]; [|reflexivity].
    cbn [obind option_map n_pay n_delta n_count nmap]. rewrite H_flat.
    destruct (eo_flat E d (n_pay c)) as [d'|]; [|reflexivity]. cbn [obind].
    destruct (match n_delta c with Some x => eo_add E x d' | None => Some d' end) as [nw|];
      [|reflexivity].
    cbn [obind]. cbv zeta. destruct (guard (1 <=? n_count c)) as [[]|]; [|reflexivity].
    cbn [obind].
    change (set_count (set_delta (nmap c) (Some nw)) (n_count c - 1))
      with (nmap (set_count (set_delta c (Some nw)) (n_count c - 1))).
    rewrite put_nmap.
    destruct (put g (e_node e) (set_count (set_delta c (Some nw)) (n_count c - 1))) as [g'|];
      [|reflexivity].
    cbn [obind option_map]. destruct (n_count c =? 1); [apply Hrec|reflexivity].
  Qed.

  Lemma fold_deliver_nmap : forall rec, rec_nat rec -> forall ps acc,
      fold_left (deliver E rec) ps (lift2 acc) = lift2 (fold_left (deliver E rec) ps acc).
  Proof.
    intros rec Hrec. induction ps as [|p ps IH]; intros acc; [reflexivity|].
    cbn [fold_left]. rewrite deliver_nmap by exact Hrec. apply IH.
  Qed.

  Lemma finish_nmap : forall (g2 : store P D) id keep delta log2,
      finish E (map nmap g2) id keep delta log2 = lift2 (finish E g2 id keep delta log2).
  Proof.
    intros g2 id keep delta log2. unfold finish. rewrite nth_nmap.
    destruct (nth_error g2 id) as [nd2|]; [|reflexivity]. cbn [obind option_map n_children nmap n_grad].
    destruct ((match n_children nd2 with [] => true | _ => false end) || keep); [|reflexivity].
    destruct (match n_grad nd2 with Some x => eo_add E x delta | None => Some delta end) as [ng|];
      [|reflexivity].
    cbn [obind]. change (set_grad (nmap nd2) (Some ng)) with (nmap (set_grad nd2 (Some ng))).
    rewrite put_nmap. destruct (put g2 id (set_grad nd2 (Some ng))); reflexivity.
  Qed.

  Lemma pays_nmap : forall (g : store P D) (es : list entry),
      mapM (fun e => c <- nth_error (map nmap g) (e_node e) ;; Some (n_pay c)) es
      = option_map (map phi) (mapM (fun e => c <- nth_error g (e_node e) ;; Some (n_pay c)) es).
  Proof.
    intros g es. induction es as [|e es IH]; [reflexivity|].
    cbn [mapM]. rewrite nth_nmap, IH. destruct (nth_error g (e_node e)) as [c|]; [|reflexivity].
    cbn [obind option_map n_pay nmap].
    destruct (mapM (fun e0 => c0 <- nth_error g (e_node e0) ;; Some (n_pay c0)) es); reflexivity.
  Qed.

  Lemma bw_body_nmap : forall rec, rec_nat rec -> forall (g1 : store P D) id keep delta log,
      bw_body E rec (map nmap g1) id keep delta log = lift2 (bw_body E rec g1 id keep delta log).
  Proof.
    intros rec Hrec g1 id keep delta log.
    destruct (nth_error g1 id) as [nd1|] eqn:Hnd1;
      [| unfold bw_body; rewrite nth_nmap, Hnd1; reflexivity].
    rewrite (bw_body_eq E rec g1 id keep delta log nd1 Hnd1).
    rewrite (bw_body_eq E rec (map nmap g1) id keep delta log (nmap nd1))
      by (rewrite nth_nmap, Hnd1; reflexivity).
    cbn [n_children n_pay nmap]. rewrite H_hasop.
    destruct (eo_hasop E (n_pay nd1)).
    - rewrite pays_nmap.
      destruct (mapM (fun e => c <- nth_error g1 (e_node e) ;; Some (n_pay c)) (n_children nd1))
        as [pays|]; [|reflexivity].
      cbn [obind option_map]. rewrite H_bop.
      destruct (eo_bop E (n_pay nd1) pays (map e_tracked (n_children nd1)) delta) as [ds|];
        [|reflexivity].
      cbn [obind].
      destruct (guard (length ds <=? length (n_children nd1))) as [[]|]; [|reflexivity].
      cbn [obind].
      change (Some (map nmap g1, log ++ [(id, delta)])) with (lift2 (Some (g1, log ++ [(id, delta)]))).
      rewrite fold_deliver_nmap by exact Hrec.
      destruct (fold_left (deliver E rec) (combine (n_children nd1) ds)
                          (Some (g1, log ++ [(id, delta)]))) as [[g2 log2]|]; [|reflexivity].
      cbn [lift2 option_map obind fst snd]. apply finish_nmap.
    - destruct (guard (match n_children nd1 with [] => true | _ => false end)) as [[]|];
        [|reflexivity].
      cbn [obind]. apply finish_nmap.
  Qed.

  Theorem backward_nmap : forall fuel, rec_nat (backward E fuel).
  Proof.
    induction fuel as [|fuel IH]; intros g id keep seed log; [reflexivity|].
    rewrite !backward_S. rewrite nth_nmap. destruct (nth_error g id) as [nd|]; [|reflexivity].
    cbn [obind option_map n_delta n_pay nmap]. destruct (n_delta nd) as [x|].
    - change (set_delta (nmap nd) None) with (nmap (set_delta nd None)). rewrite put_nmap.
      destruct (put g id (set_delta nd None)) as [g1|]; [|reflexivity].
      cbn [obind option_map]. apply bw_body_nmap. exact IH.
    - rewrite propagate_nmap. destruct (propagate (S id) g id) as [g1|]; [|reflexivity].
      cbn [obind option_map]. rewrite H_ones. apply bw_body_nmap. exact IH.
  Qed.

  Corollary run_backward_nmap : forall (g : store P D) id keep seed,
      run_backward E (map nmap g) id keep seed = lift2 (run_backward E g id keep seed).
  Proof. intros. apply backward_nmap. Qed.
End EngineNat.

Section ProgNat.
  Context {F : Type} (O : ScalarOps F).
  Variable f : nat -> nat.
  Variable P : list (option handle).

  Notation state := (@state F).

  Definition ptag (p : @pay F) : @pay F :=
    {| p_dims := p_dims p; p_vals := p_vals p; p_bop := p_bop p; p_buf := p_buf p;
       p_tag := f (p_tag p) |}.

  Definition ntag : @gnode F -> @gnode F := nmap ptag.

  Definition tmap (s : state) : state :=
    {| st_nodes := map ntag (st_nodes s); st_pool := P; st_layers := st_layers s;
       st_cost := st_cost s; st_lr := st_lr s; st_output := st_output s;
       st_tag := f (st_tag s) |}.

  Definition liftT {A} (r : option (state * A)) : option (state * A) :=
    option_map (fun r => (tmap (fst r), snd r)) r.

  Lemma h_node_T : forall s h, h_node (tmap s) h = option_map ntag (h_node s h).
  Proof. intros s h. unfold h_node. cbn [st_nodes tmap]. apply nth_error_map. Qed.

  Lemma h_arr_T : forall s h, h_arr (tmap s) h = h_arr s h.
  Proof. intros s h. unfold h_arr. rewrite h_node_T. destruct (h_node s h); reflexivity. Qed.

  Lemma grad_of_T : forall s h, grad_of (tmap s) h = grad_of s h.
  Proof. intros s h. unfold grad_of. rewrite h_node_T. destruct (h_node s h); reflexivity. Qed.

  Lemma alloc_T : forall s a cs bop buf,
      alloc (tmap s) a cs bop buf
      = (tmap (fst (alloc s a cs bop buf)), snd (alloc s a cs bop buf)).
  Proof.
    intros s a cs bop buf. unfold alloc. cbn [fst snd st_nodes st_tag tmap with_nodes].
    rewrite map_length. f_equal. unfold tmap, with_nodes. cbn. rewrite map_app. reflexivity.
  Qed.

  Lemma alloc_if_T : forall s a t cs code,
      alloc_if (tmap s) a t cs code
      = (tmap (fst (alloc_if s a t cs code)), snd (alloc_if s a t cs code)).
  Proof. intros s a t cs code. unfold alloc_if. destruct t; apply alloc_T. Qed.

  Lemma unary_T : forall s h fwd code, unary (tmap s) h fwd code = liftT (unary s h fwd code).
  Proof.
    intros s h fwd code. unfold unary. rewrite h_arr_T.
    destruct (h_arr s h) as [a|]; [|reflexivity]. cbn [obind].
    destruct (fwd a) as [r|]; [|reflexivity]. cbn [obind liftT option_map]. rewrite alloc_if_T.
    reflexivity.
  Qed.

  Lemma binary_T : forall s ha hb fwd code,
      binary (tmap s) ha hb fwd code = liftT (binary s ha hb fwd code).
  Proof.
    intros s ha hb fwd code. unfold binary. rewrite !h_arr_T.
    destruct (h_arr s ha) as [a|]; [|reflexivity]. destruct (h_arr s hb) as [b|]; [|reflexivity].
    cbn [obind]. destruct (fwd a b) as [r|]; [|reflexivity]. cbn [obind liftT option_map].
    rewrite alloc_if_T. reflexivity.
  Qed.

  Lemma op_sum_T : forall s k h, op_sum O (tmap s) k h = liftT (op_sum O s k h).
  Proof.
    intros s k h. unfold op_sum. destruct (k =? 0); [reflexivity|]. rewrite h_arr_T.
    destruct (h_arr s h) as [a|]; [|reflexivity]. cbn [obind]. apply unary_T.
  Qed.

  Lemma op_reshape_T : forall s d h, op_reshape (tmap s) d h = liftT (op_reshape s d h).
  Proof.
    intros s d h. unfold op_reshape. rewrite h_node_T.
    destruct (h_node s h) as [nd|]; [|reflexivity]. cbn [obind option_map].
    change (pay_arr (n_pay (ntag nd))) with (pay_arr (n_pay nd)).
    destruct (a_reshape d (pay_arr (n_pay nd))) as [r|]; [|reflexivity].
    cbn [obind liftT option_map]. change (p_buf (n_pay (ntag nd))) with (p_buf (n_pay nd)).
    destruct (e_tracked h); rewrite alloc_T; reflexivity.
  Qed.

  Lemma op_matmul_T : forall s ta tb ha hb hc,
      op_matmul O (tmap s) ta tb ha hb hc = liftT (op_matmul O s ta tb ha hb hc).
  Proof.
    intros s ta tb ha hb hc. unfold op_matmul. rewrite !h_arr_T.
    destruct (h_arr s ha) as [a|]; [|reflexivity]. destruct (h_arr s hb) as [b|]; [|reflexivity].
    cbn [obind].
    assert (Hc : match hc with Some h => x <- h_arr (tmap s) h ;; Some (Some x) | None => Some None end
                 = match hc with Some h => x <- h_arr s h ;; Some (Some x) | None => Some None end)
      by (destruct hc; [rewrite h_arr_T|]; reflexivity).
    rewrite Hc. clear Hc.
    destruct (match hc with Some h => x <- h_arr s h ;; Some (Some x) | None => Some None end) as [c|];
      [|reflexivity].
    cbn [obind]. destruct (a_matmul O a ta b tb c) as [r|]; [|reflexivity]. cbn [obind]. cbv zeta.
    destruct (e_tracked ha || e_tracked hb || match hc with Some h => e_tracked h | None => false end).
    - destruct hc as [h|].
      + cbn [liftT option_map]. rewrite alloc_T. reflexivity.
      + rewrite alloc_T. destruct (alloc s (zeros1 O) [] None None) as [s1 h3].
        cbn [fst snd liftT option_map]. rewrite alloc_T. reflexivity.
    - cbn [liftT option_map]. rewrite alloc_T. reflexivity.
  Qed.

  Lemma op_unroll_T : forall s h sr sc fr fc,
      op_unroll O (tmap s) h sr sc fr fc = liftT (op_unroll O s h sr sc fr fc).
  Proof.
    intros s h sr sc fr fc. unfold op_unroll. rewrite h_arr_T.
    destruct (h_arr s h) as [a|]; [|reflexivity]. cbn [obind].
    destruct (dim_back (dims a) 3); [|reflexivity]. destruct (dim_back (dims a) 2); [|reflexivity].
    destruct (dim_back (dims a) 1); [|reflexivity]. cbn [obind].
    destruct (unroll_blocks O a sr sc fr fc); [|reflexivity]. cbn [obind liftT option_map].
    rewrite alloc_if_T. reflexivity.
  Qed.

  Lemma op_expand_T : forall s h rc cc, op_expand O (tmap s) h rc cc = liftT (op_expand O s h rc cc).
  Proof.
    intros s h rc cc. unfold op_expand. rewrite h_arr_T.
    destruct (h_arr s h) as [a|]; [|reflexivity]. cbn [obind].
    destruct (dim_back (dims a) 1); [|reflexivity]. cbn [obind].
    destruct (expand_conv O a rc cc); [|reflexivity]. cbn [obind liftT option_map].
    rewrite alloc_if_T. reflexivity.
  Qed.

  Lemma op_custom_T : forall s c hs, op_custom O (tmap s) c hs = liftT (op_custom O s c hs).
  Proof.
    intros s c hs. unfold op_custom.
    rewrite (mapM_ext (h_arr (tmap s)) (h_arr s)) by (intros h _; apply h_arr_T).
    destruct (mapM (h_arr s) hs) as [args|]; [|reflexivity]. cbn [obind].
    destruct (custom_forward O c args); [|reflexivity]. cbn [obind liftT option_map].
    rewrite alloc_T. reflexivity.
  Qed.

  (** chaining: the continuation of a lifted result *)
  Lemma liftT_bind : forall {A B} (r : option (state * A)) (k k' : state * A -> option (state * B)),
      (forall s1 x, k' (tmap s1, x) = liftT (k (s1, x))) ->
      obind (liftT r) k' = liftT (obind r k).
  Proof. intros A B [[s1 x]|] k k' H; [apply H|reflexivity]. Qed.

  Lemma op_sub_T : forall s ha hb, op_sub O (tmap s) ha hb = liftT (op_sub O s ha hb).
  Proof.
    intros s ha hb. unfold op_sub, op_neg. rewrite unary_T. apply liftT_bind.
    intros s1 hn. apply binary_T.
  Qed.

  Lemma op_axpy_T : forall s alpha hx hy, op_axpy O (tmap s) alpha hx hy = liftT (op_axpy O s alpha hx hy).
  Proof.
    intros s alpha hx hy. unfold op_axpy, op_scale. rewrite unary_T. apply liftT_bind.
    intros s1 hs. apply binary_T.
  Qed.

  Lemma op_softmax_T : forall s h, op_softmax O (tmap s) h = liftT (op_softmax O s h).
  Proof.
    intros s h. unfold op_softmax, op_exp. rewrite unary_T. apply liftT_bind.
    intros s1 he. rewrite op_sum_T. apply liftT_bind. intros s2 hs. apply binary_T.
  Qed.

  Lemma op_conv_T : forall s sr sc hi hf, op_conv O (tmap s) sr sc hi hf = liftT (op_conv O s sr sc hi hf).
  Proof.
    intros s sr sc hi hf. unfold op_conv. rewrite !h_arr_T.
    destruct (h_arr s hi) as [image|]; [|reflexivity]. destruct (h_arr s hf) as [filters|]; [|reflexivity].
    cbn [obind]. cbv zeta.
    destruct (guard (1 <=? length (dims image))) as [[]|]; [|reflexivity]. cbn [obind].
    destruct (guard ((3 <=? length (dims image)) && (3 <=? length (dims filters)))) as [[]|];
      [|reflexivity].
    cbn [obind].
    destruct (dim_back (dims image) 3) as [depth|]; [|reflexivity].
    destruct (dim_back (dims image) 2) as [rows|]; [|reflexivity].
    destruct (dim_back (dims image) 1) as [cols|]; [|reflexivity].
    destruct (dim_back (dims filters) 2) as [fr|]; [|reflexivity].
    destruct (dim_back (dims filters) 1) as [fc|]; [|reflexivity]. cbn [obind].
    destruct (stride_count rows fr sr) as [rcount|]; [|reflexivity].
    destruct (stride_count cols fc sc) as [ccount|]; [|reflexivity]. cbn [obind].
    rewrite op_unroll_T. apply liftT_bind. intros s1 hu. rewrite h_arr_T.
    destruct (h_arr s1 hu) as [ua|]; [|reflexivity]. cbn [obind].
    destruct (dim_back (dims ua) 1) as [last|]; [|reflexivity]. cbn [obind]. cbv zeta.
    rewrite op_reshape_T. apply liftT_bind. intros s2 hm.
    rewrite op_matmul_T. apply liftT_bind. intros s3 hcv. apply op_expand_T.
  Qed.

  Theorem apply_op_T : forall s k hs, apply_op O (tmap s) k hs = liftT (apply_op O s k hs).
  Proof.
    intros s k hs.
    destruct k; try apply op_custom_T;
      destruct hs as [|x [|y [|z [|w l]]]]; cbn [apply_op]; try reflexivity;
        unfold op_add, op_mul, op_div, op_neg, op_scale, op_exp, op_ln, op_powf, op_relu, op_sigmoid;
        first [apply unary_T | apply binary_T | apply op_sub_T | apply op_sum_T | apply op_reshape_T
              | apply op_matmul_T | apply op_conv_T | apply op_softmax_T | apply op_axpy_T].
  Qed.
  Lemma fold_map_nat : forall {X B} (m : X -> X) (step : X -> B -> option X) (l : list B),
      (forall x b, step (m x) b = option_map m (step x b)) ->
      forall acc,
        fold_left (fun (acc : option X) b => st <- acc ;; step st b) l (option_map m acc)
        = option_map m (fold_left (fun (acc : option X) b => st <- acc ;; step st b) l acc).
  Proof.
    intros X B m step l H. induction l as [|b l IH]; intros acc; [reflexivity|].
    cbn [fold_left]. rewrite <- IH. f_equal. destruct acc as [x|]; [|reflexivity].
    cbn [option_map obind]. apply H.
  Qed.

  Lemma put_ntag : forall (g : list (@gnode F)) id nd,
      put (map ntag g) id (ntag nd) = option_map (map ntag) (put g id nd).
  Proof. intros. apply put_nmap. Qed.

  Lemma clear_grad_T : forall s h, clear_grad (tmap s) h = option_map tmap (clear_grad s h).
  Proof.
    intros s h. unfold clear_grad. rewrite h_node_T. destruct (h_node s h) as [nd|]; [|reflexivity].
    cbn [obind option_map st_nodes tmap].
    change (set_grad (ntag nd) None) with (ntag (set_grad nd None)). rewrite put_ntag.
    destruct (put (st_nodes s) (e_node h) (set_grad nd None)); reflexivity.
  Qed.

  Definition tmap3 (x : state * list F * list handle) : state * list F * list handle :=
    (tmap (fst (fst x)), snd (fst x), snd x).

  Theorem gd_update_T : forall s lr params,
      gd_update O (tmap s) lr params = liftT (gd_update O s lr params).
  Proof.
    intros s lr params. unfold gd_update. cbv zeta.
    assert (Hfr : forall taken, frozen_flags (tmap s) taken params = frozen_flags s taken params).
    { induction params as [|h0 ps IHps]; intros taken; [reflexivity|].
      cbn [frozen_flags]. rewrite grad_of_T.
      destruct (grad_of s h0); [destruct (existsb (Nat.eqb (e_node h0)) taken)|]; f_equal; apply IHps. }
    rewrite Hfr. clear Hfr.
    set (frozen := frozen_flags s [] params).
    set (unf := map fst (filter (fun p : handle * bool => negb (snd p)) (combine params frozen))).
    rewrite (mapM_ext (fun h => a <- h_arr (tmap s) h ;; Some (vals a))
                          (fun h => a <- h_arr s h ;; Some (vals a)))
      by (intros h _; rewrite h_arr_T; reflexivity).
    destruct (mapM (fun h => a <- h_arr s h ;; Some (vals a)) unf) as [pv|]; [|reflexivity].
    cbn [obind].
    rewrite (mapM_ext (fun h => g <- grad_of (tmap s) h ;; Some (vals g))
                          (fun h => g <- grad_of s h ;; Some (vals g)))
      by (intros h _; rewrite grad_of_T; reflexivity).
    destruct (mapM (fun h => g <- grad_of s h ;; Some (vals g)) unf) as [pg|]; [|reflexivity].
    cbn [obind].
    change (Some (tmap s)) with (option_map tmap (Some s)).
    rewrite (fold_map_nat tmap _ unf clear_grad_T).
    destruct (fold_left (fun (acc : option state) (h : handle) => st <- acc ;; clear_grad st h)
                        unf (Some s)) as [s1|]; [|reflexivity].
    cbn [option_map obind].
    set (buf := sgd_zip O lr (concat pv) (concat pg)).
    change (Some (tmap s1, buf, @nil handle)) with (option_map tmap3 (Some (s1, buf, @nil handle))).
    rewrite (fold_map_nat tmap3).
    - match goal with |- context [fold_left ?fn ?l (Some (s1, buf, []))] =>
                      destruct (fold_left fn l (Some (s1, buf, []))) as [[[s2 b2] out]|] end;
        reflexivity.
    - intros [[s' buf'] out] [h fz]. unfold tmap3. cbn [fst snd]. destruct fz; [reflexivity|].
      rewrite h_arr_T. destruct (h_arr s' h) as [a|]; [|reflexivity]. cbn [obind]. cbv zeta.
      destruct (guard (length (vals a) <=? length buf')) as [[]|]; [|reflexivity]. cbn [obind].
      destruct (mk (dims a) (firstn (length (vals a)) buf')) as [na|]; [|reflexivity]. cbn [obind].
      rewrite alloc_T. destruct (alloc s' na [] None None) as [s'' h']. reflexivity.
  Qed.

  Lemma apply_act_T : forall s a h, apply_act O (tmap s) a h = liftT (apply_act O s a h).
  Proof.
    intros s a h. destruct a; cbn [apply_act]; [reflexivity| | |apply op_softmax_T];
      unfold op_relu, op_sigmoid; apply unary_T.
  Qed.

  Lemma layer_forward_T : forall s l h, layer_forward O (tmap s) l h = liftT (layer_forward O s l h).
  Proof.
    intros s l h. unfold layer_forward. destruct (l_conv l) as [[sr sc]|].
    - rewrite op_conv_T. apply liftT_bind. intros s1 hc. unfold op_add. rewrite binary_T.
      apply liftT_bind. intros s2 h2. apply apply_act_T.
    - rewrite op_matmul_T. apply liftT_bind. intros s1 h1. apply apply_act_T.
  Qed.

  Definition tmap2 {A} (x : state * A) : state * A := (tmap (fst x), snd x).

  Theorem model_forward_T : forall s h, model_forward O (tmap s) h = liftT (model_forward O s h).
  Proof.
    intros s h. unfold model_forward. cbn [st_layers tmap].
    change (Some (tmap s, h)) with (option_map (@tmap2 handle) (Some (s, h))).
    rewrite (fold_map_nat (@tmap2 handle)).
    - match goal with |- context [fold_left ?fn ?l (Some (s, h))] =>
                      destruct (fold_left fn l (Some (s, h))) as [[s1 out]|] end; reflexivity.
    - intros [s' h'] l. unfold tmap2. cbn [fst snd]. rewrite layer_forward_T.
      destruct (layer_forward O s' l h') as [[s1 h1]|]; reflexivity.
  Qed.

  Lemma cost_apply_T : forall s c ho ht, cost_apply O (tmap s) c ho ht = liftT (cost_apply O s c ho ht).
  Proof.
    intros s c ho ht. unfold cost_apply. rewrite h_arr_T.
    destruct (h_arr s ho) as [o|]; [|reflexivity]. cbn [obind]. destruct c.
    - cbv zeta. rewrite op_sub_T. apply liftT_bind. intros s1 d. unfold op_powf. rewrite unary_T.
      apply liftT_bind. intros s2 p. unfold op_scale. apply unary_T.
    - destruct (nth_error (dims o) 0) as [batch|]; [|reflexivity]. cbn [obind].
      unfold op_neg. rewrite unary_T. apply liftT_bind. intros s1 nt.
      unfold op_ln. rewrite unary_T. apply liftT_bind. intros s2 lo.
      unfold op_mul. rewrite binary_T. apply liftT_bind. intros s3 m. unfold op_scale. apply unary_T.
  Qed.

  (** the engine operations of the model ignore the tag *)
  Lemma run_backward_T : forall (g : list (@gnode F)) id keep seed,
      run_backward (E O) (map ntag g) id keep seed
      = option_map (fun r => (map ntag (fst r), snd r)) (run_backward (E O) g id keep seed).
  Proof.
    intros g id keep seed. unfold ntag. apply run_backward_nmap; try reflexivity.
    intros p ps t x. cbn [eo_bop E p_bop ptag]. rewrite map_map.
    destruct (p_bop p); reflexivity.
  Qed.

  Theorem model_backward_T : forall s h, model_backward O (tmap s) h = liftT (model_backward O s h).
  Proof.
    intros s h. unfold model_backward. cbn [st_output st_cost tmap].
    destruct (st_output s) as [output|]; [|reflexivity]. cbn [obind]. rewrite cost_apply_T.
    apply liftT_bind. intros s1 err. cbn [st_nodes tmap]. rewrite run_backward_T.
    destruct (run_backward (E O) (st_nodes s1) (e_node err) (e_keep err) None) as [[g lg]|];
      [|reflexivity].
    cbn [option_map obind fst snd]. rewrite h_arr_T. destruct (h_arr s1 err); reflexivity.
  Qed.

  Theorem model_update_T : forall s, model_update O (tmap s) = option_map tmap (model_update O s).
  Proof.
    intros s. unfold model_update. cbn [st_lr tmap].
    change (model_params (tmap s)) with (model_params s). rewrite gd_update_T.
    destruct (gd_update O s (st_lr s) (model_params s)) as [[s1 hs]|]; reflexivity.
  Qed.

  Lemma make_layer_T : forall s l, make_layer (tmap s) l = liftT (make_layer s l).
  Proof.
    intros s l. destruct l; cbn [make_layer].
    - destruct (mk [nout; nin] w) as [wa|]; [|reflexivity]. destruct (mk [nout] b) as [ba|]; [|reflexivity].
      cbn [obind]. rewrite alloc_T. destruct (alloc s wa [] None None) as [s1 hw]. cbn [fst snd].
      rewrite alloc_T. destruct (alloc s1 ba [] None None) as [s2 hb]. reflexivity.
    - destruct (mk [count; depth; fr; fc] f0) as [fa|]; [|reflexivity].
      destruct (mk [count; 1; 1] b) as [ba|]; [|reflexivity].
      cbn [obind]. rewrite alloc_T. destruct (alloc s fa [] None None) as [s1 hw]. cbn [fst snd].
      rewrite alloc_T. destruct (alloc s1 ba [] None None) as [s2 hb]. reflexivity.
  Qed.

  Lemma make_layers_T : forall s ls, make_layers (tmap s) ls = liftT (make_layers s ls).
  Proof.
    intros s ls. unfold make_layers.
    change (Some (tmap s, @nil layer)) with (option_map (@tmap2 (list layer)) (Some (s, @nil layer))).
    refine (fold_map_nat (@tmap2 (list layer)) _ ls _ (Some (s, []))).
    intros [sx lx] l0. unfold tmap2. cbn [fst snd]. rewrite make_layer_T.
    destruct (make_layer sx l0) as [[s'' ly]|]; reflexivity.
  Qed.

  (** the tag of a logged closure invocation is renamed; nothing else *)
  Definition otag (o : @obs F) : @obs F :=
    map (fun it : @item F =>
           match it with
           | (6, t :: d, v) => (6, f t :: d, v)
           | _ => it
           end) o.

  Lemma is_custom_T : forall s id, is_custom (tmap s) id = is_custom s id.
  Proof.
    intros s id. unfold is_custom. cbn [st_nodes tmap]. rewrite nth_error_map.
    destruct (nth_error (st_nodes s) id); reflexivity.
  Qed.

  Lemma o_log_T : forall s lg, o_log (tmap s) lg = otag (o_log s lg).
  Proof.
    intros s lg. unfold o_log, otag.
    rewrite (filter_ext (fun p => is_custom (tmap s) (fst p)) (fun p => is_custom s (fst p)))
      by (intros p; apply is_custom_T).
    rewrite map_map. apply map_ext_in. intros [id d] Hin. apply filter_In in Hin.
    destruct Hin as [_ Hc]. cbn [fst snd] in *. f_equal. f_equal. f_equal.
    unfold tag_of, is_custom in *. cbn [st_nodes tmap]. rewrite nth_error_map.
    destruct (nth_error (st_nodes s) id); [reflexivity|discriminate].
  Qed.

  Lemma o_params_T : forall s, o_params (tmap s) = o_params s.
  Proof.
    intros s. unfold o_params. change (model_params (tmap s)) with (model_params s).
    apply flat_map_ext. intros h. rewrite h_arr_T, grad_of_T. reflexivity.
  Qed.
End ProgNat.

Print Assumptions backward_nmap.
Print Assumptions apply_op_T.
Print Assumptions gd_update_T.
Print Assumptions model_forward_T.
Print Assumptions model_backward_T.
