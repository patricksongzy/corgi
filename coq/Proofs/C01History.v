(** C01 at every backward pass of every history, with no [supported] premise: the side
    conditions are on the instructions ([HistoryPre.instr_ok], [HistoryInv.seed_ok]). *)

From Coq Require Import List Arith Bool Reals.
From Corgi Require Import Lib.OptionMonad Lib.Sums Model.Scalar Model.RealScalar Model.Arr
     Model.Elementwise Model.Ops Model.Engine Model.Program
     Proofs.ArrFacts Proofs.Propagate Proofs.AdjointSpec Proofs.FlattenSpec Proofs.DualLift
     Proofs.RealDerivs Proofs.HistoryInv Proofs.FwdCode Proofs.CodeSupport2 Proofs.HistoryVC
     Proofs.C01Concrete Proofs.C01Full Proofs.HistoryPre Proofs.C01Real.
Import ListNotations.

Section C01History.
  Context {F : Type} (O : ScalarOps F) (R : is_cring O).
  Local Notation D2 := (dual_ops O).
  Local Notation E := (Program.E O).

  Hypothesis Hdiv : forall a b, fdiv O a b = fmul O a (fdiv O (f1 O) b).
  Hypothesis Hinv_mul : forall a b,
      fdiv O (f1 O) (fmul O a b) = fmul O (fdiv O (f1 O) a) (fdiv O (f1 O) b).
  Hypothesis Hpow2 : forall x, fpow O x (two O) = fmul O x x.
  Hypothesis Hsig_fst : forall x x', fst (sigmoid_fn D2 (x, x')) = sigmoid_fn O x.
  Hypothesis Hsig : forall x x',
      snd (sigmoid_fn D2 (x, x'))
      = fmul O (fmul O (sigmoid_fn O x) (fsub O (f1 O) (sigmoid_fn O x))) x'.

  Theorem all_supported : forall (p : list (@instr F)) (s : @state F),
      reachable_ok O p s ->
      store_good (st_nodes s) /\ value_consistent O (st_nodes s) /\ pre_ok (st_nodes s) /\
      (forall code d, code_ok2 O code d).
  Proof.
    intros p s H. destruct (run_good3 O p s H) as [[[Hg _] Hvc] Hpre].
    split; [exact Hg |]. split; [exact Hvc |]. split; [exact Hpre |].
    exact (all_code_ok2 O R Hsig_fst Hsig Hdiv Hinv_mul Hpow2).
  Qed.

  Theorem history_backward_exact_full :
    forall (p : list (@instr F)) (s : @state F) lt r keep seed s0 ndr g' log,
      reachable_ok O p s ->
      grads_empty (st_nodes s) -> leaf_tangents_ok (st_nodes s) lt ->
      nth_error (st_nodes s) r = Some ndr ->
      seed_of E (st_nodes s) r seed = Some s0 ->
      (forall sd, seed = Some sd -> wf sd /\ dims sd = p_dims (n_pay ndr)) ->
      run_backward E (st_nodes s) r keep seed = Some (g', log) ->
      dot O (vals s0) (vals (tan O (st_nodes s) lt r)) = leaf_pairing O (st_nodes s) g' lt r.
  Proof.
    intros p s lt r keep seed s0 ndr g' log Hre Hempty Hlt Hndr Hseed Hsd Hrun.
    destruct (all_supported p s Hre) as (Hg & Hvc & Hpre & _).
    eapply (backward_exact_full O R Hdiv Hinv_mul Hpow2 Hsig_fst Hsig); try eassumption.
    eapply nth_lt. exact Hndr.
  Qed.
End C01History.

(** the same at the real numbers: no scalar hypothesis *)
Theorem history_backward_exact_R :
  forall (p : list (@instr R)) (s : @state R) lt r keep seed s0 ndr g' log,
    reachable_ok R_ops p s ->
    grads_empty (st_nodes s) -> leaf_tangents_ok (st_nodes s) lt ->
    nth_error (st_nodes s) r = Some ndr ->
    seed_of (Program.E R_ops) (st_nodes s) r seed = Some s0 ->
    (forall sd, seed = Some sd -> wf sd /\ dims sd = p_dims (n_pay ndr)) ->
    run_backward (Program.E R_ops) (st_nodes s) r keep seed = Some (g', log) ->
    dot R_ops (vals s0) (vals (tan R_ops (st_nodes s) lt r))
    = leaf_pairing R_ops (st_nodes s) g' lt r.
Proof.
  exact (history_backward_exact_full R_ops R_is_cring R_div_mul_inv R_inv_mul R_pow_two
                                     R_sig_fst R_sig_snd).
Qed.

Print Assumptions all_supported.
Print Assumptions history_backward_exact_full.
Print Assumptions history_backward_exact_R.
