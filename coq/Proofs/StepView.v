(** The case analysis of [step] (Model/Program.v), stated once.  A successful step sets the
    current tag, does one of twelve things to the state and pushes one pool slot;
    instructions that act alike share a constructor of [step_case], told apart by
    [new_leaf], [reads] and [rebind].  Likewise a successful [apply_op] has one of the
    eleven shapes of [op_case]; the unary and the binary operators share one each. *)

From Coq Require Import List Arith Bool Lia PeanoNat.
From Corgi Require Import Lib.OptionMonad Model.Scalar Model.Arr Model.SlicedOp Model.Elementwise
     Model.Linalg Model.Image Model.Ops Model.Engine Model.Program Proofs.EngineBase.
Import ListNotations.

Section StepView.
  Context {F : Type} (O : ScalarOps F).

  Notation state := (@state F).
  Notation instr := (@instr F).
  Notation obs := (@obs F).

  Lemma var_lt : forall (s : state) i x, var s i = Some x -> i < length (st_pool s).
  Proof.
    intros s i x H. unfold var in H. revert H. apply obind_elim. intros o Ho _.
    apply nth_error_Some. rewrite Ho. discriminate.
  Qed.

  Lemma push_length : forall (s : state) x, length (st_pool (push s x)) = S (length (st_pool s)).
  Proof. intros s x. cbn [push st_pool with_pool]. rewrite app_length. cbn [length]. lia. Qed.

  Lemma var_push_old : forall (s : state) x j, j < length (st_pool s) -> var (push s x) j = var s j.
  Proof.
    intros s x j Hj. unfold var. cbn [push st_pool with_pool]. rewrite nth_error_app1 by exact Hj.
    reflexivity.
  Qed.

  Lemma var_push_new : forall (s : state) x, var (push s x) (length (st_pool s)) = x.
  Proof.
    intros s x. unfold var. cbn [push st_pool with_pool]. rewrite nth_error_app2 by lia.
    rewrite Nat.sub_diag. reflexivity.
  Qed.

  Lemma set_var_inv : forall (s : state) i x s1,
      set_var s i x = Some s1 ->
      i < length (st_pool s) /\ s1 = with_pool s (firstn i (st_pool s) ++ x :: skipn (S i) (st_pool s)).
  Proof.
    intros s i x s1 H. unfold set_var, set_nth in H.
    destruct (i <? length (st_pool s)) eqn:E; [|discriminate H]. apply Nat.ltb_lt in E.
    cbn [obind] in H. injection H as H. auto.
  Qed.

  Lemma set_var_nodes : forall (s : state) i x s1, set_var s i x = Some s1 -> st_nodes s1 = st_nodes s.
  Proof. intros s i x s1 H. apply set_var_inv in H. destruct H as [_ ->]. reflexivity. Qed.

  Lemma set_var_length : forall (s : state) i x s1,
      set_var s i x = Some s1 -> length (st_pool s1) = length (st_pool s).
  Proof.
    intros s i x s1 H. apply set_var_inv in H. destruct H as [Hi ->]. cbn [st_pool with_pool].
    apply set_nth_length. exact Hi.
  Qed.

  Lemma var_set_var : forall (s : state) i x s1 j,
      set_var s i x = Some s1 -> var s1 j = if j =? i then x else var s j.
  Proof.
    intros s i x s1 j H. apply set_var_inv in H. destruct H as [Hi ->]. unfold var.
    cbn [st_pool with_pool]. rewrite set_nth_spec by exact Hi. destruct (j =? i); reflexivity.
  Qed.

  Inductive unary_op : @opk F -> (arr F -> option (arr F)) -> (arr F -> bop_code F) -> Prop :=
  | u_neg : unary_op ONeg (a_neg O) (fun _ => BNeg)
  | u_scale : forall c, unary_op (OScale c) (a_scale O c) (fun _ => BScale c)
  | u_recip : unary_op ORecip (a_reciprocal O) (fun _ => BRecip)
  | u_powf : forall e, unary_op (OPowf e) (a_powf O e) (fun _ => BPowf e)
  | u_ln : unary_op OLn (a_ln O) (fun _ => BLn)
  | u_exp : unary_op OExp (a_exp O) (fun r => BExp (vals r))
  | u_relu : unary_op ORelu (a_relu O) (fun _ => BRelu)
  | u_sigmoid : unary_op OSigmoid (a_sigmoid O) (fun r => BSigmoid (vals r)).

  Inductive binary_op : @opk F -> (arr F -> arr F -> option (arr F)) -> bop_code F -> Prop :=
  | b_add : binary_op OAdd (a_add O) BAdd
  | b_mul : binary_op OMul (a_mul O) BMul
  | b_div : binary_op ODiv (a_div O) BDiv.

  (** [op_case s r k hs]: [apply_op s k hs] succeeded with [r], as one of eleven shapes *)
  Inductive op_case (s : state) (r : state * handle) : @opk F -> list handle -> Prop :=
  | oc_unary : forall k x fwd code,
      unary_op k fwd code -> unary s x fwd code = Some r -> op_case s r k [x]
  | oc_binary : forall k x y fwd code,
      binary_op k fwd code -> binary s x y fwd code = Some r ->
      op_case s r k [x; y]
  | oc_sub : forall x y, op_sub O s x y = Some r -> op_case s r OSub [x; y]
  | oc_sum : forall k x, op_sum O s k x = Some r -> op_case s r (OSum k) [x]
  | oc_reshape : forall d x, op_reshape s d x = Some r -> op_case s r (OReshape d) [x]
  | oc_matmul : forall ta tb x y,
      op_matmul O s ta tb x y None = Some r -> op_case s r (OMatmul ta tb) [x; y]
  | oc_matmul3 : forall ta tb x y z,
      op_matmul O s ta tb x y (Some z) = Some r -> op_case s r (OMatmul ta tb) [x; y; z]
  | oc_conv : forall sr sc x y, op_conv O s sr sc x y = Some r -> op_case s r (OConv sr sc) [x; y]
  | oc_softmax : forall x, op_softmax O s x = Some r -> op_case s r OSoftmax [x]
  | oc_axpy : forall alpha x y, op_axpy O s alpha x y = Some r -> op_case s r (OAxpy alpha) [x; y]
  | oc_custom : forall c hs, op_custom O s c hs = Some r -> op_case s r (OCustom c) hs.

  Theorem apply_op_cases : forall (s : state) k hs r, apply_op O s k hs = Some r -> op_case s r k hs.
  Proof.
    intros s k hs r H.
    destruct k; try (destruct hs; exact (oc_custom s r _ _ H));
      destruct hs as [|x [|y [|z [|w l]]]]; cbn [apply_op] in H; try discriminate H.
    - exact (oc_binary s r OAdd x y _ _ b_add H).
    - exact (oc_sub s r x y H).
    - exact (oc_binary s r OMul x y _ _ b_mul H).
    - exact (oc_binary s r ODiv x y _ _ b_div H).
    - exact (oc_unary s r ONeg x _ _ u_neg H).
    - exact (oc_unary s r (OScale c) x _ _ (u_scale c) H).
    - exact (oc_unary s r ORecip x _ _ u_recip H).
    - exact (oc_unary s r (OPowf e) x _ _ (u_powf e) H).
    - exact (oc_unary s r OLn x _ _ u_ln H).
    - exact (oc_unary s r OExp x _ _ u_exp H).
    - exact (oc_sum s r k x H).
    - exact (oc_reshape s r d x H).
    - exact (oc_matmul s r ta tb x y H).
    - exact (oc_matmul3 s r ta tb x y z H).
    - exact (oc_conv s r sr sc x y H).
    - exact (oc_unary s r ORelu x _ _ u_relu H).
    - exact (oc_unary s r OSigmoid x _ _ u_sigmoid H).
    - exact (oc_softmax s r x H).
    - exact (oc_axpy s r alpha x y H).
  Qed.

  (** a fresh childless node holding the array, pushed with both flags equal to the boolean *)
  Definition new_leaf (s : state) (i : instr) : option (arr F * bool * obs) :=
    match i with
    | ILeaf d v t => a <- mk d v ;; Some (a, t, o_arr a t)
    | IZeros d => a <- zeros O d ;; Some (a, false, o_arr a false)
    | IFromFlat v => a <- from_flat v ;; Some (a, false, o_arr a false)
    | IFromArrays hs =>
      args <- mapM (fun j => h <- var s j ;; h_arr s h) hs ;;
      a <- from_arrays args ;; Some (a, false, o_arr a false)
    | IFetchGrad h => x <- var s h ;; g <- grad_of s x ;; Some (g, false, o_grad (Some g))
    | _ => None
    end.

  (** the state is only observed; an empty slot is pushed *)
  Definition reads (s : state) (i : instr) : option obs :=
    match i with
    | IGrad h => x <- var s h ;; Some (o_grad (grad_of s x))
    | IFetchGrad h =>
      x <- var s h ;; match grad_of s x with None => Some (o_grad None) | Some _ => None end
    | IIndex h idx => x <- var s h ;; a <- h_arr s x ;; v <- index_multi a idx ;; Some (o_val v)
    | IIndexFlat h k => x <- var s h ;; a <- h_arr s x ;; v <- index_flat a k ;; Some (o_val v)
    | IEq h1 h2 =>
      x <- var s h1 ;; y <- var s h2 ;; a <- h_arr s x ;; b <- h_arr s y ;;
      Some (o_bool (arr_eqb O a b))
    | IObs h =>
      x <- var s h ;; a <- h_arr s x ;; Some (o_arr a (e_tracked x) ++ o_grad (grad_of s x))
    | ISumAll h => x <- var s h ;; a <- h_arr s x ;; Some (o_val (a_sum_all O a))
    | IParams => Some (o_params s)
    | _ => None
    end.

  (** one pool slot is overwritten: the slot, its new content, the observation *)
  Definition rebind (s : state) (i : instr) : option (nat * option handle * obs) :=
    match i with
    | IDrop h => _ <- var s h ;; Some (h, None, o_unit)
    | ITracked h => x <- var s h ;; Some (h, Some (mkh (e_node x) true true), o_unit)
    | IUntracked h => x <- var s h ;; Some (h, Some (mkh (e_node x) false false), o_unit)
    | IStart h => x <- var s h ;; Some (h, Some (mkh (e_node x) true (e_keep x)), o_bool (e_tracked x))
    | IStop h => x <- var s h ;; Some (h, Some (mkh (e_node x) false (e_keep x)), o_bool (e_tracked x))
    | ITakeVec h =>
      x <- var s h ;; a <- h_arr s x ;;
      check (strong_count s (buf_of (st_nodes s) (e_node x)) =? 1) ;;
      Some (h, None, [(7, [], vals a)])
    | _ => None
    end.

  Lemma rebind_inv : forall (s : state) i h v o,
      rebind s i = Some (h, v, o) ->
      exists x, var s h = Some x /\ forall y, v = Some y -> e_node y = e_node x.
  Proof.
    intros s i h v o H.
    destruct i; try discriminate H; cbn [rebind] in H;
      apply obind_some in H; destruct H as (x & Hx & H); exists x.
    - injection H as <- <- _. split; [exact Hx | discriminate].
    - injection H as <- <- _. split; [exact Hx |]. intros y Hy. injection Hy as <-. reflexivity.
    - injection H as <- <- _. split; [exact Hx |]. intros y Hy. injection Hy as <-. reflexivity.
    - injection H as <- <- _. split; [exact Hx |]. intros y Hy. injection Hy as <-. reflexivity.
    - injection H as <- <- _. split; [exact Hx |]. intros y Hy. injection Hy as <-. reflexivity.
    - revert H. apply obind_elim. intros a _ H.
      revert H. apply obind_elim. intros _ _ H.
      injection H as <- <- _. split; [exact Hx | discriminate].
  Qed.

  Definition seed_arr (seed : option (list nat * list F)) : option (option (arr F)) :=
    match seed with
    | Some (d, v) => a <- mk d v ;; Some (Some a)
    | None => Some None
    end.

  Definition set_vars (s : state) (ps : list (nat * handle)) : option state :=
    fold_left (fun (acc : option state) (p : nat * handle) =>
                 st <- acc ;; set_var st (fst p) (Some (snd p))) ps (Some s).

  Definition make_layers (s : state) (ls : list (@layer_spec F)) : option (state * list layer) :=
    fold_left (fun (acc : option (state * list layer)) (l : layer_spec) =>
                 st <- acc ;;
                 let '(s', out) := st in
                 r <- make_layer s' l ;;
                 let '(s'', ly) := r in Some (s'', out ++ [ly]))
              ls (Some (s, [])).

  Lemma set_vars_nodes : forall ps (s s2 : state), set_vars s ps = Some s2 -> st_nodes s2 = st_nodes s.
  Proof.
    unfold set_vars. induction ps as [|p ps IH]; intros s s2 H; cbn [fold_left obind] in H.
    - injection H as <-. reflexivity.
    - destruct (set_var s (fst p) (Some (snd p))) as [s1|] eqn:E.
      + rewrite (IH s1 s2 H). exact (set_var_nodes _ _ _ _ E).
      + rewrite fold_left_none in H by reflexivity. discriminate H.
  Qed.

  (** [step_case s i s1 slot o]: from the tagged state [s], instruction [i] leads to [s1],
      pushes [slot] and shows [o] *)
  Inductive step_case (s : state) : instr -> state -> option handle -> obs -> Prop :=
  | sc_leaf : forall i a t o,
      new_leaf s i = Some (a, t, o) ->
      step_case s i (fst (alloc s a [] None None)) (Some (mkh (length (st_nodes s)) t t)) o
  | sc_read : forall i o, reads s i = Some o -> step_case s i s None o
  | sc_clone : forall h x, var s h = Some x -> step_case s (IClone h) s (Some x) o_unit
  | sc_rebind : forall i h v o s1,
      rebind s i = Some (h, v, o) -> set_var s h v = Some s1 -> step_case s i s1 None o
  | sc_op : forall k args hs s1 h a,
      mapM (var s) args = Some hs -> apply_op O s k hs = Some (s1, h) -> h_arr s1 h = Some a ->
      step_case s (IOp k args) s1 (Some h) (o_arr a (e_tracked h))
  | sc_backward : forall h seed x sd r,
      var s h = Some x -> seed_arr seed = Some sd ->
      run_backward (E O) (st_nodes s) (e_node x) (e_keep x) sd = Some r ->
      step_case s (IBackward h seed) (with_nodes s (fst r)) None
                (o_log (with_nodes s (fst r)) (snd r))
  | sc_clear : forall h x s1,
      var s h = Some x -> clear_grad s x = Some s1 ->
      step_case s (IClearGrad h) s1 None (o_grad (grad_of s x))
  | sc_update : forall lr hs params s1 out s2,
      mapM (var s) hs = Some params -> gd_update O s lr params = Some (s1, out) ->
      set_vars s1 (combine hs out) = Some s2 ->
      step_case s (IUpdate lr hs) s2 None o_unit
  | sc_model : forall ls c lr s1 layers,
      make_layers s ls = Some (s1, layers) ->
      step_case s (IModel ls c lr) (with_config (with_layers s1 layers) c lr) None o_unit
  | sc_forward : forall h x s1 out a,
      var s h = Some x -> model_forward O s x = Some (s1, out) -> h_arr s1 out = Some a ->
      step_case s (IForward h) s1 (Some out) (o_arr a (e_tracked out))
  | sc_mbackward : forall h x s1 loss,
      var s h = Some x -> model_backward O s x = Some (s1, loss) ->
      step_case s (IModelBackward h) s1 None (o_val loss)
  | sc_mupdate : forall s1,
      model_update O s = Some s1 -> step_case s IModelUpdate s1 None o_unit.

  Theorem step_cases : forall (s0 : state) i s' o,
      step O s0 i = Some (s', o) ->
      exists s1 slot, step_case (with_tag s0 (length (st_pool s0))) i s1 slot o /\ s' = push s1 slot.
  Proof.
    intros s0 i s' o H. unfold step in H. cbv zeta in H.
    set (s := with_tag s0 (length (st_pool s0))) in *.
    assert (R : forall x h v o1 s1, var s h = Some x -> set_var s h v = Some s1 ->
                  (var s h = Some x -> rebind s i = Some (h, v, o1)) ->
                  exists s2 slot, step_case s i s2 slot o1 /\ push s1 None = push s2 slot).
    { intros x h v o1 s1 Hx Hs1 Hr. exists s1, None. split; [|reflexivity].
      exact (sc_rebind s i h v o1 s1 (Hr Hx) Hs1). }
    assert (L : forall a t o1, new_leaf s i = Some (a, t, o1) ->
                  exists s2 slot, step_case s i s2 slot o1 /\
                    push (fst (alloc s a [] None None)) (Some (mkh (length (st_nodes s)) t t)) = push s2 slot).
    { intros a t o1 Hl. eexists. eexists. split; [exact (sc_leaf s i a t o1 Hl) | reflexivity]. }
    assert (Q : forall o1, reads s i = Some o1 ->
                  exists s2 slot, step_case s i s2 slot o1 /\ push s None = push s2 slot).
    { intros o1 Hq. exists s, None. split; [exact (sc_read s i o1 Hq) | reflexivity]. }
    destruct i.
    - revert H. apply obind_elim. intros a Ha H. injection H as <- <-.
      apply L. cbn [new_leaf]. rewrite Ha. reflexivity.
    - revert H. apply obind_elim. intros a Ha H. injection H as <- <-.
      apply L. cbn [new_leaf]. rewrite Ha. reflexivity.
    - revert H. apply obind_elim. intros a Ha H. injection H as <- <-.
      apply L. cbn [new_leaf]. rewrite Ha. reflexivity.
    - revert H. apply obind_elim. intros args Hargs H.
      revert H. apply obind_elim. intros a Ha H. injection H as <- <-.
      apply L. cbn [new_leaf]. rewrite Hargs. cbn [obind]. rewrite Ha. reflexivity.
    - revert H. apply obind_elim. intros hs Hhs H.
      revert H. apply obind_elim. intros [s1 h] Hop H.
      revert H. apply obind_elim. intros a Ha H. injection H as <- <-.
      eexists. eexists. split; [exact (sc_op s k args hs s1 h a Hhs Hop Ha) | reflexivity].
    - revert H. apply obind_elim. intros x Hx H. injection H as <- <-.
      eexists. eexists. split; [exact (sc_clone s h x Hx) | reflexivity].
    - revert H. apply obind_elim. intros x Hx H.
      revert H. apply obind_elim. intros s1 Hs1 H. injection H as <- <-.
      apply (R x h _ _ s1 Hx Hs1). intros E. cbn [rebind]. rewrite E. reflexivity.
    - revert H. apply obind_elim. intros x Hx H.
      revert H. apply obind_elim. intros s1 Hs1 H. injection H as <- <-.
      apply (R x h _ _ s1 Hx Hs1). intros E. cbn [rebind]. rewrite E. reflexivity.
    - revert H. apply obind_elim. intros x Hx H.
      revert H. apply obind_elim. intros s1 Hs1 H. injection H as <- <-.
      apply (R x h _ _ s1 Hx Hs1). intros E. cbn [rebind]. rewrite E. reflexivity.
    - revert H. apply obind_elim. intros x Hx H.
      revert H. apply obind_elim. intros s1 Hs1 H. injection H as <- <-.
      apply (R x h _ _ s1 Hx Hs1). intros E. cbn [rebind]. rewrite E. reflexivity.
    - revert H. apply obind_elim. intros x Hx H.
      revert H. apply obind_elim. intros s1 Hs1 H. injection H as <- <-.
      apply (R x h _ _ s1 Hx Hs1). intros E. cbn [rebind]. rewrite E. reflexivity.
    - revert H. apply obind_elim. intros x Hx H.
      revert H. apply obind_elim. intros sd Hsd H.
      revert H. apply obind_elim. intros r Hr H. injection H as <- <-.
      eexists. eexists. split; [exact (sc_backward s h seed x sd r Hx Hsd Hr) | reflexivity].
    - revert H. apply obind_elim. intros x Hx H. injection H as <- <-.
      apply Q. cbn [reads]. rewrite Hx. reflexivity.
    - revert H. apply obind_elim. intros x Hx H.
      revert H. apply obind_elim. intros s1 Hs1 H. injection H as <- <-.
      eexists. eexists. split; [exact (sc_clear s h x s1 Hx Hs1) | reflexivity].
    - revert H. apply obind_elim. intros x Hx H.
      destruct (grad_of s x) as [g|] eqn:Hg; injection H as <- <-.
      + apply L. cbn [new_leaf]. rewrite Hx. cbn [obind]. rewrite Hg. reflexivity.
      + apply Q. cbn [reads]. rewrite Hx. cbn [obind]. rewrite Hg. reflexivity.
    - revert H. apply obind_elim. intros x Hx H.
      revert H. apply obind_elim. intros a Ha H.
      revert H. apply obind_elim. intros u Hu H.
      revert H. apply obind_elim. intros s1 Hs1 H. injection H as <- <-.
      apply (R x h _ _ s1 Hx Hs1). intros E. cbn [rebind]. rewrite E. cbn [obind]. rewrite Ha.
      cbn [obind]. rewrite Hu. reflexivity.
    - revert H. apply obind_elim. intros x Hx H.
      revert H. apply obind_elim. intros a Ha H.
      revert H. apply obind_elim. intros v Hv H. injection H as <- <-.
      apply Q. cbn [reads]. rewrite Hx. cbn [obind]. rewrite Ha. cbn [obind]. rewrite Hv. reflexivity.
    - revert H. apply obind_elim. intros x Hx H.
      revert H. apply obind_elim. intros a Ha H.
      revert H. apply obind_elim. intros v Hv H. injection H as <- <-.
      apply Q. cbn [reads]. rewrite Hx. cbn [obind]. rewrite Ha. cbn [obind]. rewrite Hv. reflexivity.
    - revert H. apply obind_elim. intros x Hx H.
      revert H. apply obind_elim. intros y Hy H.
      revert H. apply obind_elim. intros a Ha H.
      revert H. apply obind_elim. intros b Hb H. injection H as <- <-.
      apply Q. cbn [reads]. rewrite Hx, Hy. cbn [obind]. rewrite Ha, Hb. reflexivity.
    - revert H. apply obind_elim. intros x Hx H.
      revert H. apply obind_elim. intros a Ha H. injection H as <- <-.
      apply Q. cbn [reads]. rewrite Hx. cbn [obind]. rewrite Ha. reflexivity.
    - revert H. apply obind_elim. intros x Hx H.
      revert H. apply obind_elim. intros a Ha H. injection H as <- <-.
      apply Q. cbn [reads]. rewrite Hx. cbn [obind]. rewrite Ha. reflexivity.
    - revert H. apply obind_elim. intros params Hp H.
      revert H. apply obind_elim. intros [s1 out] Hg H.
      revert H. apply obind_elim. intros s2 Hs2 H. injection H as <- <-.
      eexists. eexists. split; [exact (sc_update s lr hs params s1 out s2 Hp Hg Hs2) | reflexivity].
    - revert H. apply obind_elim. intros [s1 layers] Hm H. injection H as <- <-.
      eexists. eexists. split; [exact (sc_model s ls c lr s1 layers Hm) | reflexivity].
    - revert H. apply obind_elim. intros x Hx H.
      revert H. apply obind_elim. intros [s1 out] Hm H.
      revert H. apply obind_elim. intros a Ha H. injection H as <- <-.
      eexists. eexists. split; [exact (sc_forward s h x s1 out a Hx Hm Ha) | reflexivity].
    - revert H. apply obind_elim. intros x Hx H.
      revert H. apply obind_elim. intros [s1 loss] Hm H. injection H as <- <-.
      eexists. eexists. split; [exact (sc_mbackward s h x s1 loss Hx Hm) | reflexivity].
    - revert H. apply obind_elim. intros s1 Hm H. injection H as <- <-.
      eexists. eexists. split; [exact (sc_mupdate s s1 Hm) | reflexivity].
    - injection H as <- <-. apply Q. reflexivity.
  Qed.

  Theorem step_case_step : forall (s0 : state) i s1 slot o,
      step_case (with_tag s0 (length (st_pool s0))) i s1 slot o ->
      step O s0 i = Some (push s1 slot, o).
  Proof.
    intros s0 i s1 slot o H. unfold step. cbv zeta.
    set (s := with_tag s0 (length (st_pool s0))) in *.
    destruct H as [i a t o Hl | i o Hq | h x Hx | i h v o s1 Hr Hs1 | k args hs s1 h a Hhs Hop Ha
                   | h seed x sd r Hx Hsd Hr | h x s1 Hx Hs1 | lr hs params s1 out s2 Hp Hg Hs2
                   | ls c lr s1 layers Hm | h x s1 out a Hx Hm Ha | h x s1 loss Hx Hm | s1 Hm].
    - destruct i; try discriminate Hl; cbn [new_leaf] in Hl;
        apply obind_some in Hl; destruct Hl as (y & Hy & Hl).
      + injection Hl as <- <- <-. rewrite Hy. reflexivity.
      + injection Hl as <- <- <-. rewrite Hy. reflexivity.
      + injection Hl as <- <- <-. rewrite Hy. reflexivity.
      + revert Hl. apply obind_elim. intros a' Ha Hl. injection Hl as <- <- <-.
        rewrite Hy. cbn [obind]. rewrite Ha. reflexivity.
      + revert Hl. apply obind_elim. intros g Hg Hl. injection Hl as <- <- <-.
        rewrite Hy. cbn [obind]. rewrite Hg. reflexivity.
    - destruct i; try discriminate Hq; cbn [reads] in Hq.
      + revert Hq. apply obind_elim. intros x Hx Hq. injection Hq as <-.
        rewrite Hx. reflexivity.
      + revert Hq. apply obind_elim. intros x Hx Hq. rewrite Hx. cbn [obind].
        destruct (grad_of s x); [discriminate Hq | injection Hq as <-; reflexivity].
      + revert Hq. apply obind_elim. intros x Hx Hq.
        revert Hq. apply obind_elim. intros a Ha Hq.
        revert Hq. apply obind_elim. intros v Hv Hq. injection Hq as <-.
        rewrite Hx. cbn [obind]. rewrite Ha. cbn [obind]. rewrite Hv. reflexivity.
      + revert Hq. apply obind_elim. intros x Hx Hq.
        revert Hq. apply obind_elim. intros a Ha Hq.
        revert Hq. apply obind_elim. intros v Hv Hq. injection Hq as <-.
        rewrite Hx. cbn [obind]. rewrite Ha. cbn [obind]. rewrite Hv. reflexivity.
      + revert Hq. apply obind_elim. intros x Hx Hq.
        revert Hq. apply obind_elim. intros y Hy Hq.
        revert Hq. apply obind_elim. intros a Ha Hq.
        revert Hq. apply obind_elim. intros b Hb Hq. injection Hq as <-.
        rewrite Hx, Hy. cbn [obind]. rewrite Ha, Hb. reflexivity.
      + revert Hq. apply obind_elim. intros x Hx Hq.
        revert Hq. apply obind_elim. intros a Ha Hq. injection Hq as <-.
        rewrite Hx. cbn [obind]. rewrite Ha. reflexivity.
      + revert Hq. apply obind_elim. intros x Hx Hq.
        revert Hq. apply obind_elim. intros a Ha Hq. injection Hq as <-.
        rewrite Hx. cbn [obind]. rewrite Ha. reflexivity.
      + injection Hq as <-. reflexivity.
    - rewrite Hx. reflexivity.
    - destruct i; try discriminate Hr; cbn [rebind] in Hr;
        apply obind_some in Hr; destruct Hr as (x & Hx & Hr).
      + injection Hr as <- <- <-. rewrite Hx. cbn [obind]. rewrite Hs1. reflexivity.
      + injection Hr as <- <- <-. rewrite Hx. cbn [obind]. rewrite Hs1. reflexivity.
      + injection Hr as <- <- <-. rewrite Hx. cbn [obind]. rewrite Hs1. reflexivity.
      + injection Hr as <- <- <-. rewrite Hx. cbn [obind]. rewrite Hs1. reflexivity.
      + injection Hr as <- <- <-. rewrite Hx. cbn [obind]. rewrite Hs1. reflexivity.
      + revert Hr. apply obind_elim. intros a Ha Hr.
        revert Hr. apply obind_elim. intros u Hu Hr. injection Hr as <- <- <-.
        rewrite Hx. cbn [obind]. rewrite Ha. cbn [obind]. rewrite Hu. cbn [obind]. rewrite Hs1.
        reflexivity.
    - rewrite Hhs. cbn [obind]. rewrite Hop. cbn [obind]. rewrite Ha. reflexivity.
    - rewrite Hx. cbn [obind]. fold (seed_arr seed). rewrite Hsd. cbn [obind]. rewrite Hr. reflexivity.
    - rewrite Hx. cbn [obind]. rewrite Hs1. reflexivity.
    - rewrite Hp. cbn [obind]. rewrite Hg. cbn [obind]. fold (set_vars s1 (combine hs out)).
      rewrite Hs2. reflexivity.
    - fold (make_layers s ls). rewrite Hm. reflexivity.
    - rewrite Hx. cbn [obind]. rewrite Hm. cbn [obind]. rewrite Ha. reflexivity.
    - rewrite Hx. cbn [obind]. rewrite Hm. reflexivity.
    - rewrite Hm. reflexivity.
  Qed.
End StepView.
