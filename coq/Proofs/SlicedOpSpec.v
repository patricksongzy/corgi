(** General facts about [sliced_loop] / [sliced_op] (Model/SlicedOp.v):
    - the carry counter enumerates [unrank lead i]              ([sliced_loop_unrank]);
    - when the output's leading dimensions are the loop's leading dimensions, iteration
      [i] rewrites exactly block [i] of the output buffer      ([sliced_loop_blocks]);
    - the slice of an operand is the row-major block addressed by the broadcast-clamped,
      right-aligned part of the index vector                   ([operand_slice_spec]);
    - [sliced_op] itself is the loop followed by [mk]           ([sliced_op_unfold]);
    - when the closure's result is known for every iteration, the result is the
      concatenation of these blocks                            ([sliced_op_tab]). *)

From Coq Require Import List Arith Bool Lia PeanoNat.
From Corgi Require Export Lib.ListFacts.
From Corgi Require Import Lib.OptionMonad Lib.IdxDefs Lib.Idx Model.Scalar Model.Arr
     Model.SlicedOp Proofs.ArrFacts Proofs.SpecDefs.
Import ListNotations.

Section ListFacts.
  Context {A : Type}.

  Lemma splice_length : forall off (new l : list A),
      off + length new <= length l -> length (splice off new l) = length l.
  Proof.
    intros off new l H. unfold splice.
    rewrite !app_length, firstn_length, skipn_length. lia.
  Qed.

  Lemma nth_error_splice_before : forall off (new l : list A) i,
      off + length new <= length l -> i < off ->
      nth_error (splice off new l) i = nth_error l i.
  Proof.
    intros off new l i H Hi. unfold splice.
    rewrite nth_error_app1 by (rewrite firstn_length; lia).
    apply nth_error_firstn_lt. exact Hi.
  Qed.

  Lemma nth_error_splice_in : forall off (new l : list A) i,
      off + length new <= length l -> off <= i < off + length new ->
      nth_error (splice off new l) i = nth_error new (i - off).
  Proof.
    intros off new l i H Hi. unfold splice.
    assert (Hf : length (firstn off l) = off) by (rewrite firstn_length; lia).
    rewrite nth_error_app2 by lia. rewrite Hf.
    apply nth_error_app1. lia.
  Qed.

  Lemma nth_error_splice_after : forall off (new l : list A) i,
      off + length new <= length l -> off + length new <= i ->
      nth_error (splice off new l) i = nth_error l i.
  Proof.
    intros off new l i H Hi. unfold splice.
    assert (Hf : length (firstn off l) = off) by (rewrite firstn_length; lia).
    rewrite nth_error_app2 by lia. rewrite Hf.
    rewrite nth_error_app2 by lia.
    rewrite nth_error_skipn_add. f_equal. lia.
  Qed.

  Definition block (g j : nat) (l : list A) : list A := firstn g (skipn (g * j) l).

  Lemma nth_error_block : forall g j (l : list A) x,
      x < g -> nth_error (block g j l) x = nth_error l (g * j + x).
  Proof.
    intros g j l x Hx. unfold block.
    rewrite nth_error_firstn_lt by exact Hx. apply nth_error_skipn_add.
  Qed.

  Lemma nth_error_block_ge : forall g j (l : list A) x,
      g <= x -> nth_error (block g j l) x = None.
  Proof. intros. unfold block. apply nth_error_firstn_ge. assumption. Qed.

  Lemma block_length : forall g j N (l : list A),
      length l = N * g -> j < N -> length (block g j l) = g.
  Proof.
    intros g j N l Hl Hj. unfold block. rewrite firstn_length, skipn_length. nia.
  Qed.

  Lemma slice_block : forall g j N (l : list A),
      length l = N * g -> j < N -> slice (g * j) g l = Some (block g j l).
  Proof.
    intros g j N l Hl Hj. unfold slice.
    assert (E : (g * j + g <=? length l) = true) by (apply Nat.leb_le; nia).
    rewrite E. reflexivity.
  Qed.

  Lemma slice_block_none : forall g j N (l : list A),
      length l = N * g -> 1 <= g -> N <= j -> slice (g * j) g l = None.
  Proof.
    intros g j N l Hl Hg Hj. unfold slice.
    assert (E : (g * j + g <=? length l) = false) by (apply Nat.leb_gt; nia).
    rewrite E. reflexivity.
  Qed.

  Lemma block_splice_same : forall g j N (new l : list A),
      length l = N * g -> j < N -> length new = g ->
      block g j (splice (g * j) new l) = new.
  Proof.
    intros g j N new l Hl Hj Hn. apply nth_error_ext. intros x.
    destruct (Nat.lt_ge_cases x g) as [Hx|Hx].
    - rewrite nth_error_block by exact Hx.
      rewrite nth_error_splice_in by nia. f_equal. lia.
    - rewrite nth_error_block_ge by exact Hx. symmetry. apply nth_error_None. lia.
  Qed.

  Lemma block_splice_other : forall g j j' N (new l : list A),
      length l = N * g -> j < N -> length new = g -> j' <> j ->
      block g j' (splice (g * j) new l) = block g j' l.
  Proof.
    intros g j j' N new l Hl Hj Hn Hne. apply nth_error_ext. intros x.
    destruct (Nat.lt_ge_cases x g) as [Hx|Hx].
    - rewrite !nth_error_block by exact Hx.
      destruct (Nat.lt_ge_cases j' j) as [Hlt|Hge].
      + apply nth_error_splice_before; nia.
      + apply nth_error_splice_after; nia.
    - rewrite !nth_error_block_ge by exact Hx. reflexivity.
  Qed.

  Lemma block_repeat : forall g j N (z : A),
      j < N -> block g j (repeat z (N * g)) = repeat z g.
  Proof.
    intros g j N z Hj. apply nth_error_ext. intros x.
    destruct (Nat.lt_ge_cases x g) as [Hx|Hx].
    - rewrite nth_error_block by exact Hx.
      rewrite !nth_error_repeat; [reflexivity|exact Hx|nia].
    - rewrite nth_error_block_ge by exact Hx. symmetry. apply nth_error_None.
      rewrite repeat_length. exact Hx.
  Qed.

  Lemma blocks_ext : forall g N (l1 l2 : list A),
      length l1 = N * g -> length l2 = N * g ->
      (forall j, j < N -> block g j l1 = block g j l2) -> l1 = l2.
  Proof.
    intros g N l1 l2 H1 H2 H. apply nth_error_ext. intros i.
    destruct (Nat.lt_ge_cases i (N * g)) as [Hi|Hi].
    - assert (Hg : 1 <= g) by nia.
      assert (Hj : i / g < N) by (apply Nat.div_lt_upper_bound; lia).
      pose proof (Nat.div_mod i g ltac:(lia)) as Hdm.
      pose proof (Nat.mod_upper_bound i g ltac:(lia)) as Hm.
      rewrite Hdm.
      rewrite <- !nth_error_block by exact Hm. rewrite (H _ Hj). reflexivity.
    - transitivity (@None A); [|symmetry]; apply nth_error_None; lia.
  Qed.

  Lemma block_whole : forall (l : list A), block (length l) 0 l = l.
  Proof.
    intros l. unfold block. rewrite Nat.mul_0_r. cbn [skipn]. apply firstn_all.
  Qed.

  Lemma nth_block : forall g j (l : list A) x d,
      x < g -> nth x (block g j l) d = nth (g * j + x) l d.
  Proof. intros. rewrite !nth_nth_error, nth_error_block by assumption. reflexivity. Qed.

  Lemma concat_tab_length : forall (h : nat -> list A) g N s,
      (forall t, s <= t < s + N -> length (h t) = g) ->
      length (concat (map h (seq s N))) = N * g.
  Proof.
    intros h g N. induction N as [|N IH]; intros s H; [reflexivity|].
    cbn [seq map concat]. rewrite app_length, (H s) by lia.
    rewrite (IH (S s)); [reflexivity|]. intros t Ht. apply H. lia.
  Qed.

  Lemma block_concat_tab : forall (h : nat -> list A) g N s t,
      (forall t, s <= t < s + N -> length (h t) = g) -> t < N ->
      block g t (concat (map h (seq s N))) = h (s + t).
  Proof.
    intros h g N. induction N as [|N IH]; intros s t H Ht; [lia|].
    cbn [seq map concat]. unfold block. rewrite <- (H s) by lia. destruct t as [|t].
    - rewrite Nat.mul_0_r, Nat.add_0_r. apply firstn_app_len.
    - rewrite Nat.mul_succ_r, Nat.add_comm, skipn_app_len_add, (H s) by lia.
      rewrite <- Nat.add_succ_comm. apply IH; [|lia]. intros t' Ht'. apply H. lia.
  Qed.
End ListFacts.

Lemma guard_eqb_some : forall n m, guard (n =? m) = Some tt <-> n = m.
Proof. intros n m. rewrite guard_some_iff. apply Nat.eqb_eq. Qed.

Section Iter.
  Context {S : Type}.

  Fixpoint iterM (step : nat -> S -> option S) (l : list nat) (s : S) : option S :=
    match l with
    | [] => Some s
    | i :: l' => s' <- step i s ;; iterM step l' s'
    end.

  Lemma fold_obind_none : forall (step : nat -> S -> option S) l,
      fold_left (fun acc i => obind acc (step i)) l None = None.
  Proof. intros step l. induction l as [|i l IH]; simpl; [reflexivity|exact IH]. Qed.

  Lemma iterM_fold_left : forall (step : nat -> S -> option S) l s,
      iterM step l s = fold_left (fun acc i => obind acc (step i)) l (Some s).
  Proof.
    intros step l. induction l as [|i l IH]; intros s; simpl; [reflexivity|].
    destruct (step i s) as [s'|]; simpl; [apply IH|].
    symmetry. apply fold_obind_none.
  Qed.

  Lemma iterM_app : forall (step : nat -> S -> option S) l1 l2 s,
      iterM step (l1 ++ l2) s = (s' <- iterM step l1 s ;; iterM step l2 s').
  Proof.
    intros step l1. induction l1 as [|i l1 IH]; intros l2 s; simpl; [reflexivity|].
    destruct (step i s) as [s'|]; simpl; [apply IH|reflexivity].
  Qed.

  Lemma iterM_ext : forall (step1 step2 : nat -> S -> option S) l s,
      (forall i s', In i l -> step1 i s' = step2 i s') ->
      iterM step1 l s = iterM step2 l s.
  Proof.
    intros step1 step2 l. induction l as [|i l IH]; intros s H; simpl; [reflexivity|].
    rewrite (H i s) by (left; reflexivity).
    destruct (step2 i s) as [s'|]; simpl; [|reflexivity].
    apply IH. intros j s'' Hj. apply H. right. exact Hj.
  Qed.
End Iter.

Section BlockLoop.
  Context {A : Type}.
  Variables (g N : nat).
  (** [h j cur]: the new contents of block [j], given its current contents *)
  Variable h : nat -> list A -> option (list A).

  Definition bstep (j : nat) (out : list A) : option (list A) :=
    cur <- slice (g * j) g out ;;
    new <- h j cur ;;
    check (length new =? g) ;;
    Some (splice (g * j) new out).

  Lemma bstep_some : forall j out out',
      length out = N * g -> j < N -> bstep j out = Some out' ->
      h j (block g j out) = Some (block g j out') /\
      length out' = N * g /\
      (forall j', j' <> j -> block g j' out' = block g j' out).
  Proof.
    intros j out out' Hl Hj H. unfold bstep in H.
    rewrite (slice_block g j N out Hl Hj) in H. cbn [obind] in H.
    revert H. apply obind_elim. intros new Hnew H.
    revert H. apply obind_elim. intros [] Hg H.
    apply guard_eqb_some in Hg. inversion H; subst out'. clear H.
    split; [|split].
    - rewrite (block_splice_same g j N new out Hl Hj Hg). exact Hnew.
    - rewrite splice_length by nia. exact Hl.
    - intros j' Hne. apply (block_splice_other g j j' N new out Hl Hj Hg Hne).
  Qed.

  Lemma bstep_complete : forall j out new,
      length out = N * g -> j < N ->
      h j (block g j out) = Some new -> length new = g ->
      bstep j out = Some (splice (g * j) new out).
  Proof.
    intros j out new Hl Hj Hnew Hg. unfold bstep.
    rewrite (slice_block g j N out Hl Hj). cbn [obind]. rewrite Hnew. cbn [obind].
    apply Nat.eqb_eq in Hg. rewrite Hg. reflexivity.
  Qed.

  Lemma iter_bstep_some : forall n i0 out0 out,
      length out0 = N * g -> i0 + n <= N ->
      iterM bstep (seq i0 n) out0 = Some out ->
      length out = N * g /\
      (forall j, j < i0 \/ i0 + n <= j -> block g j out = block g j out0) /\
      (forall j, i0 <= j < i0 + n -> h j (block g j out0) = Some (block g j out)).
  Proof.
    induction n as [|n IH]; intros i0 out0 out Hl Hn H.
    - simpl in H. inversion H; subst out. split; [exact Hl|]. split; [reflexivity|]. intros j Hj. lia.
    - cbn [seq iterM] in H. revert H. apply obind_elim. intros out1 H1 H.
      destruct (bstep_some i0 out0 out1 Hl ltac:(lia) H1) as (Hh & Hl1 & Hother).
      destruct (IH (S i0) out1 out Hl1 ltac:(lia) H) as (Hlen & Hout & Hin).
      split; [exact Hlen|]. split.
      + intros j Hj. rewrite Hout by lia. apply Hother. lia.
      + intros j Hj. destruct (Nat.eq_dec j i0) as [->|Hne].
        * rewrite Hout by lia. exact Hh.
        * rewrite <- (Hother j Hne). apply Hin. lia.
  Qed.

  Lemma iter_bstep_complete : forall n i0 out0,
      length out0 = N * g -> i0 + n <= N ->
      (forall j, i0 <= j < i0 + n ->
                 exists new, h j (block g j out0) = Some new /\ length new = g) ->
      exists out, iterM bstep (seq i0 n) out0 = Some out.
  Proof.
    induction n as [|n IH]; intros i0 out0 Hl Hn H.
    - exists out0. reflexivity.
    - cbn [seq iterM].
      destruct (H i0 ltac:(lia)) as (new & Hnew & Hg).
      pose proof (bstep_complete i0 out0 new Hl ltac:(lia) Hnew Hg) as H1.
      rewrite H1. cbn [obind].
      destruct (bstep_some i0 out0 _ Hl ltac:(lia) H1) as (_ & Hl1 & Hother).
      apply IH; [exact Hl1|lia|].
      intros j Hj. rewrite Hother by lia. apply H. lia.
  Qed.

  Theorem block_loop_spec : forall out0 out,
      length out0 = N * g ->
      (iterM bstep (seq 0 N) out0 = Some out <->
       length out = N * g /\
       forall j, j < N -> h j (block g j out0) = Some (block g j out)).
  Proof.
    intros out0 out Hl. split.
    - intros H. destruct (iter_bstep_some N 0 out0 out Hl ltac:(lia) H) as (Hlen & _ & Hin).
      split; [exact Hlen|]. intros j Hj. apply Hin. lia.
    - intros (Hlen & Hb).
      destruct (iter_bstep_complete N 0 out0 Hl ltac:(lia)) as (out' & H').
      { intros j Hj. exists (block g j out). split; [apply Hb; lia|].
        apply (block_length g j N out Hlen). lia. }
      destruct (iter_bstep_some N 0 out0 out' Hl ltac:(lia) H') as (Hlen' & _ & Hin).
      rewrite H'. f_equal. apply (blocks_ext g N out' out Hlen' Hlen).
      intros j Hj. specialize (Hin j ltac:(lia)). rewrite (Hb j Hj) in Hin. congruence.
  Qed.
End BlockLoop.

Lemma rowmajor_app : forall d1 I1 d2 I2,
    length d1 = length I1 ->
    rowmajor (d1 ++ d2) (I1 ++ I2) = rowmajor d1 I1 * prod d2 + rowmajor d2 I2.
Proof.
  induction d1 as [|x d1 IH]; intros [|i I1] d2 I2 H; simpl in H; try discriminate.
  - reflexivity.
  - cbn [app rowmajor]. rewrite IH by lia. rewrite prod_app. lia.
Qed.

Lemma rowmajor_snoc : forall d I l j,
    length d = length I -> rowmajor (d ++ [l]) (I ++ [j]) = rowmajor d I * l + j.
Proof.
  intros d I l j H. rewrite rowmajor_app by exact H. cbn [rowmajor prod fold_right]. lia.
Qed.

Lemma in_range_pos : forall idx d, in_range idx d -> Forall (fun x => 1 <= x) d.
Proof.
  intros idx d H. unfold in_range in H. induction H; constructor; [lia|assumption].
Qed.

Lemma in_range_snoc_inv : forall I d l,
    in_range I (d ++ [l]) -> exists I' j, I = I' ++ [j] /\ in_range I' d /\ j < l.
Proof.
  intros I d l H. unfold in_range in *.
  apply Forall2_app_inv_r in H. destruct H as (I' & J & H1 & H2 & ->).
  inversion H2 as [|j ? J' ? Hj HJ]; subst. inversion HJ; subst.
  exists I', j. auto.
Qed.

Lemma unrank_rowmajor : forall d I, in_range I d -> unrank d (rowmajor d I) = I.
Proof.
  induction d as [|l d IH] using rev_ind; intros I H.
  - inversion H; subst. reflexivity.
  - destruct (in_range_snoc_inv I d l H) as (I' & j & -> & HI' & Hj).
    rewrite rowmajor_snoc by (symmetry; eapply Forall2_len; exact HI').
    rewrite unrank_snoc.
    rewrite Nat.div_add_l by lia. rewrite Nat.div_small by exact Hj.
    rewrite Nat.add_0_r, IH by exact HI'.
    rewrite Nat.add_comm, Nat.mod_add by lia. rewrite Nat.mod_small by exact Hj. reflexivity.
Qed.

Lemma rowmajor_unrank : forall d n,
    Forall (fun x => 1 <= x) d -> n < prod d -> rowmajor d (unrank d n) = n.
Proof.
  induction d as [|l d IH] using rev_ind; intros n H Hn.
  - simpl in *. lia.
  - apply Forall_app in H. destruct H as [Hd Hl]. inversion Hl as [|? ? Hl1 _]; subst.
    rewrite prod_app in Hn. cbn [prod fold_right] in Hn.
    rewrite unrank_snoc.
    rewrite rowmajor_snoc by (rewrite unrank_length; reflexivity).
    rewrite IH; [|exact Hd|apply Nat.div_lt_upper_bound; lia].
    pose proof (Nat.div_mod n l ltac:(lia)). lia.
Qed.

Lemma lastn_length : forall {A} n (l : list A), n <= length l -> length (lastn n l) = n.
Proof. intros A n l H. unfold lastn. rewrite skipn_length. lia. Qed.

Lemma lastn_all : forall {A} (l : list A), lastn (length l) l = l.
Proof. intros A l. unfold lastn. rewrite Nat.sub_diag. reflexivity. Qed.

Lemma lastn_snoc : forall {A} n (l : list A) x,
    n <= length l -> lastn (S n) (l ++ [x]) = lastn n l ++ [x].
Proof.
  intros A n l x H. unfold lastn. rewrite app_length. cbn [length].
  replace (length l + 1 - S n) with (length l - n) by lia.
  rewrite skipn_app. replace (length l - n - length l) with 0 by lia. reflexivity.
Qed.

Lemma lastn_rev : forall {A} n (l : list A), lastn n (rev l) = rev (firstn n l).
Proof.
  intros A n l. unfold lastn. rewrite rev_length.
  destruct (Nat.le_gt_cases n (length l)) as [H|H].
  - rewrite skipn_rev. f_equal. f_equal. lia.
  - replace (length l - n) with 0 by lia. rewrite firstn_all2 by lia. reflexivity.
Qed.

Lemma firstn_lastn : forall {A} n (l : list A), firstn (length l - n) l ++ lastn n l = l.
Proof. intros. unfold lastn. apply firstn_skipn. Qed.

Lemma lastn_app_len : forall {A} (l t : list A), lastn (length t) (l ++ t) = t.
Proof.
  intros A l t. unfold lastn. rewrite app_length, Nat.add_sub. apply skipn_app_len.
Qed.

Lemma Forall2_lastn : forall {A B} (R : A -> B -> Prop) n l1 l2,
    Forall2 R l1 l2 -> Forall2 R (lastn n l1) (lastn n l2).
Proof.
  intros A B R n l1 l2 H. unfold lastn. rewrite (Forall2_len _ _ _ H).
  apply Forall2_skipn. exact H.
Qed.

Definition cl (p : nat * nat) : nat := if snd p =? 1 then 0 else fst p.

Lemma bclamp_eq : forall d I, bclamp d I = map cl (combine (lastn (length d) I) d).
Proof. reflexivity. Qed.

Lemma bclamp_length : forall d I, length d <= length I -> length (bclamp d I) = length d.
Proof.
  intros d I H. rewrite bclamp_eq, map_length, combine_length, lastn_length by exact H. lia.
Qed.

Lemma bclamp_nil : forall I, bclamp [] I = [].
Proof. intros I. rewrite bclamp_eq. destruct (lastn (length (@nil nat)) I); reflexivity. Qed.

Lemma bclamp_single : forall y i j, bclamp [y] [i; j] = [cl (j, y)].
Proof. reflexivity. Qed.

Lemma bclamp_pair : forall x y i j, bclamp [x; y] [i; j] = [cl (i, x); cl (j, y)].
Proof. reflexivity. Qed.

Lemma cl_small : forall x d, x < d -> cl (x, d) = x.
Proof.
  intros x d H. unfold cl. cbn [fst snd]. destruct (d =? 1) eqn:E; [|reflexivity].
  apply Nat.eqb_eq in E. lia.
Qed.

Lemma bclamp_snoc : forall d l I j,
    length d <= length I ->
    bclamp (d ++ [l]) (I ++ [j]) = bclamp d I ++ [if l =? 1 then 0 else j].
Proof.
  intros d l I j H. rewrite !bclamp_eq. rewrite app_length. cbn [length].
  rewrite Nat.add_1_r, lastn_snoc by exact H.
  rewrite combine_app_eq by (apply lastn_length; exact H).
  rewrite map_app. reflexivity.
Qed.

Lemma clamp_fold_rowmajor_acc : forall J ds acc,
    length J = length ds ->
    fold_left (fun acc p => acc * snd p + choose (fst p) (snd p)) (combine J ds) acc
    = acc * prod ds + rowmajor ds (map cl (combine J ds)).
Proof.
  induction J as [|i J IH]; intros [|d ds] acc H; simpl in H; try discriminate.
  - simpl. lia.
  - cbn [combine fold_left map rowmajor fst snd]. rewrite IH by lia.
    change (prod (d :: ds)) with (d * prod ds). unfold choose, cl. cbn [fst snd]. lia.
Qed.

Lemma clamp_fold_rowmajor : forall J ds,
    length J = length ds ->
    clamp_fold J ds = rowmajor ds (map cl (combine J ds)).
Proof.
  intros J ds H. unfold clamp_fold, clamp_horner.
  rewrite clamp_fold_rowmajor_acc by exact H. lia.
Qed.

Lemma clamp_fold_firstn : forall idx ds d,
    firstn (length idx) ds = d -> length d = length idx ->
    clamp_fold idx ds = rowmajor d (bclamp d idx).
Proof.
  intros idx ds d Hd Hl. unfold clamp_fold, clamp_horner. rewrite combine_firstn_l, Hd.
  rewrite bclamp_eq, Hl, lastn_all. apply clamp_fold_rowmajor. symmetry. exact Hl.
Qed.

(** [d'] is right-aligned below [lead]: every dimension is 1 or the one of [lead] *)
Definition sub_lead (d' lead : list nat) : Prop :=
  length d' <= length lead /\
  Forall2 (fun x y => x = 1 \/ x = y) d' (lastn (length d') lead).

Lemma clamp_in_range_aux : forall d' J L,
    Forall (fun x => 1 <= x) d' ->
    Forall2 (fun x y => x = 1 \/ x = y) d' L -> Forall2 lt J L ->
    Forall2 lt (map cl (combine J d')) d'.
Proof.
  induction d' as [|x d' IH]; intros J L Hpos Hsub HJ.
  - inversion Hsub; subst. inversion HJ; subst. constructor.
  - inversion Hsub as [|? y ? L' Hxy Hsub']; subst.
    inversion HJ as [|i ? J' ? Hi HJ']; subst.
    inversion Hpos as [|? ? Hx Hpos']; subst.
    cbn [combine map]. constructor.
    + unfold cl. cbn [fst snd]. destruct (x =? 1) eqn:E.
      * lia.
      * apply Nat.eqb_neq in E. lia.
    + eapply IH; eassumption.
Qed.

Lemma bclamp_in_range : forall d' lead idx,
    Forall (fun x => 1 <= x) d' -> sub_lead d' lead -> in_range idx lead ->
    in_range (bclamp d' idx) d'.
Proof.
  intros d' lead idx Hpos [Hlen Hsub] Hidx. unfold in_range. rewrite bclamp_eq.
  eapply clamp_in_range_aux; [exact Hpos|exact Hsub|].
  apply Forall2_lastn. exact Hidx.
Qed.

Lemma sub_lead_refl : forall d, sub_lead d d.
Proof.
  intros d. split; [lia|]. rewrite lastn_all.
  induction d; constructor; auto.
Qed.

Lemma sub_lead_app : forall l L t, sub_lead l L -> sub_lead (l ++ t) (L ++ t).
Proof.
  intros l L t (Hlen & Hf). split; [rewrite !app_length; lia |].
  unfold lastn in *. rewrite !app_length, skipn_app.
  replace (length L + length t - (length l + length t)) with (length L - length l) by lia.
  replace (length L - length l - length L) with 0 by lia.
  apply Forall2_app; [exact Hf |]. clear. induction t; constructor; auto.
Qed.

Lemma sub_lead_nil : forall lead, sub_lead [] lead.
Proof.
  intros lead. split; [cbn [length]; lia|]. cbn [length]. unfold lastn.
  rewrite Nat.sub_0_r, skipn_all. constructor.
Qed.

Lemma bclamp_id : forall d I, in_range I d -> bclamp d I = I.
Proof.
  intros d I H. rewrite bclamp_eq. rewrite <- (Forall2_len _ _ _ H), lastn_all.
  unfold in_range in H. induction H as [|i x I' d' Hlt H IH]; [reflexivity|].
  cbn [combine map]. rewrite IH. f_equal. unfold cl. cbn [fst snd].
  destruct (x =? 1) eqn:E; [apply Nat.eqb_eq in E; lia|reflexivity].
Qed.

Definition bidx (d lead : list nat) (t : nat) : nat := rowmajor d (bclamp d (unrank lead t)).

Lemma bidx_lt : forall d lead t,
    Forall (fun x => 1 <= x) lead -> Forall (fun x => 1 <= x) d -> sub_lead d lead ->
    bidx d lead t < prod d.
Proof.
  intros d lead t Hlead Hd Hs. apply rowmajor_lt_prod. apply (bclamp_in_range d lead); try assumption.
  apply unrank_lt. exact Hlead.
Qed.

Lemma bidx_id : forall d t, Forall (fun x => 1 <= x) d -> t < prod d -> bidx d d t = t.
Proof.
  intros d t H Ht. unfold bidx. rewrite bclamp_id by (apply unrank_lt; exact H).
  apply rowmajor_unrank; assumption.
Qed.

Lemma bidx_rowmajor : forall d lead I,
    in_range I lead -> bidx d lead (rowmajor lead I) = rowmajor d (bclamp d I).
Proof. intros d lead I H. unfold bidx. rewrite unrank_rowmajor by exact H. reflexivity. Qed.

Section SlicedLoop.
  Context {F : Type}.
  Variables (op : @sop F) (arrays : list (arr F)) (k lc : nat) (lead out_dims : list nat)
            (ogl : nat).

  Definition sliced_step (i : nat) (out : list F) : option (list F) :=
    let idx := unrank lead i in
    slices <- mapM (operand_slice k lc idx) arrays ;;
    let ooff := ogl * clamp_fold idx out_dims in
    cur <- slice ooff ogl out ;;
    new <- op cur slices ;;
    check (length new =? ogl) ;;
    Some (splice ooff new out).

  Hypothesis lead_pos : Forall (fun x => 1 <= x) lead.

  Theorem sliced_loop_unrank : forall n i0 out,
      sliced_loop op arrays k lc lead out_dims ogl n (unrank lead i0) out
      = iterM sliced_step (seq i0 n) out.
  Proof.
    induction n as [|n IH]; intros i0 out; [reflexivity|].
    cbn [sliced_loop seq iterM]. unfold sliced_step at 1.
    destruct (mapM (operand_slice k lc (unrank lead i0)) arrays) as [slices|];
      cbn [obind]; [|reflexivity].
    destruct (slice (ogl * clamp_fold (unrank lead i0) out_dims) ogl out) as [cur|];
      cbn [obind]; [|reflexivity].
    destruct (op cur slices) as [new|]; cbn [obind]; [|reflexivity].
    destruct (guard (length new =? ogl)) as [[]|]; cbn [obind]; [|reflexivity].
    unfold incr. rewrite incr_be_unrank by exact lead_pos. apply IH.
  Qed.

  Corollary sliced_loop_from_zero : forall n out,
      length lead = lc ->
      sliced_loop op arrays k lc lead out_dims ogl n (repeat 0 lc) out
      = iterM sliced_step (seq 0 n) out.
  Proof.
    intros n out Hlc.
    replace (repeat 0 lc) with (unrank lead 0)
      by (rewrite unrank_zero by exact lead_pos; rewrite Hlc; reflexivity).
    apply sliced_loop_unrank.
  Qed.

  Corollary sliced_loop_fold_left : forall n i0 out,
      sliced_loop op arrays k lc lead out_dims ogl n (unrank lead i0) out
      = fold_left (fun acc i => obind acc (sliced_step i)) (seq i0 n) (Some out).
  Proof. intros. rewrite sliced_loop_unrank. apply iterM_fold_left. Qed.

  (** non-accumulating output: the output's leading dimensions are [lead] *)
  Hypothesis lead_len : length lead = lc.
  Hypothesis out_lead : firstn lc out_dims = lead.

  Lemma out_offset : forall i, i < prod lead -> clamp_fold (unrank lead i) out_dims = i.
  Proof.
    intros i Hi. rewrite (clamp_fold_firstn _ _ lead).
    - apply bidx_id; assumption.
    - rewrite unrank_length, lead_len. exact out_lead.
    - rewrite unrank_length. reflexivity.
  Qed.

  Definition sliced_block (j : nat) (cur : list F) : option (list F) :=
    slices <- mapM (operand_slice k lc (unrank lead j)) arrays ;; op cur slices.

  Lemma sliced_step_bstep : forall i out,
      i < prod lead -> sliced_step i out = bstep ogl sliced_block i out.
  Proof.
    intros i out Hi. unfold sliced_step, bstep, sliced_block.
    rewrite out_offset by exact Hi.
    destruct (mapM (operand_slice k lc (unrank lead i)) arrays) as [slices|]; cbn [obind].
    - reflexivity.
    - destruct (slice (ogl * i) ogl out); reflexivity.
  Qed.

  Lemma sliced_loop_bstep : forall out0,
      sliced_loop op arrays k lc lead out_dims ogl (prod lead) (repeat 0 lc) out0
      = iterM (bstep ogl sliced_block) (seq 0 (prod lead)) out0.
  Proof.
    intros out0. rewrite sliced_loop_from_zero by exact lead_len.
    apply iterM_ext. intros i s Hi. apply in_seq in Hi. apply sliced_step_bstep. lia.
  Qed.

  Theorem sliced_loop_blocks : forall z out,
      sliced_loop op arrays k lc lead out_dims ogl (prod lead) (repeat 0 lc)
                  (repeat z (prod lead * ogl)) = Some out
      <->
      length out = prod lead * ogl /\
      forall i, i < prod lead ->
        exists slices,
          mapM (operand_slice k lc (unrank lead i)) arrays = Some slices /\
          op (repeat z ogl) slices = Some (block ogl i out).
  Proof.
    intros z out. rewrite sliced_loop_bstep.
    rewrite (block_loop_spec ogl (prod lead) sliced_block _ out (repeat_length _ _)).
    unfold sliced_block. split; intros [Hlen H]; (split; [exact Hlen|]); intros i Hi;
      specialize (H i Hi); rewrite (block_repeat ogl i (prod lead) z Hi) in *.
    - apply obind_some in H. exact H.
    - apply obind_some. exact H.
  Qed.

  Corollary sliced_loop_blocks_fwd : forall z out,
      sliced_loop op arrays k lc lead out_dims ogl (prod lead) (repeat 0 lc)
                  (repeat z (prod lead * ogl)) = Some out ->
      length out = prod lead * ogl /\
      forall i, i < prod lead ->
        exists slices new,
          mapM (operand_slice k lc (unrank lead i)) arrays = Some slices /\
          op (repeat z ogl) slices = Some new /\ length new = ogl /\
          firstn ogl (skipn (ogl * i) out) = new.
  Proof.
    intros z out H. apply sliced_loop_blocks in H.
    destruct H as [Hlen H]. split; [exact Hlen|]. intros i Hi.
    destruct (H i Hi) as (slices & Hs & Hop). exists slices, (block ogl i out).
    split; [exact Hs|]. split; [exact Hop|]. split; [|reflexivity].
    apply (block_length ogl i (prod lead) out Hlen Hi).
  Qed.
End SlicedLoop.

Section OperandSlice.
  Context {F : Type}.

  Definition lead_dims (k : nat) (a : arr F) : list nat :=
    firstn (length (dims a) - k) (dims a).

  Lemma lead_dims_length : forall k (a : arr F), length (lead_dims k a) = length (dims a) - k.
  Proof. intros. unfold lead_dims. rewrite firstn_length. lia. Qed.

  Lemma lead_group_prod : forall k (a : arr F),
      prod (lead_dims k a) * group_length k a = prod (dims a).
  Proof.
    intros k a. unfold lead_dims, group_length. rewrite <- prod_app, firstn_lastn. reflexivity.
  Qed.

  Lemma lead_dims_app : forall (a : arr F) lead trail,
      dims a = lead ++ trail -> lead_dims (length trail) a = lead.
  Proof.
    intros a lead trail E. unfold lead_dims. rewrite E, app_length, Nat.add_sub.
    apply firstn_app_len.
  Qed.

  Lemma group_length_app : forall (a : arr F) lead trail,
      dims a = lead ++ trail -> group_length (length trail) a = prod trail.
  Proof.
    intros a lead trail E. unfold group_length. rewrite E, lastn_app_len. reflexivity.
  Qed.

  Lemma wf_app : forall (a : arr F) lead trail,
      wf a -> dims a = lead ++ trail ->
      Forall (fun x => 1 <= x) lead /\ Forall (fun x => 1 <= x) trail /\
      length (vals a) = prod lead * prod trail.
  Proof.
    intros a lead trail [Hp Hl] E. rewrite E in Hp, Hl. apply Forall_app in Hp.
    rewrite prod_app in Hl. split; [apply Hp|]. split; [apply Hp|]. symmetry. exact Hl.
  Qed.

  Lemma lead_dims_whole : forall k (a : arr F), length (dims a) <= k -> lead_dims k a = [].
  Proof.
    intros k a H. unfold lead_dims. replace (length (dims a) - k) with 0 by lia. reflexivity.
  Qed.

  Lemma group_length_whole : forall k (a : arr F),
      length (dims a) <= k -> group_length k a = prod (dims a).
  Proof.
    intros k a H. unfold group_length, lastn. replace (length (dims a) - k) with 0 by lia.
    reflexivity.
  Qed.

  Lemma operand_slice_offset : forall k lc idx (a : arr F),
      length idx = lc -> length (dims a) - k <= lc ->
      operand_slice k lc idx a
      = slice (group_length k a * rowmajor (lead_dims k a) (bclamp (lead_dims k a) idx))
              (group_length k a) (vals a).
  Proof.
    intros k lc idx a Hidx Hc. unfold operand_slice. cbv zeta. f_equal. f_equal.
    assert (Hl : length (skipn (lc - (length (dims a) - k)) idx) = length (dims a) - k)
      by (rewrite skipn_length; lia).
    rewrite (clamp_fold_firstn _ _ (lead_dims k a)).
    - rewrite !bclamp_eq. unfold lastn.
      rewrite Hl, lead_dims_length, Hidx, Nat.sub_diag. reflexivity.
    - rewrite Hl. reflexivity.
    - rewrite Hl. apply lead_dims_length.
  Qed.

  Theorem operand_slice_spec : forall k lc lead i (a : arr F),
      wf a -> Forall (fun x => 1 <= x) lead -> length lead = lc ->
      sub_lead (lead_dims k a) lead ->
      operand_slice k lc (unrank lead i) a
      = Some (block (group_length k a)
                    (rowmajor (lead_dims k a) (bclamp (lead_dims k a) (unrank lead i)))
                    (vals a)).
  Proof.
    intros k lc lead i a [Hpos Hlen] Hlead Hlc Hsub.
    rewrite operand_slice_offset;
      [|rewrite unrank_length; exact Hlc
       |rewrite <- lead_dims_length, <- Hlc; apply Hsub].
    apply (slice_block _ _ (prod (lead_dims k a))).
    - rewrite <- Hlen. symmetry. apply lead_group_prod.
    - apply rowmajor_lt_prod. apply (bclamp_in_range _ lead).
      + apply Forall_firstn. exact Hpos.
      + exact Hsub.
      + apply unrank_lt. exact Hlead.
  Qed.

  Lemma operand_slice_length : forall k lc idx (a : arr F) s,
      operand_slice k lc idx a = Some s -> length s = group_length k a.
  Proof.
    intros k lc idx a s H. unfold operand_slice, slice in H. cbv zeta in H.
    match type of H with (if ?c then _ else _) = _ => destruct c eqn:E end; [|discriminate].
    apply Nat.leb_le in E. inversion H; subst. rewrite firstn_length, skipn_length. lia.
  Qed.

  Lemma forallb_combine_Forall2 : forall (P : nat * nat -> bool) (R : nat -> nat -> Prop) x y,
      (forall a b, P (a, b) = true <-> R a b) -> length x = length y ->
      (forallb P (combine x y) = true <-> Forall2 R x y).
  Proof.
    intros P R x y HPR. revert y. induction x as [|a x IH]; intros [|b y] H; simpl in H;
      try discriminate.
    - simpl. split; [constructor|reflexivity].
    - cbn [combine forallb]. rewrite andb_true_iff, HPR, IH by lia. split.
      + intros [H1 H2]. constructor; assumption.
      + intros H2. inversion H2; subst. auto.
  Qed.

  Lemma sliced_valid_Forall2 : forall k in_dims (a : arr F),
      let lead := firstn (length in_dims - k) in_dims in
      length (lead_dims k a) <= length lead ->
      (sliced_valid k in_dims a = true
       <-> Forall2 (fun x y => x = 1 \/ x = y) (lead_dims k a)
                   (lastn (length (lead_dims k a)) lead)).
  Proof.
    intros k in_dims a lead Hle. unfold sliced_valid.
    rewrite !skipn_rev. fold (lead_dims k a). fold lead. set (d' := lead_dims k a) in *.
    rewrite <- (firstn_lastn (length d') lead) at 1.
    rewrite rev_app_distr.
    rewrite <- (app_nil_r (rev d')).
    rewrite combine_app_eq by (rewrite !rev_length, lastn_length; lia).
    cbn [combine]. rewrite app_nil_r.
    rewrite (forallb_combine_Forall2 _ (fun x y => x = 1 \/ x = y));
      [|intros x y; cbn [fst snd]; rewrite orb_true_iff, !Nat.eqb_eq; reflexivity
       |rewrite !rev_length, lastn_length; lia].
    apply Forall2_rev_iff.
  Qed.

  Theorem sliced_valid_spec : forall k in_dims (a : arr F),
      length (dims a) <= length in_dims ->
      (sliced_valid k in_dims a = true
       <-> sub_lead (lead_dims k a) (firstn (length in_dims - k) in_dims)).
  Proof.
    intros k in_dims a Hr.
    assert (Hle : length (lead_dims k a) <= length (firstn (length in_dims - k) in_dims))
      by (rewrite lead_dims_length, firstn_length; lia).
    rewrite (sliced_valid_Forall2 k in_dims a Hle). unfold sub_lead. tauto.
  Qed.

  Lemma sliced_valid_sub_lead : forall k in_dims (a : arr F),
      sub_lead (lead_dims k a) (firstn (length in_dims - k) in_dims) ->
      sliced_valid k in_dims a = true.
  Proof. intros k in_dims a [Hle H]. apply sliced_valid_Forall2; assumption. Qed.
End OperandSlice.

Section SlicedOpUnfold.
  Context {F : Type} (O : ScalarOps F).

  (** With no leading dimensions the loop runs once from the empty index; the separate
      branch of the Rust code computes the same thing. *)
  Lemma sliced_loop_once : forall (op : @sop F) arrays k lead out_dims ogl out0,
      sliced_loop op arrays k 0 lead out_dims ogl 1 [] out0 =
      (slices <- mapM (fun a => slice 0 (group_length k a) (vals a)) arrays ;;
       cur <- slice 0 ogl out0 ;;
       new <- op cur slices ;;
       check (length new =? ogl) ;;
       Some (splice 0 new out0)).
  Proof.
    intros op arrays k lead out_dims ogl out0. cbn [sliced_loop].
    unfold clamp_fold, clamp_horner. cbn [combine fold_left]. rewrite Nat.mul_0_r.
    rewrite (mapM_ext (operand_slice k 0 []) (fun a => slice 0 (group_length k a) (vals a))).
    - reflexivity.
    - intros a _. unfold operand_slice, clamp_fold, clamp_horner.
      rewrite skipn_nil. cbn [combine fold_left]. rewrite Nat.mul_0_r. reflexivity.
  Qed.

  Lemma sliced_op_unfold : forall (arrays : list (arr F)) (op : @sop F) in_dims out_dims k flatten,
      sliced_op O arrays op in_dims out_dims k flatten =
      (check forallb (sliced_valid k in_dims) arrays ;;
       let lc := length in_dims - k in
       let lead := firstn lc in_dims in
       let ogl := prod (skipn lc out_dims) in
       out <- sliced_loop op arrays k lc lead out_dims ogl (prod lead) (repeat 0 lc)
                          (repeat (f0 O) (prod out_dims)) ;;
       out_dims' <-
         (if flatten =? 0 then Some out_dims
          else
            check (flatten <=? length out_dims) ;;
            let keep := length out_dims - flatten in
            Some (firstn keep out_dims ++ [prod (skipn keep out_dims)])) ;;
       mk out_dims' out).
  Proof.
    intros arrays op in_dims out_dims k flatten. unfold sliced_op. cbv zeta.
    destruct (length in_dims - k) as [|lc]; [|reflexivity].
    cbn [Nat.eqb firstn repeat prod fold_right]. rewrite sliced_loop_once. reflexivity.
  Qed.

  Lemma sliced_op_shape : forall (arrays : list (arr F)) op in_dims out_dims k c,
      sliced_op O arrays op in_dims out_dims k 0 = Some c -> wf c /\ dims c = out_dims.
  Proof.
    intros arrays op in_dims out_dims k c H. rewrite sliced_op_unfold in H. cbv zeta in H.
    revert H. apply obind_elim. intros _ _ H.
    revert H. apply obind_elim. intros out _ H.
    cbn [Nat.eqb obind] in H. apply mk_some in H. destruct H as (Hp & Hl & ->).
    split; [split; assumption|reflexivity].
  Qed.
End SlicedOpUnfold.

Section SlicedOpNonacc.
  Context {F : Type} (O : ScalarOps F).

  Definition flatten_dims (out_dims : list nat) (flatten : nat) : option (list nat) :=
    if flatten =? 0 then Some out_dims
    else
      check (flatten <=? length out_dims) ;;
      let keep := length out_dims - flatten in
      Some (firstn keep out_dims ++ [prod (skipn keep out_dims)]).

  Lemma flatten_dims_app : forall lead otr n,
      length otr = n -> 1 <= n ->
      flatten_dims (lead ++ otr) n = Some (lead ++ [prod otr]).
  Proof.
    intros lead otr n <- Hn. unfold flatten_dims.
    rewrite (proj2 (Nat.eqb_neq _ 0)) by lia.
    rewrite app_length, (proj2 (Nat.leb_le _ _)) by lia. cbn [guard obind].
    rewrite Nat.add_sub, firstn_app_len, skipn_app_len. reflexivity.
  Qed.

  Theorem sliced_op_nonacc : forall (arrays : list (arr F)) (op : @sop F)
                                    in_dims out_dims k flatten c,
      let lc := length in_dims - k in
      let lead := firstn lc in_dims in
      let ogl := prod (skipn lc out_dims) in
      firstn lc out_dims = lead ->
      Forall (fun x => 1 <= x) lead ->
      (sliced_op O arrays op in_dims out_dims k flatten = Some c
       <->
       forallb (sliced_valid k in_dims) arrays = true /\
       exists out,
         length out = prod out_dims /\
         (forall i, i < prod lead ->
            exists slices,
              mapM (operand_slice k lc (unrank lead i)) arrays = Some slices /\
              op (repeat (f0 O) ogl) slices = Some (block ogl i out)) /\
         (out_dims' <- flatten_dims out_dims flatten ;; mk out_dims' out) = Some c).
  Proof.
    intros arrays op in_dims out_dims k flatten c lc lead ogl Hout Hpos.
    assert (Hlc : length lead = lc) by (unfold lead, lc; rewrite firstn_length; lia).
    assert (Hprod : prod out_dims = prod lead * ogl).
    { rewrite <- (firstn_skipn lc out_dims) at 1. rewrite prod_app, Hout. reflexivity. }
    pose proof (sliced_loop_blocks op arrays k lc lead out_dims ogl Hpos Hlc Hout (f0 O)) as Hblocks.
    rewrite sliced_op_unfold. cbv zeta. fold lc. fold lead. fold ogl.
    fold (flatten_dims out_dims flatten). rewrite Hprod.
    rewrite obind_some. split.
    - intros ([] & Hv & H). apply guard_some_iff in Hv. split; [exact Hv|].
      revert H. apply obind_elim. intros out Hloop H. exists out.
      apply Hblocks in Hloop. tauto.
    - intros (Hv & out & Hlen & Hb & H). exists tt. split; [apply guard_some_iff; exact Hv|].
      apply obind_some. exists out. split; [|exact H]. apply Hblocks. auto.
  Qed.
End SlicedOpNonacc.

Section Tab.
  Context {F : Type} (O : ScalarOps F).

  Definition oblock (k : nat) (lead : list nat) (t : nat) (a : arr F) : list F :=
    block (group_length k a) (bidx (lead_dims k a) lead t) (vals a).

  Lemma oblock_length : forall k lead t (a : arr F),
      wf a -> Forall (fun x => 1 <= x) lead -> sub_lead (lead_dims k a) lead ->
      length (oblock k lead t a) = group_length k a.
  Proof.
    intros k lead t a [Hp Hl] Hlead Hs. apply (block_length _ _ (prod (lead_dims k a))).
    - rewrite <- Hl. symmetry. apply lead_group_prod.
    - apply bidx_lt; [exact Hlead|apply Forall_firstn; exact Hp|exact Hs].
  Qed.

  Lemma operand_whole : forall k lead (a : arr F),
      wf a -> length (dims a) <= k -> wf a /\ sub_lead (lead_dims k a) lead.
  Proof.
    intros k lead a Hw Hr. rewrite lead_dims_whole by exact Hr. split; [exact Hw|apply sub_lead_nil].
  Qed.

  Lemma oblock_whole : forall k lead t (a : arr F),
      wf a -> length (dims a) <= k -> oblock k lead t a = vals a.
  Proof.
    intros k lead t a [_ Hl] Hr. unfold oblock.
    rewrite lead_dims_whole, group_length_whole, Hl by exact Hr. apply block_whole.
  Qed.

  Lemma oblock_own : forall k (a : arr F) lead trail t,
      dims a = lead ++ trail -> length trail = k -> Forall (fun x => 1 <= x) lead -> t < prod lead ->
      oblock k lead t a = block (prod trail) t (vals a).
  Proof.
    intros k a lead trail t Ea <- Hlead Ht. unfold oblock.
    rewrite (lead_dims_app a lead trail Ea), (group_length_app a lead trail Ea).
    rewrite bidx_id by assumption. reflexivity.
  Qed.

  Theorem sliced_op_tab : forall (arrays : list (arr F)) (op : @sop F) in_dims k lead otr fl od'
                                 (g : nat -> list F),
      firstn (length in_dims - k) in_dims = lead ->
      Forall (fun x => 1 <= x) lead ->
      Forall (fun a => wf a /\ sub_lead (lead_dims k a) lead) arrays ->
      (forall t, t < prod lead ->
         op (repeat (f0 O) (prod otr)) (map (oblock k lead t) arrays) = Some (g t) /\
         length (g t) = prod otr) ->
      flatten_dims (lead ++ otr) fl = Some od' ->
      Forall (fun x => 1 <= x) od' -> prod od' = prod lead * prod otr ->
      sliced_op O arrays op in_dims (lead ++ otr) k fl
      = Some {| dims := od'; vals := concat (map g (seq 0 (prod lead))) |}.
  Proof.
    intros arrays op in_dims k lead otr fl od' g Hfn Hlead Hops Hop Hfl Hod Hpr.
    assert (Hlc : length in_dims - k = length lead) by (rewrite <- Hfn, firstn_length; lia).
    assert (Hg : forall t, 0 <= t < 0 + prod lead -> length (g t) = prod otr)
      by (intros t Ht; apply Hop; lia).
    rewrite Forall_forall in Hops.
    pose proof (sliced_op_nonacc O arrays op in_dims (lead ++ otr) k fl
                  {| dims := od'; vals := concat (map g (seq 0 (prod lead))) |}) as S.
    cbv zeta in S. rewrite Hfn, Hlc, firstn_app_len, skipn_app_len in S.
    apply (S eq_refl Hlead). clear S. split.
    - apply forallb_forall. intros a Ha. apply sliced_valid_sub_lead.
      rewrite Hfn. apply (Hops a Ha).
    - exists (concat (map g (seq 0 (prod lead)))). split; [|split].
      + rewrite prod_app. apply concat_tab_length. exact Hg.
      + intros t Ht. exists (map (oblock k lead t) arrays). split.
        * apply mapM_some_map. intros a Ha. destruct (Hops a Ha) as [Hw Hs].
          apply operand_slice_spec; [exact Hw|exact Hlead|reflexivity|exact Hs].
        * rewrite (block_concat_tab g (prod otr) (prod lead) 0) by assumption. apply Hop. exact Ht.
      + rewrite Hfl. cbn [obind]. apply mk_some. split; [exact Hod|]. split; [|reflexivity].
        rewrite Hpr. symmetry. apply concat_tab_length. exact Hg.
  Qed.

  Lemma tab_get : forall lead otr (g : nat -> list F) I J,
      (forall t, t < prod lead -> length (g t) = prod otr) ->
      in_range I lead -> in_range J otr ->
      get {| dims := lead ++ otr; vals := concat (map g (seq 0 (prod lead))) |} (I ++ J)
      = nth_error (g (rowmajor lead I)) (rowmajor otr J).
  Proof.
    intros lead otr g I J Hg HI HJ. unfold get. cbn [dims vals].
    rewrite rowmajor_app by (symmetry; exact (Forall2_len _ _ _ HI)).
    rewrite (Nat.mul_comm (rowmajor lead I)), <- nth_error_block by (apply rowmajor_lt_prod; exact HJ).
    rewrite (block_concat_tab g (prod otr) (prod lead) 0); [reflexivity| |apply rowmajor_lt_prod; exact HI].
    intros t Ht. apply Hg. lia.
  Qed.

  Lemma tab_wf : forall lead otr (g : nat -> list F),
      Forall (fun x => 1 <= x) (lead ++ otr) ->
      (forall t, t < prod lead -> length (g t) = prod otr) ->
      wf {| dims := lead ++ otr; vals := concat (map g (seq 0 (prod lead))) |}.
  Proof.
    intros lead otr g Hp Hg. split; [exact Hp|]. cbn [dims vals]. rewrite prod_app. symmetry.
    apply concat_tab_length. intros t Ht. apply Hg. lia.
  Qed.

  Lemma block_get_at : forall (a : arr F) lead trail J K,
      dims a = lead ++ trail -> length J = length lead -> in_range K trail ->
      nth_error (block (prod trail) (rowmajor lead J) (vals a)) (rowmajor trail K) = get a (J ++ K).
  Proof.
    intros a lead trail J K Ea HJ HK. rewrite nth_error_block by (apply rowmajor_lt_prod; exact HK).
    unfold get. rewrite Ea, rowmajor_app by (symmetry; exact HJ). f_equal. lia.
  Qed.

  Lemma oblock_get : forall (a : arr F) d tr lead I J,
      dims a = d ++ tr -> sub_lead d lead -> in_range I lead -> in_range J tr ->
      nth_error (oblock (length tr) lead (rowmajor lead I) a) (rowmajor tr J)
      = get a (bclamp d I ++ J).
  Proof.
    intros a d tr lead I J Ea [Hl _] HI HJ. unfold oblock, get.
    rewrite (lead_dims_app a d tr Ea), (group_length_app a d tr Ea), (bidx_rowmajor _ _ _ HI).
    rewrite nth_error_block by (apply rowmajor_lt_prod; exact HJ).
    rewrite Ea, rowmajor_app; [f_equal; lia|].
    rewrite bclamp_length; [reflexivity|]. rewrite (Forall2_len _ _ _ HI). exact Hl.
  Qed.

  (** one operand whose blocks are mapped independently *)
  Lemma sliced_op_single : forall (a : arr F) (op : @sop F) (g : list F -> list F) lead trail otrail,
      wf a -> dims a = lead ++ trail -> Forall (fun v => 1 <= v) otrail ->
      (forall s, length s = prod trail ->
                 op (repeat (f0 O) (prod otrail)) [s] = Some (g s) /\ length (g s) = prod otrail) ->
      exists u,
        sliced_op O [a] op (lead ++ trail) (lead ++ otrail) (length trail) 0 = Some u /\
        wf u /\ dims u = lead ++ otrail /\
        forall t, t < prod lead ->
                  block (prod otrail) t (vals u) = g (block (prod trail) t (vals a)).
  Proof.
    intros a op g lead trail otrail Hwa Ea Hpo Hop.
    destruct (wf_app a lead trail Hwa Ea) as (Hlead & _ & Hva).
    assert (Hoa : wf a /\ sub_lead (lead_dims (length trail) a) lead)
      by (rewrite (lead_dims_app a lead trail Ea); split; [exact Hwa|apply sub_lead_refl]).
    set (h := fun t => g (block (prod trail) t (vals a))).
    assert (Hh : forall t, t < prod lead -> length (h t) = prod otrail).
    { intros t Ht. apply Hop. apply (block_length _ _ (prod lead)); assumption. }
    assert (Hpu : Forall (fun v => 1 <= v) (lead ++ otrail)) by (apply Forall_app; auto).
    exists {| dims := lead ++ otrail; vals := concat (map h (seq 0 (prod lead))) |}.
    split; [|split; [apply tab_wf; assumption|split; [reflexivity|]]].
    - apply (sliced_op_tab [a] op (lead ++ trail) (length trail) lead otrail 0); try assumption.
      + rewrite app_length, Nat.add_sub. apply firstn_app_len.
      + constructor; [exact Hoa|constructor].
      + intros t Ht. cbn [map]. rewrite (oblock_own _ a lead trail t Ea eq_refl Hlead Ht).
        split; [|apply Hh; exact Ht].
        apply Hop. apply (block_length _ _ (prod lead)); assumption.
      + reflexivity.
      + apply prod_app.
    - intros t Ht. cbn [vals]. apply (block_concat_tab h (prod otrail) (prod lead) 0); [|exact Ht].
      intros t' Ht'. apply Hh. lia.
  Qed.

  Lemma sliced_single_total : forall (a : arr F) (op : @sop F) lead trail otrail,
      wf a -> dims a = lead ++ trail -> Forall (fun v => 1 <= v) otrail ->
      (forall s, length s = prod trail ->
                 exists r, op (repeat (f0 O) (prod otrail)) [s] = Some r /\ length r = prod otrail) ->
      exists u, sliced_op O [a] op (lead ++ trail) (lead ++ otrail) (length trail) 0 = Some u /\
                dims u = lead ++ otrail.
  Proof.
    intros a op lead trail otrail Hw Ea Hpo Hop.
    destruct (sliced_op_single a op
                (fun s => match op (repeat (f0 O) (prod otrail)) [s] with Some r => r | None => [] end)
                lead trail otrail Hw Ea Hpo) as (u & Hu & _ & Hdu & _).
    - intros s Hs. destruct (Hop s Hs) as (r & -> & Hl). split; [reflexivity | exact Hl].
    - exists u. split; assumption.
  Qed.
End Tab.
