(** Graph vocabulary over a fixed skeleton store [g0], and the specification of
    [propagate] (the consumer-count pass). *)

From Coq Require Import List Arith Bool Lia PeanoNat.
From Corgi Require Import Lib.OptionMonad Model.Engine Proofs.EngineDefs Proofs.EngineBase.
Import ListNotations.

Section Graph.
  Context {P D : Type}.
  Variable E : eops P D.
  Variable g0 : store P D.
  Variable r : nat.
  Hypothesis Hwf : wfg E g0.

  Definition tks (es : list entry) : list nat := map e_node (filter e_tracked es).

  Definition tkn (n : nat) : list nat :=
    match nth_error g0 n with Some nd => tks (n_children nd) | None => [] end.

  Lemma tks_cons : forall e es,
      tks (e :: es) = if e_tracked e then e_node e :: tks es else tks es.
  Proof. intros e es. unfold tks. simpl. destruct (e_tracked e); reflexivity. Qed.

  Lemma filter_occ : forall (es : list entry) m,
      length (filter (fun e => e_tracked e && (e_node e =? m)) es) = occ m (tks es).
  Proof.
    induction es as [|e es IH]; intro m.
    - reflexivity.
    - rewrite tks_cons. simpl. destruct (e_tracked e); simpl.
      + rewrite occ_cons. rewrite (Nat.eqb_sym m (e_node e)).
        destruct (e_node e =? m); simpl; rewrite IH; reflexivity.
      + apply IH.
  Qed.

  Lemma mult_occ : forall n m, mult g0 n m = occ m (tkn n).
  Proof.
    intros n m. unfold mult, tkn. destruct (nth_error g0 n) as [nd|].
    - apply filter_occ.
    - reflexivity.
  Qed.

  Lemma occ_pos_in : forall m X, 0 < occ m X <-> In m X.
  Proof.
    intros m X. induction X as [|x X IH].
    - rewrite occ_nil. simpl. split; [lia | tauto].
    - rewrite occ_cons. simpl. destruct (m =? x) eqn:Hmx.
      + apply Nat.eqb_eq in Hmx. split; [intros _; left; congruence | intros _; lia].
      + apply Nat.eqb_neq in Hmx. split.
        * intro H. right. apply IH. lia.
        * intros [H|H]; [congruence | apply IH in H; lia].
  Qed.

  Lemma tks_in : forall es m,
      In m (tks es) <-> exists e, In e es /\ e_tracked e = true /\ e_node e = m.
  Proof.
    intros es m. unfold tks. rewrite in_map_iff. split.
    - intros (e & He & Hin). apply filter_In in Hin. destruct Hin as (Hin & Ht).
      exists e. tauto.
    - intros (e & Hin & Ht & He). exists e. split; [exact He |].
      apply filter_In. tauto.
  Qed.

  Fixpoint dl (ps : list (entry * option D)) : list nat :=
    match ps with
    | [] => []
    | (e, Some _) :: ps' => e_node e :: dl ps'
    | (_, None) :: ps' => dl ps'
    end.

  Lemma tks_untracked : forall es : list entry,
      (forall e, In e es -> e_tracked e = false) -> tks es = [].
  Proof.
    induction es as [|e es IH]; intro H; [reflexivity |].
    rewrite tks_cons, (H e (or_introl eq_refl)). apply IH. intros e' He'. apply H. right. exact He'.
  Qed.

  Lemma dl_combine : forall (es : list entry) (ds : list (option D)),
      length ds <= length es ->
      (forall i e, nth_error es i = Some e ->
                   (e_tracked e = true <-> exists d, nth_error ds i = Some (Some d))) ->
      dl (combine es ds) = tks es.
  Proof.
    induction es as [|e es IH]; intros ds Hlen Hc; [reflexivity |].
    destruct ds as [|od ds].
    - symmetry. apply tks_untracked. intros e' Hin.
      destruct (In_nth_error _ _ Hin) as (i & Hi).
      destruct (e_tracked e') eqn:Ht; [| reflexivity].
      apply (Hc i e' Hi) in Ht. destruct Ht as (d & Hd). destruct i; discriminate Hd.
    - simpl in Hlen. rewrite tks_cons. cbn [combine dl].
      rewrite <- (IH ds) by (try lia; intros i e' Hi; apply (Hc (S i) e' Hi)).
      pose proof (Hc 0 e eq_refl) as H0. simpl in H0.
      destruct od as [d|]; destruct (e_tracked e) eqn:Ht; try reflexivity.
      + destruct H0 as (_ & H0). discriminate H0. exists d. reflexivity.
      + destruct H0 as (H0 & _). destruct (H0 eq_refl) as (d & Hd). discriminate Hd.
  Qed.

  Lemma tkn_tedge : forall n m, In m (tkn n) <-> tedge g0 n m.
  Proof.
    intros n m. unfold tkn, tedge. destruct (nth_error g0 n) as [nd|] eqn:Hn.
    - rewrite tks_in. split.
      + intros (e & H). exists nd, e. tauto.
      + intros (nd' & e & Hnd & H). injection Hnd as Hnd. subst nd'. exists e. exact H.
    - simpl. split; [tauto |]. intros (nd' & e & Hnd & _). discriminate Hnd.
  Qed.

  Lemma mult_pos_tedge : forall n m, 0 < mult g0 n m <-> tedge g0 n m.
  Proof. intros n m. rewrite mult_occ, occ_pos_in. apply tkn_tedge. Qed.

  Lemma nth_lt : forall {A} (l : list A) n x, nth_error l n = Some x -> n < length l.
  Proof. intros A l n x H. apply nth_error_Some. congruence. Qed.

  Lemma tedge_lt : forall n m, tedge g0 n m -> m < n /\ n < length g0.
  Proof.
    intros n m (nd & e & Hn & Hin & _ & He). split.
    - destruct (Hwf n nd Hn) as (H & _). subst m. apply H. exact Hin.
    - eapply nth_lt. exact Hn.
  Qed.

  Lemma mult_zero_ge : forall n m, n <= m -> mult g0 n m = 0.
  Proof.
    intros n m Hle. destruct (mult g0 n m) as [|k] eqn:Hm; [reflexivity |].
    assert (Ht : tedge g0 n m) by (apply mult_pos_tedge; lia).
    apply tedge_lt in Ht. lia.
  Qed.

  Lemma reach_tedge : forall n m, reach g0 r n -> tedge g0 n m -> reach g0 r m.
  Proof.
    intros n m Hr (nd & e & Hn & Hin & Ht & He). subst m.
    eapply reach_step; eassumption.
  Qed.

  Lemma reach_le : forall n, reach g0 r n -> n <= r.
  Proof.
    intros n H. induction H as [|m nd e Hr IH Hn Hin Ht].
    - lia.
    - destruct (Hwf m nd Hn) as (Hc & _). specialize (Hc e Hin). lia.
  Qed.

  Lemma reach_lt : forall n, r < length g0 -> reach g0 r n -> n < length g0.
  Proof. intros n Hr H. apply reach_le in H. lia. Qed.

  Lemma reach_pred : forall m, reach g0 r m -> m <> r ->
      exists n, reach g0 r n /\ tedge g0 n m.
  Proof.
    intros m H Hne. destruct H as [|n nd e Hr Hn Hin Ht].
    - congruence.
    - exists n. split; [exact Hr |]. exists nd, e. tauto.
  Qed.

  Definition indeg (a : nat -> bool) (m : nat) : nat :=
    wsum (length g0) (fun n => if a n then mult g0 n m else 0).

  Lemma indeg_ext : forall a a' m,
      (forall n, n < length g0 -> a n = a' n) -> indeg a m = indeg a' m.
  Proof.
    intros a a' m H. unfold indeg. apply wsum_ext. intros n Hn. rewrite (H n Hn). reflexivity.
  Qed.

  Lemma indeg_flip : forall a a' c m,
      c < length g0 -> a c = false -> a' c = true -> (forall n, n <> c -> a' n = a n) ->
      indeg a' m = mult g0 c m + indeg a m.
  Proof.
    intros a a' c m Hc Ha Ha' Hoth. unfold indeg.
    rewrite (wsum_split (length g0) _ c Hc). rewrite Ha'. f_equal.
    apply wsum_ext. intros n Hn. destruct (n =? c) eqn:Hnc.
    - apply Nat.eqb_eq in Hnc. subst n. rewrite Ha. reflexivity.
    - apply Nat.eqb_neq in Hnc. rewrite (Hoth n Hnc). reflexivity.
  Qed.

  Lemma indeg_ge : forall a n m, n < length g0 -> a n = true -> mult g0 n m <= indeg a m.
  Proof.
    intros a n m Hn Ha. unfold indeg.
    pose proof (wsum_ge_term (length g0) (fun n => if a n then mult g0 n m else 0) n Hn) as H.
    simpl in H. rewrite Ha in H. exact H.
  Qed.

  Lemma indeg_zero : forall a m,
      (forall n, n < length g0 -> a n = true -> mult g0 n m = 0) -> indeg a m = 0.
  Proof.
    intros a m H. unfold indeg. apply wsum_zero. intros n Hn.
    destruct (a n) eqn:Ha; [apply H; assumption | reflexivity].
  Qed.

  Definition pstep (f : nat) (acc : option (store P D)) (e : entry) : option (store P D) :=
    g <- acc ;;
    if e_tracked e then
      c <- nth_error g (e_node e) ;;
      let cc := n_count c in
      g' <- put g (e_node e) (set_count c (S cc)) ;;
      if cc =? 0 then propagate f g' (e_node e) else Some g'
    else Some g.

  Lemma propagate_S : forall f (g : store P D) id,
      propagate (S f) g id =
      (nd <- nth_error g id ;; fold_left (pstep f) (n_children nd) (Some g)).
  Proof. reflexivity. Qed.

  Definition pact (g : store P D) (n : nat) : bool := negb (cnt g n =? 0) || (n =? r).

  Lemma pact_true : forall g n, pact g n = true <-> (0 < cnt g n \/ n = r).
  Proof.
    intros g n. unfold pact. rewrite orb_true_iff, negb_true_iff, Nat.eqb_neq, Nat.eqb_eq. lia.
  Qed.

  Definition PInv (g : store P D) (Y : list nat) : Prop :=
    forall m, cnt g m + occ m Y = indeg (pact g) m.

  Definition PReach (g : store P D) : Prop := forall n, 0 < cnt g n -> reach g0 r n.

  Definition NC (g : store P D) : Prop := map nc g = map nc g0.

  Lemma pinv_activate : forall g g1 c Y,
      c < length g0 -> c <> r -> cnt g c = 0 ->
      (forall m, cnt g1 m = if m =? c then 1 else cnt g m) ->
      PInv g (c :: Y) -> PInv g1 (tkn c ++ Y).
  Proof.
    intros g g1 c Y Hc Hcr Hc0 Hg1 HI m.
    rewrite occ_app, <- mult_occ.
    rewrite (indeg_flip (pact g) (pact g1) c m Hc).
    - specialize (HI m). rewrite occ_cons in HI. rewrite Hg1.
      destruct (m =? c) eqn:Hmc.
      + apply Nat.eqb_eq in Hmc. subst m. lia.
      + lia.
    - unfold pact. rewrite Hc0. simpl. apply Nat.eqb_neq. exact Hcr.
    - unfold pact. rewrite Hg1, Nat.eqb_refl. reflexivity.
    - intros n Hn. unfold pact. rewrite Hg1. apply Nat.eqb_neq in Hn. rewrite Hn. reflexivity.
  Qed.

  Lemma pinv_bump : forall g g1 c Y,
      cnt g c <> 0 ->
      (forall m, cnt g1 m = if m =? c then S (cnt g c) else cnt g m) ->
      PInv g (c :: Y) -> PInv g1 Y.
  Proof.
    intros g g1 c Y Hc Hg1 HI m.
    rewrite (indeg_ext (pact g1) (pact g) m).
    - specialize (HI m). rewrite occ_cons in HI. rewrite Hg1.
      destruct (m =? c) eqn:Hmc.
      + apply Nat.eqb_eq in Hmc. subst m. lia.
      + lia.
    - intros n _. unfold pact. rewrite Hg1. destruct (n =? c) eqn:Hnc.
      + apply Nat.eqb_eq in Hnc. subst n.
        destruct (cnt g c) as [|k]; [congruence | reflexivity].
      + reflexivity.
  Qed.

  Definition prop_spec (f : nat) : Prop :=
    forall g id Y,
      id < f -> reach g0 r id -> r < length g0 -> NC g -> PReach g -> PInv g (tkn id ++ Y) ->
      exists g', propagate f g id = Some g' /\ NC g' /\ PReach g' /\ PInv g' Y.

  Lemma pfold_ok : forall f, prop_spec f ->
      forall es g Y,
        (forall e, In e es -> e_tracked e = true ->
                   e_node e < f /\ reach g0 r (e_node e) /\ e_node e <> r) ->
        r < length g0 -> NC g -> PReach g -> PInv g (tks es ++ Y) ->
        exists g', fold_left (pstep f) es (Some g) = Some g' /\ NC g' /\ PReach g' /\ PInv g' Y.
  Proof.
    intros f IHf es. induction es as [|e es IHes]; intros g Y Hes Hr Hnc Hpr HI.
    - exists g. simpl. tauto.
    - simpl fold_left. rewrite tks_cons in HI.
      assert (Hes' : forall e', In e' es -> e_tracked e' = true ->
                  e_node e' < f /\ reach g0 r (e_node e') /\ e_node e' <> r).
      { intros e' Hin. apply Hes. right. exact Hin. }
      destruct (e_tracked e) eqn:Het.
      + destruct (Hes e (or_introl eq_refl) Het) as (Hcf & Hcr & Hcne).
        set (c := e_node e) in *.
        assert (Hclt : c < length g0) by (apply reach_lt; assumption).
        assert (Hlen : length g = length g0) by (apply (map_eq_length nc); exact Hnc).
        destruct (nth_error g c) as [cn|] eqn:Hcn;
          [| apply nth_error_None in Hcn; lia].
        simpl obind.
        destruct (put_some g c (set_count cn (S (n_count cn)))) as (g1 & Hput); [lia |].
        rewrite Hput. simpl obind.
        assert (Hcnt1 : forall m, cnt g1 m = if m =? c then S (cnt g c) else cnt g m).
        { intro m. rewrite (put_cnt g c _ g1 m Hput). rewrite (cnt_nth g c cn Hcn). reflexivity. }
        assert (Hnc1 : NC g1).
        { unfold NC. rewrite <- Hnc. eapply put_map; [exact Hput | exact Hcn | reflexivity]. }
        assert (Hpr1 : PReach g1).
        { intros n Hn. rewrite Hcnt1 in Hn. destruct (n =? c) eqn:Hnc'.
          - apply Nat.eqb_eq in Hnc'. subst n. exact Hcr.
          - apply Hpr. exact Hn. }
        pose proof (cnt_nth g c cn Hcn) as Hcc.
        destruct (n_count cn =? 0) eqn:Hz.
        * apply Nat.eqb_eq in Hz.
          assert (HI1 : PInv g1 (tkn c ++ (tks es ++ Y))).
          { apply (pinv_activate g g1 c); try assumption; [lia |].
            intro m. rewrite Hcnt1. rewrite Hcc, Hz. reflexivity. }
          destruct (IHf g1 c (tks es ++ Y) Hcf Hcr Hr Hnc1 Hpr1 HI1)
            as (g2 & Hp2 & Hnc2 & Hpr2 & HI2).
          rewrite Hp2. apply IHes; assumption.
        * apply Nat.eqb_neq in Hz.
          assert (HI1 : PInv g1 (tks es ++ Y)).
          { apply (pinv_bump g g1 c); [lia | exact Hcnt1 | exact HI]. }
          apply IHes; assumption.
      + apply IHes; assumption.
  Qed.

  Lemma propagate_ok : forall f, prop_spec f.
  Proof.
    induction f as [|f IHf]; intros g id Y Hid Hrid Hr Hnc Hpr HI.
    - lia.
    - rewrite propagate_S.
      assert (Hidlt : id < length g0) by (apply reach_lt; assumption).
      assert (Hlen : length g = length g0) by (apply (map_eq_length nc); exact Hnc).
      destruct (nth_error g id) as [nd|] eqn:Hnd; [| apply nth_error_None in Hnd; lia].
      simpl obind.
      destruct (map_eq_nth nc g g0 id nd Hnc Hnd) as (nd0 & Hnd0 & Hncnd).
      assert (Hch : n_children nd = n_children nd0) by (unfold nc in Hncnd; congruence).
      assert (Htk : tkn id = tks (n_children nd)).
      { unfold tkn. rewrite Hnd0, Hch. reflexivity. }
      rewrite Htk in HI.
      apply (pfold_ok f IHf); try assumption.
      intros e Hin Het.
      destruct (Hwf id nd0 Hnd0) as (Hlt & _). rewrite Hch in Hin.
      specialize (Hlt e Hin).
      assert (Hre : reach g0 r (e_node e)) by (eapply reach_step; eassumption).
      apply reach_le in Hrid. split; [lia |]. split; [exact Hre | lia].
  Qed.

  (** The consumer-count pass from a clean store: it only changes counts, the nodes with a
      positive count together with the root are exactly the reachable ones, the root's count
      stays 0 and every count is the number of tracked in-edges from reachable nodes. *)
  Theorem propagate_spec :
    clean g0 -> r < length g0 ->
    exists g1, propagate (S r) g0 r = Some g1 /\
      map nc g1 = map nc g0 /\
      (forall n, (0 < cnt g1 n \/ n = r) <-> reach g0 r n) /\
      cnt g1 r = 0 /\
      (forall m, cnt g1 m = indeg (pact g1) m).
  Proof.
    intros Hclean Hr.
    pose proof (clean_cnt g0 Hclean) as Hc0.
    assert (HI0 : PInv g0 (tkn r ++ [])).
    { intro m. rewrite app_nil_r, Hc0, <- mult_occ. simpl.
      unfold indeg. rewrite (wsum_split (length g0) _ r Hr).
      unfold pact at 1. rewrite Nat.eqb_refl, orb_true_r.
      rewrite wsum_zero; [lia |].
      intros n Hn. destruct (n =? r) eqn:Hnr; [reflexivity |].
      unfold pact. rewrite Hc0, Hnr. reflexivity. }
    assert (Hpr0 : PReach g0) by (intros n Hn; rewrite Hc0 in Hn; lia).
    destruct (propagate_ok (S r) g0 r [] (Nat.lt_succ_diag_r r) (reach_root g0 r) Hr
                           eq_refl Hpr0 HI0) as (g1 & Hp & Hnc1 & Hpr1 & HI1).
    exists g1. split; [exact Hp |]. split; [exact Hnc1 |].
    assert (HI1' : forall m, cnt g1 m = indeg (pact g1) m).
    { intro m. specialize (HI1 m). rewrite occ_nil in HI1. lia. }
    assert (Hact : forall n, reach g0 r n -> pact g1 n = true).
    { intros n H. induction H as [|m nd e Hrm IH Hn Hin Ht].
      - apply pact_true. right. reflexivity.
      - assert (Hte : tedge g0 m (e_node e)) by (exists nd, e; tauto).
        apply mult_pos_tedge in Hte.
        assert (Hm : m < length g0) by (eapply nth_lt; exact Hn).
        pose proof (indeg_ge (pact g1) m (e_node e) Hm IH) as Hge.
        rewrite <- HI1' in Hge. apply pact_true. lia. }
    assert (Hreach : forall n, (0 < cnt g1 n \/ n = r) <-> reach g0 r n).
    { intro n. split.
      - intros [H|H]; [apply Hpr1; exact H | subst n; apply reach_root].
      - intro H. apply pact_true, Hact, H. }
    split; [exact Hreach |]. split; [| exact HI1'].
    rewrite HI1'. apply indeg_zero. intros n Hn Ha.
    apply mult_zero_ge. apply reach_le. apply Hreach. apply pact_true. exact Ha.
  Qed.
End Graph.
