(** An invariant of program states ([Model/Program.v]) that holds initially and is
    preserved by every instruction, so that the engine theorems ([pass_spec], ...)
    apply at every backward pass of every history.

    [good s]: every node is structurally sound ([node_good]: children have smaller ids,
    the child list matches the closure attached to the node, no pass is in flight, the
    value is a well-formed array, a stored gradient is a well-formed array of the node's
    dimensions), and every live handle (pool, layer parameters, model output) points to a
    node.

    The preservation lemmas are proved together with any property [f code v cs] of the
    operation nodes (closure, value, values of the operands: [all_ops f]): a graph-building
    step keeps [opost] and [all_ops f] ([kept]) when [f] holds of the nodes it allocates.
    For the closures of [plain] that follows from [is_forward], which the step establishes;
    for the others it is asked of the caller ([fok], [op_fok], [instr_cond]).  [f := True]
    gives the invariant alone, [f := is_forward] value consistency ([Proofs/HistoryVC.v]);
    the side conditions of the closures are the instance of [Proofs/HistoryPre.v]. *)

From Coq Require Import List Arith Bool Lia PeanoNat.
From Corgi Require Import Lib.OptionMonad Lib.Sums Model.Scalar Model.Arr Model.SlicedOp
     Model.Elementwise Model.Linalg Model.Image Model.Ops Model.Engine Model.Program
     Proofs.ArrFacts Proofs.EngineDefs Proofs.EngineBase Proofs.Propagate Proofs.EngineInv
     Proofs.EnginePred Proofs.FlattenSpec Proofs.ConvSpec Proofs.OpsWf Proofs.FwdCode Proofs.StepView Proofs.ProgramFacts.
Import ListNotations.

(** [lia] after exposing the list element types ([handle] is [entry], [gnode] is [node ..]) *)
Ltac nlia := unfold handle, gnode in *; lia.

Lemma nth_error_snoc_inv : forall {A} (l : list A) x i y,
    nth_error (l ++ [x]) i = Some y ->
    (i < length l /\ nth_error l i = Some y) \/ (i = length l /\ y = x).
Proof.
  intros A l x i y H. destruct (lt_eq_lt_dec i (length l)) as [[Hlt | ->] | Hgt].
  - left. rewrite nth_error_app1 in H by exact Hlt. split; assumption.
  - right. rewrite nth_error_app2, Nat.sub_diag in H by lia. injection H as <-. split; reflexivity.
  - assert (Hn : nth_error (l ++ [x]) i = None)
      by (apply nth_error_None; rewrite app_length; simpl; lia).
    rewrite Hn in H. discriminate H.
Qed.

Section HistoryInv.
  Context {F : Type} (O : ScalarOps F).

  Local Notation pay := (@pay F).
  Local Notation gnode := (@gnode F).
  Local Notation state := (@state F).
  Local Notation instr := (@instr F).
  Local Notation opk := (@opk F).
  Local Notation E := (Program.E O).

  (** the child list fits the closure: its length is the closure's number of operands, and
      closures that ignore the flag only ever get tracked operands *)
  Definition node_ok' (bop : option (bop_code F)) (children : list handle) : Prop :=
    match bop with
    | None => children = []
    | Some c => length children = arity c /\
                (uncond c = true -> forall e, In e children -> e_tracked e = true)
    end.

  Definition node_ok (nd : gnode) : Prop := node_ok' (p_bop (n_pay nd)) (n_children nd).

  Definition grad_ok (p : pay) (x : arr F) : Prop := wf x /\ dims x = p_dims p.

  Definition node_good (id : nat) (nd : gnode) : Prop :=
    (forall e, In e (n_children nd) -> e_node e < id) /\
    node_ok nd /\
    n_count nd = 0 /\ n_delta nd = None /\
    wf (pay_arr (n_pay nd)) /\
    (forall x, n_grad nd = Some x -> grad_ok (n_pay nd) x).

  Definition store_good (g : list gnode) : Prop :=
    forall id nd, nth_error g id = Some nd -> node_good id nd.

  Definition hvalid (g : list gnode) (h : handle) : Prop := e_node h < length g.

  Definition rvalid (s : state) : Prop := forall h, In h (roots s) -> hvalid (st_nodes s) h.

  Definition good (s : state) : Prop := store_good (st_nodes s) /\ rvalid s.

  Section NodeGood.
    Variables (g : list gnode) (id : nat) (nd : gnode).
    Hypotheses (Hg : store_good g) (Hnd : nth_error g id = Some nd).

    Lemma store_good_child : forall e, In e (n_children nd) -> e_node e < id.
    Proof. exact (proj1 (Hg id nd Hnd)). Qed.

    Lemma store_good_arity : forall code,
        p_bop (n_pay nd) = Some code -> length (n_children nd) = arity code.
    Proof.
      intros code Hb. destruct (Hg id nd Hnd) as (_ & Hok & _).
      unfold node_ok, node_ok' in Hok. rewrite Hb in Hok. exact (proj1 Hok).
    Qed.

    Lemma store_good_leaf : p_bop (n_pay nd) = None -> n_children nd = [].
    Proof.
      intro Hb. destruct (Hg id nd Hnd) as (_ & Hok & _).
      unfold node_ok, node_ok' in Hok. rewrite Hb in Hok. exact Hok.
    Qed.

    Lemma store_good_val : wf (pay_arr (n_pay nd)).
    Proof. destruct (Hg id nd Hnd) as (_ & _ & _ & _ & Hw & _). exact Hw. Qed.

    Lemma store_good_grad : forall x, n_grad nd = Some x -> grad_ok (n_pay nd) x.
    Proof. destruct (Hg id nd Hnd) as (_ & _ & _ & _ & _ & Hgr). exact Hgr. Qed.
  End NodeGood.

  Lemma store_good_wfg : forall g, store_good g -> wfg E g.
  Proof.
    intros g Hg id nd Hnd. destruct (Hg id nd Hnd) as (Hlt & Hok & _). split; [exact Hlt |].
    unfold hasop, node_ok, node_ok' in *. simpl.
    destruct (p_bop (n_pay nd)); [discriminate | intros _; exact Hok].
  Qed.

  Lemma store_good_clean : forall g, store_good g -> clean g.
  Proof. intros g Hg id nd Hnd. destruct (Hg id nd Hnd) as (_ & _ & Hc & Hd & _). tauto. Qed.

  Lemma store_good_contract : forall g, store_good g -> bop_contract E g.
  Proof.
    intros g Hg id nd pays delta ds Hnd H.
    destruct (Hg id nd Hnd) as (_ & Hok & _). unfold node_ok, node_ok' in Hok.
    simpl in H. revert H. apply obind_elim. intros code Hcode H.
    rewrite Hcode in Hok. destruct Hok as [Hlen Hun].
    apply run_bop_contract in H. destruct H as [Hl Hf].
    unfold handle in *. split; [lia |].
    intros i e He.
    assert (Hi : i < arity code) by (rewrite <- Hlen; apply nth_error_Some; rewrite He; discriminate).
    assert (Hfl : flag (map e_tracked (n_children nd)) i = e_tracked e).
    { unfold flag. rewrite (nth_error_nth (map e_tracked (n_children nd)) i false (x := e_tracked e));
        [reflexivity |]. rewrite nth_error_map, He. reflexivity. }
    specialize (Hf i Hi). unfold filled in Hf. rewrite Hfl in Hf. rewrite Hf. split.
    - intro Ht. right. exact Ht.
    - intros [Hu | Ht]; [| exact Ht]. apply (Hun Hu). eapply nth_error_In. exact He.
  Qed.

  Theorem good_gives : forall s,
      good s ->
      wfg E (st_nodes s) /\ clean (st_nodes s) /\ bop_contract E (st_nodes s) /\
      (forall id nd, nth_error (st_nodes s) id = Some nd ->
                     wf (pay_arr (n_pay nd)) /\
                     (forall x, n_grad nd = Some x -> wf x /\ dims x = p_dims (n_pay nd))) /\
      (forall h, In h (roots s) -> exists nd, nth_error (st_nodes s) (e_node h) = Some nd).
  Proof.
    intros s [Hg Hr].
    split; [apply store_good_wfg; exact Hg |].
    split; [apply store_good_clean; exact Hg |].
    split; [apply store_good_contract; exact Hg |].
    split.
    - intros id nd Hnd. destruct (Hg id nd Hnd) as (_ & _ & _ & _ & Hw & Hgr). split; [exact Hw | exact Hgr].
    - intros h Hh. specialize (Hr h Hh). unfold hvalid in Hr.
      destruct (nth_error (st_nodes s) (e_node h)) as [nd|] eqn:Hn; [exists nd; reflexivity |].
      apply nth_error_None in Hn. nlia.
  Qed.

  Definition ext (s s' : state) : Prop := exists extra, s' = with_nodes s (st_nodes s ++ extra).

  Lemma ext_refl : forall s, ext s s.
  Proof. intro s. exists []. rewrite app_nil_r. destruct s; reflexivity. Qed.

  Lemma ext_trans : forall s1 s2 s3, ext s1 s2 -> ext s2 s3 -> ext s1 s3.
  Proof.
    intros s1 s2 s3 [x1 H1] [x2 H2]. exists (x1 ++ x2). subst s2 s3. simpl.
    rewrite app_assoc. reflexivity.
  Qed.

  Lemma ext_len : forall s s', ext s s' -> length (st_nodes s) <= length (st_nodes s').
  Proof. intros s s' [x H]. subst s'. simpl. rewrite app_length. lia. Qed.

  Lemma ext_roots : forall s s', ext s s' -> roots s' = roots s.
  Proof. intros s s' [x H]. subst s'. reflexivity. Qed.

  Lemma ext_old : forall s s' id,
      ext s s' -> id < length (st_nodes s) ->
      nth_error (st_nodes s') id = nth_error (st_nodes s) id.
  Proof. intros s s' id [x H] Hid. subst s'. simpl. apply nth_error_app1. exact Hid. Qed.

  Lemma ext_fields : forall s s',
      ext s s' ->
      st_pool s' = st_pool s /\ st_layers s' = st_layers s /\ st_cost s' = st_cost s /\
      st_lr s' = st_lr s /\ st_output s' = st_output s /\ st_tag s' = st_tag s.
  Proof. intros s s' [x H]. subst s'. simpl. tauto. Qed.

  Lemma hvalid_ext : forall s s' h, ext s s' -> hvalid (st_nodes s) h -> hvalid (st_nodes s') h.
  Proof. intros s s' h Hx Hh. apply ext_len in Hx. unfold hvalid in *. lia. Qed.

  Lemma rvalid_ext : forall s s', ext s s' -> rvalid s -> rvalid s'.
  Proof.
    intros s s' Hx Hr h Hh. rewrite (ext_roots s s' Hx) in Hh.
    eapply hvalid_ext; [exact Hx | apply Hr; exact Hh].
  Qed.

  Lemma store_good_app : forall g nd,
      store_good g -> node_good (length g) nd -> store_good (g ++ [nd]).
  Proof.
    intros g nd Hg Hnd id x Hx. apply nth_error_snoc_inv in Hx.
    destruct Hx as [[_ Hx] | [-> ->]]; [exact (Hg id x Hx) | exact Hnd].
  Qed.

  Lemma h_node_good : forall s h nd,
      store_good (st_nodes s) -> h_node s h = Some nd ->
      node_good (e_node h) nd /\ hvalid (st_nodes s) h.
  Proof.
    intros s h nd Hg H. unfold h_node in H. split; [apply (Hg _ nd H) |].
    unfold hvalid. apply nth_error_Some. rewrite H. discriminate.
  Qed.

  Lemma h_arr_inv : forall (s : state) h (a : arr F),
      h_arr s h = Some a -> exists nd, h_node s h = Some nd /\ a = pay_arr (n_pay nd).
  Proof.
    intros s h a H. unfold h_arr in H. revert H. apply obind_elim. intros nd Hnd H.
    injection H as H. exists nd. split; [exact Hnd | symmetry; exact H].
  Qed.

  Lemma h_arr_wf : forall s h a, store_good (st_nodes s) -> h_arr s h = Some a -> wf a.
  Proof.
    intros s h a Hg H. apply h_arr_inv in H. destruct H as (nd & Hnd & Ha). subst a.
    destruct (h_node_good s h nd Hg Hnd) as [(_ & _ & _ & _ & Hw & _) _]. exact Hw.
  Qed.

  Lemma h_arr_ext : forall (s s' : state) h,
      ext s s' -> hvalid (st_nodes s) h -> h_arr s' h = h_arr s h.
  Proof.
    intros s s' h Hx Hh. unfold h_arr, h_node. rewrite (ext_old s s' _ Hx Hh). reflexivity.
  Qed.

  (** result of a graph-building operation started in [s] *)
  Definition opost (s : state) (r : state * handle) : Prop :=
    ext s (fst r) /\ store_good (st_nodes (fst r)) /\ hvalid (st_nodes (fst r)) (snd r).

  Lemma wf_ones : forall p : pay, wf (pay_arr p) -> grad_ok p (eo_ones E p).
  Proof.
    intros p [H1 H2]. cbn [pay_arr dims vals] in *. split; [| reflexivity].
    split; cbn [eo_ones Program.E dims vals]; [exact H1 | rewrite repeat_length; exact H2].
  Qed.

  Lemma store_good_vinv : forall g,
      store_good g -> VInv (fun p : pay => wf (pay_arr p)) grad_ok g.
  Proof.
    intros g Hg id nd Hnd. destruct (Hg id nd Hnd) as (_ & _ & _ & Hd & Hw & Hgr).
    split; [exact Hw |]. split; [| exact Hgr]. intros x Hx. rewrite Hd in Hx. discriminate Hx.
  Qed.

  Lemma pass_skel : forall (g : list gnode) r keep seed g' log,
      store_good g -> r < length g -> run_backward E g r keep seed = Some (g', log) ->
      length g' = length g /\
      forall id nd nd', nth_error g id = Some nd -> nth_error g' id = Some nd' ->
                        n_pay nd' = n_pay nd /\ n_children nd' = n_children nd.
  Proof.
    intros g r keep seed g' log Hg Hr Hrun.
    destruct (pass_spec E g r keep seed g' log (store_good_wfg g Hg) (store_good_clean g Hg)
                        (store_good_contract g Hg) Hr Hrun) as (_ & Hlen & Hskel & _).
    split; assumption.
  Qed.

  (** the acceptable adjoints [grad_ok] are closed under what a pass does with them *)
  Lemma bop_out_wf : forall (p : pay) pays saved x ds i d,
      wf x -> eo_bop E p pays saved x = Some ds -> nth_error ds i = Some (Some d) -> wf d.
  Proof.
    intros p pays saved x ds i d Hx Hds Hi. cbn [eo_bop Program.E] in Hds.
    revert Hds. apply obind_elim. intros code _ Hds.
    exact (run_bop_wf O code _ _ x ds Hx Hds i d Hi).
  Qed.

  Lemma flat_grad_ok : forall d (p : pay) d', wf d -> eo_flat E d p = Some d' -> grad_ok p d'.
  Proof. intros d p d' Hd H. exact (flatten_to_shape O d d' _ Hd H). Qed.

  Lemma add_grad_ok : forall (p : pay) x y z,
      grad_ok p x -> grad_ok p y -> eo_add E x y = Some z -> grad_ok p z.
  Proof.
    intros p x y z [Hwx Hdx] [Hwy Hdy] Hz. cbn [eo_add Program.E] in Hz.
    destruct (a_add_same O x y z) as [Hwz Hdz]; [congruence | exact Hz |].
    split; [exact Hwz | congruence].
  Qed.

  Theorem pass_good : forall (g : list gnode) r keep seed g' log,
      store_good g -> r < length g ->
      (forall sd nd, seed = Some sd -> nth_error g r = Some nd -> grad_ok (n_pay nd) sd) ->
      run_backward E g r keep seed = Some (g', log) ->
      store_good g' /\ length g' = length g.
  Proof.
    intros g r keep seed g' log Hg Hr Hseed Hrun.
    destruct (pass_spec E g r keep seed g' log (store_good_wfg g Hg) (store_good_clean g Hg)
                        (store_good_contract g Hg) Hr Hrun) as (Hclean & Hlen & Hskel & _).
    destruct (run_backward_vinv E (fun p : pay => wf (pay_arr p)) (@wf F) grad_ok
                                (fun p x H => proj1 H) wf_ones bop_out_wf flat_grad_ok add_grad_ok
                                g r keep seed g' log (store_good_vinv g Hg) Hseed Hrun) as (HV & _).
    split; [| exact Hlen].
    intros id nd' Hnd'.
    assert (Hid : id < length g) by (apply nth_lt in Hnd'; nlia).
    destruct (nth_error g id) as [nd|] eqn:Hnd; [| apply nth_error_None in Hnd; nlia].
    destruct (Hskel id nd nd' Hnd Hnd') as [Hp Hc].
    destruct (Hg id nd Hnd) as (Hlt & Hok & _ & _ & Hw & _).
    destruct (Hclean id nd' Hnd') as [Hc0 Hd0].
    destruct (HV id nd' Hnd') as (_ & _ & Hgr').
    rewrite Hp in Hgr'. unfold node_good, node_ok in *. rewrite Hp, Hc. tauto.
  Qed.

  Lemma store_good_put : forall (g : list gnode) id nd' g',
      store_good g -> put g id nd' = Some g' -> node_good id nd' -> store_good g'.
  Proof.
    intros g id nd' g' Hg Hput Hnd' j x Hx.
    apply put_inv in Hput. destruct Hput as (_ & _ & Hn). rewrite Hn in Hx.
    destruct (j =? id) eqn:Hj.
    - apply Nat.eqb_eq in Hj. subst j. injection Hx as Hx. subst x. exact Hnd'.
    - apply (Hg j x Hx).
  Qed.

  Definition grow (s s' : state) : Prop :=
    length (st_nodes s) <= length (st_nodes s') /\
    st_pool s' = st_pool s /\ st_layers s' = st_layers s /\ st_output s' = st_output s.

  Lemma grow_refl : forall s, grow s s.
  Proof. intro s. unfold grow. split; [apply le_n | tauto]. Qed.

  Lemma grow_trans : forall s1 s2 s3, grow s1 s2 -> grow s2 s3 -> grow s1 s3.
  Proof.
    intros s1 s2 s3 (H1 & H2 & H3 & H4) (K1 & K2 & K3 & K4). unfold grow.
    split; [nlia |]. split; [congruence |]. split; congruence.
  Qed.

  Lemma ext_grow : forall s s', ext s s' -> grow s s'.
  Proof.
    intros s s' Hx. pose proof (ext_len s s' Hx) as Hl.
    destruct (ext_fields s s' Hx) as (H1 & H2 & _ & _ & H5 & _). unfold grow. tauto.
  Qed.

  Lemma grow_roots : forall s s', grow s s' -> roots s' = roots s.
  Proof. intros s s' (_ & H2 & H3 & H4). unfold roots. rewrite H2, H3, H4. reflexivity. Qed.

  Lemma hvalid_grow : forall s s' h, grow s s' -> hvalid (st_nodes s) h -> hvalid (st_nodes s') h.
  Proof. intros s s' h (Hl & _) Hh. unfold hvalid in *. nlia. Qed.

  Lemma rvalid_grow : forall s s', grow s s' -> rvalid s -> rvalid s'.
  Proof.
    intros s s' Hgr Hr h Hh. rewrite (grow_roots s s' Hgr) in Hh.
    eapply hvalid_grow; [exact Hgr | apply Hr; exact Hh].
  Qed.

  Definition gd_step (acc : option (state * list F * list handle)) (p : handle * bool)
    : option (state * list F * list handle) :=
    st <- acc ;;
    let '(s', buf', out) := st in
    let h := fst p in
    if snd p then Some (s', buf', out ++ [h])
    else
      a <- h_arr s' h ;;
      let n := length (vals a) in
      check (n <=? length buf') ;;
      na <- mk (dims a) (firstn n buf') ;;
      let '(s'', h') := alloc s' na [] None None in
      Some (s'', skipn n buf', out ++ [mkh (e_node h') true true]).

  Lemma in_roots : forall (s : state) h,
      In h (roots s) <->
      (In (Some h) (st_pool s) \/
       (exists l, In l (st_layers s) /\ (h = l_w l \/ h = l_b l)) \/
       st_output s = Some h).
  Proof.
    intros s h. unfold roots. rewrite !in_app_iff, !in_flat_map. split.
    - intros [(o & Ho & Hin) | [(l & Hl & Hin) | Hin]].
      + left. destruct o as [h'|]; [| destruct Hin]. destruct Hin as [Hin | []]. subst h'. exact Ho.
      + right. left. exists l. split; [exact Hl |]. destruct Hin as [Hin | [Hin | []]]; auto.
      + right. right. destruct (st_output s) as [h'|]; [| destruct Hin].
        destruct Hin as [Hin | []]. subst h'. reflexivity.
    - intros [Hp | [(l & Hl & Hin) | Ho]].
      + left. exists (Some h). split; [exact Hp | left; reflexivity].
      + right. left. exists l. split; [exact Hl |]. destruct Hin as [Hin | Hin]; subst h; simpl; auto.
      + right. right. rewrite Ho. left. reflexivity.
  Qed.

  Lemma var_valid : forall s i h, rvalid s -> var s i = Some h -> hvalid (st_nodes s) h.
  Proof.
    intros s i h Hr H. unfold var in H. revert H. apply obind_elim. intros o Ho H.
    subst o. apply Hr. apply in_roots. left. eapply nth_error_In. exact Ho.
  Qed.

  Lemma mapM_var_valid : forall s args hs,
      rvalid s -> mapM (var s) args = Some hs -> forall h, In h hs -> hvalid (st_nodes s) h.
  Proof.
    intros s args. induction args as [|i args IH]; intros hs Hr H h Hin.
    - injection H as H. subst hs. destruct Hin.
    - simpl in H. revert H. apply obind_elim. intros x Hx H.
      revert H. apply obind_elim. intros xs Hxs H. injection H as H. subst hs.
      destruct Hin as [Hin | Hin].
      + subst h. eapply var_valid; eassumption.
      + eapply IH; eassumption.
  Qed.

  Lemma good_with_tag : forall s t, good s -> good (with_tag s t).
  Proof. intros s t H. exact H. Qed.

  Lemma rvalid_push : forall s o,
      rvalid s -> (forall h, o = Some h -> hvalid (st_nodes s) h) -> rvalid (push s o).
  Proof.
    intros s o Hr Ho h Hh. apply in_roots in Hh.
    cbn [push with_pool st_pool st_layers st_output st_nodes] in *.
    destruct Hh as [Hp | Hrest].
    - apply in_app_or in Hp. destruct Hp as [Hp | [Hp | []]].
      + apply Hr. apply in_roots. left. exact Hp.
      + apply Ho. exact Hp.
    - apply Hr. apply in_roots. right. exact Hrest.
  Qed.

  Lemma good_push : forall s o,
      good s -> (forall h, o = Some h -> hvalid (st_nodes s) h) -> good (push s o).
  Proof. intros s o [Hg Hr] Ho. split; [exact Hg | apply rvalid_push; assumption]. Qed.

  Lemma in_firstn_in : forall {A} n (l : list A) y, In y (firstn n l) -> In y l.
  Proof. intros A n l y H. rewrite <- (firstn_skipn n l). apply in_or_app. left. exact H. Qed.

  Lemma in_skipn_in : forall {A} n (l : list A) y, In y (skipn n l) -> In y l.
  Proof. intros A n l y H. rewrite <- (firstn_skipn n l). apply in_or_app. right. exact H. Qed.

  Lemma in_set_nth : forall {A} i (x : A) l l' y,
      set_nth i x l = Some l' -> In y l' -> In y l \/ y = x.
  Proof.
    intros A i x l l' y H Hin. unfold set_nth in H.
    destruct (i <? length l); [| discriminate H]. injection H as H. subst l'.
    apply in_app_or in Hin. destruct Hin as [Hin | [Hin | Hin]].
    - left. eapply (in_firstn_in i). exact Hin.
    - right. symmetry. exact Hin.
    - left. eapply (in_skipn_in (S i)). exact Hin.
  Qed.

  Lemma set_var_good : forall s i o s',
      good s -> (forall h, o = Some h -> hvalid (st_nodes s) h) ->
      set_var s i o = Some s' -> good s' /\ st_nodes s' = st_nodes s.
  Proof.
    intros s i o s' [Hg Hr] Ho H. unfold set_var in H.
    revert H. apply obind_elim. intros p Hp H. injection H as H. subst s'.
    split; [| reflexivity]. split; [exact Hg |].
    intros h Hh. apply in_roots in Hh.
    cbn [with_pool st_pool st_layers st_output st_nodes] in *.
    destruct Hh as [Hin | Hrest].
    - destruct (in_set_nth i o _ p (Some h) Hp Hin) as [Hold | Hnew].
      + apply Hr. apply in_roots. left. exact Hold.
      + apply Ho. symmetry. exact Hnew.
    - apply Hr. apply in_roots. right. exact Hrest.
  Qed.

  Lemma good_with_nodes : forall s g',
      good s -> store_good g' -> length g' = length (st_nodes s) -> good (with_nodes s g').
  Proof.
    intros s g' [Hg Hr] Hg' Hl. split; [exact Hg' |].
    intros h Hh. specialize (Hr h Hh). unfold hvalid in *. cbn [with_nodes st_nodes]. nlia.
  Qed.

  Definition lvalid (g : list gnode) (l : layer) : Prop := hvalid g (l_w l) /\ hvalid g (l_b l).

  Lemma rvalid_layers : forall s l, rvalid s -> In l (st_layers s) -> lvalid (st_nodes s) l.
  Proof.
    intros s l Hr Hl. split; apply Hr; apply in_roots; right; left; exists l; auto.
  Qed.

  Lemma rebuild_valid : forall (g : list gnode) ls hs,
      (forall l, In l ls -> lvalid g l) -> (forall h, In h hs -> hvalid g h) ->
      forall l, In l (rebuild_layers ls hs) -> lvalid g l.
  Proof.
    intros g ls. induction ls as [|l0 ls IH]; intros hs Hls Hhs l Hl.
    - destruct Hl.
    - cbn [rebuild_layers] in Hl. destruct hs as [|w [|b hs]].
      + apply Hls. exact Hl.
      + apply Hls. exact Hl.
      + destruct Hl as [Hl | Hl].
        * subst l. split; cbn [l_w l_b]; apply Hhs; simpl; tauto.
        * apply (IH hs); [| | exact Hl].
          -- intros l1 Hl1. apply Hls. right. exact Hl1.
          -- intros h Hh. apply Hhs. right. right. exact Hh.
  Qed.

  Lemma rvalid_intro : forall s : state,
      (forall h, In (Some h) (st_pool s) -> hvalid (st_nodes s) h) ->
      (forall l, In l (st_layers s) -> lvalid (st_nodes s) l) ->
      (forall h, st_output s = Some h -> hvalid (st_nodes s) h) ->
      rvalid s.
  Proof.
    intros s Hp Hl Ho h Hh. apply in_roots in Hh.
    destruct Hh as [Hh | [(l & Hin & Hh) | Hh]].
    - apply Hp. exact Hh.
    - destruct (Hl l Hin) as [Hw Hb]. destruct Hh; subst h; assumption.
    - apply Ho. exact Hh.
  Qed.

  Lemma rvalid_pool : forall s h, rvalid s -> In (Some h) (st_pool s) -> hvalid (st_nodes s) h.
  Proof. intros s h Hr Hin. apply Hr. apply in_roots. left. exact Hin. Qed.

  Lemma rvalid_output : forall s h, rvalid s -> st_output s = Some h -> hvalid (st_nodes s) h.
  Proof. intros s h Hr Hin. apply Hr. apply in_roots. right. right. exact Hin. Qed.

  Lemma model_params_valid : forall s : state,
      rvalid s -> forall h, In h (model_params s) -> hvalid (st_nodes s) h.
  Proof.
    intros s Hr h Hh. unfold model_params in Hh. apply in_flat_map in Hh.
    destruct Hh as (l & Hl & Hh). destruct (rvalid_layers s l Hr Hl) as [Ha Hb].
    destruct Hh as [<- | [<- | []]]; assumption.
  Qed.

  (** the handles stay valid when the store grows under the same pool and the layers and the
      output, possibly new, point into the new store *)
  Lemma rvalid_regrown : forall s s' : state,
      rvalid s -> length (st_nodes s) <= length (st_nodes s') -> st_pool s' = st_pool s ->
      (forall l, In l (st_layers s') -> lvalid (st_nodes s') l) ->
      (forall h, st_output s' = Some h -> hvalid (st_nodes s') h) ->
      rvalid s'.
  Proof.
    intros s s' Hr Hlen Hpool Hl Ho. apply rvalid_intro; [| exact Hl | exact Ho].
    intros h Hh. rewrite Hpool in Hh. pose proof (rvalid_pool s h Hr Hh) as Hv.
    unfold hvalid in *. nlia.
  Qed.

  Lemma lvalid_le : forall (g g' : list gnode) l, length g <= length g' -> lvalid g l -> lvalid g' l.
  Proof. intros g g' l Hlen [Hw Hb]. unfold lvalid, hvalid in *. split; nlia. Qed.

  Lemma fold_set_var_good : forall ps s1 s2,
      good s1 -> (forall p, In p ps -> hvalid (st_nodes s1) (snd p)) ->
      fold_left (fun (acc : option state) (p : nat * handle) =>
                   st <- acc ;; set_var st (fst p) (Some (snd p))) ps (Some s1) = Some s2 ->
      good s2.
  Proof.
    intro ps. induction ps as [|[i h] ps IH]; intros s1 s2 Hgd Hps H.
    - injection H as H. subst s2. exact Hgd.
    - cbn [fold_left obind fst snd] in H.
      destruct (set_var s1 i (Some h)) as [s3|] eqn:Hsv;
        [| rewrite fold_left_none in H by (intro b; reflexivity); discriminate H].
      destruct (set_var_good s1 i (Some h) s3 Hgd) as [Hgd3 Hn3]; [| exact Hsv |].
      + intros h0 Hh0. injection Hh0 as Hh0. subst h0. apply (Hps (i, h)). left. reflexivity.
      + apply (IH s3 s2 Hgd3); [| exact H].
        intros p Hp. rewrite Hn3. apply Hps. right. exact Hp.
  Qed.

  (** an explicit seed must have the dimensions of the node it is given to (corgi does not
      check this; a wrong-shaped seed is outside every property) *)
  Definition seed_ok (s : state) (i : instr) : Prop :=
    match i with
    | IBackward h (Some (d, v)) =>
      forall x nd, var s h = Some x -> h_node s x = Some nd -> d = p_dims (n_pay nd)
    | _ => True
    end.

  Theorem good_init : good (init_state O).
  Proof.
    split.
    - intros id nd H. destruct id; discriminate H.
    - intros h H. destruct H.
  Qed.

  (** [v] is what the operation of the closure [code] computes from [cs], and the data the
      closure captured fit (the body of [FwdCode.node_vc]) *)
  Definition is_forward (code : bop_code F) (v : arr F) (cs : list (arr F)) : Prop :=
    code_fits code cs v /\
    (fwd_of_code O (fun s => s) code (dims v) cs = Some v \/ matmul_nobias O code cs v).

  (** [f code v cs] holds at every operation node: closure, value, values of the operands *)
  Definition all_ops (f : bop_code F -> arr F -> list (arr F) -> Prop) (g : list gnode) : Prop :=
    forall id nd, nth_error g id = Some nd ->
                  match p_bop (n_pay nd) with
                  | None => True
                  | Some code => f code (pay_arr (n_pay nd)) (cvals g (n_children nd))
                  end.

  Lemma cvals_app : forall (g x : list gnode) es,
      (forall e, In e es -> hvalid g e) -> cvals (g ++ x) es = cvals g es.
  Proof.
    intros g x es H. unfold cvals. apply map_ext_in. intros e He. unfold nval.
    rewrite nth_error_app1 by exact (H e He). reflexivity.
  Qed.

  Lemma h_arr_nval : forall (s : state) h a, h_arr s h = Some a -> nval (st_nodes s) (e_node h) = a.
  Proof.
    intros s h a H. apply h_arr_inv in H. destruct H as (nd & Hnd & ->).
    unfold h_node in Hnd. unfold nval. rewrite Hnd. reflexivity.
  Qed.

  Lemma nval_ext : forall (s s1 : state) h a,
      ext s s1 -> hvalid (st_nodes s) h -> h_arr s h = Some a -> nval (st_nodes s1) (e_node h) = a.
  Proof.
    intros s s1 h a Hx Hh Ha. apply h_arr_nval. rewrite (h_arr_ext s s1 h Hx Hh). exact Ha.
  Qed.

  Lemma mapM_h_arr : forall (s : state) hs args,
      mapM (h_arr s) hs = Some args -> cvals (st_nodes s) hs = args /\ length args = length hs.
  Proof.
    intros s hs. induction hs as [|h hs IH]; intros args H.
    - injection H as <-. split; reflexivity.
    - cbn [mapM] in H. revert H. apply obind_elim. intros y Hy H.
      revert H. apply obind_elim. intros ys Hys H. injection H as <-.
      destruct (IH ys Hys) as [Hc Hl]. cbn [cvals map length].
      rewrite (h_arr_nval s h y Hy). fold (cvals (st_nodes s) hs). rewrite Hc, Hl. split; reflexivity.
  Qed.

  Lemma all_ops_snoc : forall f (g : list gnode) nd,
      store_good g -> all_ops f g -> (forall e, In e (n_children nd) -> hvalid g e) ->
      (forall code, p_bop (n_pay nd) = Some code ->
                    f code (pay_arr (n_pay nd)) (cvals g (n_children nd))) ->
      all_ops f (g ++ [nd]).
  Proof.
    intros f g nd Hg Ha Hch Hnew id x Hx. apply nth_error_snoc_inv in Hx.
    destruct Hx as [[Hlt Hx] | [-> ->]].
    - rewrite cvals_app; [exact (Ha id x Hx) |].
      intros e He. pose proof (store_good_child g id x Hg Hx e He). unfold hvalid. lia.
    - rewrite cvals_app by exact Hch.
      destruct (p_bop (n_pay nd)) as [code|] eqn:Hb; [exact (Hnew code eq_refl) | exact I].
  Qed.

  Lemma all_ops_skel : forall f (g g' : list gnode),
      length g' = length g ->
      (forall id nd nd', nth_error g id = Some nd -> nth_error g' id = Some nd' ->
                         n_pay nd' = n_pay nd /\ n_children nd' = n_children nd) ->
      all_ops f g -> all_ops f g'.
  Proof.
    intros f g g' Hl Hsk Ha.
    assert (Hnv : forall id, nval g' id = nval g id).
    { intro id. unfold nval.
      destruct (nth_error g id) as [nd|] eqn:Hn; destruct (nth_error g' id) as [nd'|] eqn:Hn'.
      - destruct (Hsk id nd nd' Hn Hn') as [Hp _]. rewrite Hp. reflexivity.
      - apply nth_error_None in Hn'. apply nth_lt in Hn. nlia.
      - apply nth_error_None in Hn. apply nth_lt in Hn'. nlia.
      - reflexivity. }
    intros id nd' Hnd'.
    assert (Hid : id < length g) by (apply nth_lt in Hnd'; nlia).
    destruct (nth_error g id) as [nd|] eqn:Hnd; [| apply nth_error_None in Hnd; nlia].
    destruct (Hsk id nd nd' Hnd Hnd') as [Hp Hc]. rewrite Hp, Hc.
    replace (cvals g' (n_children nd)) with (cvals g (n_children nd))
      by (symmetry; apply map_ext; intro e; apply Hnv).
    exact (Ha id nd Hnd).
  Qed.

  (** the closures whose side conditions and value equation need nothing beyond the success of
      the forward operation *)
  Definition plain (code : bop_code F) : bool :=
    match code with
    | BAdd | BMul | BDiv | BNeg | BScale _ | BRecip | BPowf _ | BLn | BExp _ | BReshape | BRelu
    | BSigmoid _ => true
    | _ => false
    end.

  Lemma unary_op_spec : forall k fwd code a c,
      unary_op O k fwd code -> fwd a = Some c ->
      wf c /\ plain (code c) = true /\ arity (code c) = 1 /\ is_forward (code c) c [a].
  Proof.
    intros k fwd code a c Hu Hc.
    destruct Hu; (split; [exact (proj1 (map_arr_wf _ _ _ Hc)) |]);
      (split; [reflexivity |]); (split; [reflexivity |]);
      (split; [cbn [code_fits]; trivial | left; exact Hc]).
  Qed.

  Lemma binary_op_spec : forall k fwd code a b c,
      binary_op O k fwd code -> fwd a b = Some c ->
      wf c /\ plain code = true /\ arity code = 2 /\ uncond code = false /\ is_forward code c [a; b].
  Proof.
    intros k fwd code a b c Hb Hc.
    destruct Hb; (split; [exact (element_wise_op_wf O _ _ _ _ Hc) |]);
      (split; [reflexivity |]); (split; [reflexivity |]); (split; [reflexivity |]);
      (split; [exact I | left; exact Hc]).
  Qed.

  (** given what is asked of [apply_op s k hs], what is asked of an activation, a layer, the
      layers of a model, an instruction *)
  Section Conditions.
    Variable opc : state -> opk -> list handle -> Prop.

    Definition act_cond (s : state) (a : Program.act) (h : handle) : Prop :=
      match a with
      | ASoftmax => opc s OSoftmax [h]
      | _ => True
      end.

    Definition layer_cond (s : state) (l : layer) (input : handle) : Prop :=
      match l_conv l with
      | None =>
        opc s (OMatmul false true) [input; l_w l; l_b l] /\
        (forall s1 h1, op_matmul O s false true input (l_w l) (Some (l_b l)) = Some (s1, h1) ->
                       act_cond s1 (l_act l) h1)
      | Some (sr, sc) =>
        opc s (OConv sr sc) [input; l_w l] /\
        (forall s1 hc s2 h2, op_conv O s sr sc input (l_w l) = Some (s1, hc) ->
                             op_add O s1 hc (l_b l) = Some (s2, h2) -> act_cond s2 (l_act l) h2)
      end.

    Fixpoint layers_cond (s : state) (ls : list layer) (h : handle) : Prop :=
      match ls with
      | [] => True
      | l :: ls' => layer_cond s l h /\
                    forall s1 h1, layer_forward O s l h = Some (s1, h1) -> layers_cond s1 ls' h1
      end.

    Definition instr_cond (s0 : state) (i : instr) : Prop :=
      let s := with_tag s0 (length (st_pool s0)) in
      match i with
      | IOp k args => forall hs, mapM (var s) args = Some hs -> opc s k hs
      | IForward h => forall x, var s h = Some x -> layers_cond s (st_layers s) x
      | _ => True
      end.
  End Conditions.

  Section ConditionsMono.
    Variables opc opc' : state -> opk -> list handle -> Prop.
    Hypothesis Hopc : forall s k hs, opc s k hs -> opc' s k hs.

    Lemma act_cond_mono : forall s a h, act_cond opc s a h -> act_cond opc' s a h.
    Proof. intros s a h H. destruct a; try exact I. exact (Hopc _ _ _ H). Qed.

    Lemma layer_cond_mono : forall s l h, layer_cond opc s l h -> layer_cond opc' s l h.
    Proof.
      intros s l h H. unfold layer_cond in *. destruct (l_conv l) as [[sr sc]|]; destruct H as [H1 H2].
      - split; [exact (Hopc _ _ _ H1) |]. intros s1 hc s2 h2 E1 E2. apply act_cond_mono. eauto.
      - split; [exact (Hopc _ _ _ H1) |]. intros s1 h1 E1. apply act_cond_mono. eauto.
    Qed.

    Lemma layers_cond_mono : forall ls s h, layers_cond opc s ls h -> layers_cond opc' s ls h.
    Proof.
      intro ls. induction ls as [|l ls IH]; intros s h H; [exact I |].
      destruct H as [H1 H2]. split; [exact (layer_cond_mono s l h H1) |].
      intros s1 h1 E. apply IH. exact (H2 s1 h1 E).
    Qed.

    Lemma instr_cond_mono : forall s0 i, instr_cond opc s0 i -> instr_cond opc' s0 i.
    Proof.
      intros s0 i H. unfold instr_cond in *. destruct i; try exact I.
      - intros hs Hhs. exact (Hopc _ _ _ (H hs Hhs)).
      - intros x Hx. apply layers_cond_mono. exact (H x Hx).
    Qed.
  End ConditionsMono.

  Section ConditionsAll.
    Variable opc : state -> opk -> list handle -> Prop.
    Hypothesis Hall : forall s k hs, opc s k hs.

    Lemma layers_cond_all : forall ls s h, layers_cond opc s ls h.
    Proof.
      intro ls. induction ls as [|l ls IH]; intros s h; [exact I |]. split; [| intros; apply IH].
      unfold layer_cond, act_cond.
      destruct (l_conv l) as [[sr sc]|]; (split; [apply Hall |]); intros;
        destruct (l_act l); try exact I; apply Hall.
    Qed.

    Lemma instr_cond_all : forall s0 i, instr_cond opc s0 i.
    Proof.
      intros s0 i. unfold instr_cond. destruct i; try exact I; intros; [apply Hall | apply layers_cond_all].
    Qed.
  End ConditionsAll.

  Section Ladder.
    Variable f : bop_code F -> arr F -> list (arr F) -> Prop.

    (** what is asked of [f] at a node about to be allocated *)
    Definition fok (code : bop_code F) (v : arr F) (cs : list (arr F)) : Prop :=
      is_forward code v cs -> f code v cs.

    Local Notation ops := (all_ops f).

    (** result of a graph-building operation started in [s]: [opost], and [f] still holds at
        every operation node *)
    Definition kept (s : state) (r : state * handle) : Prop :=
      opost s r /\ (ops (st_nodes s) -> ops (st_nodes (fst r))).

    Lemma kept_refl : forall s h, store_good (st_nodes s) -> hvalid (st_nodes s) h -> kept s (s, h).
    Proof.
      intros s h Hg Hh. split; [| exact (fun H => H)]. split; [apply ext_refl |]. split; assumption.
    Qed.

    Lemma kept_trans : forall s s1 h1 r, kept s (s1, h1) -> kept s1 r -> kept s r.
    Proof.
      intros s s1 h1 r ((Hx1 & _ & _) & Hf1) ((Hx2 & Hg2 & Hh2) & Hf2). cbn [fst snd] in *.
      split; [| exact (fun H => Hf2 (Hf1 H))].
      split; [eapply ext_trans; eassumption |]. split; assumption.
    Qed.

    Lemma kept_bind : forall s s1 h1 r,
        kept s (s1, h1) ->
        (ext s s1 -> store_good (st_nodes s1) -> hvalid (st_nodes s1) h1 -> kept s1 r) ->
        kept s r.
    Proof.
      intros s s1 h1 r K1 K2. apply (kept_trans s s1 h1 r K1).
      destruct K1 as ((Hx1 & Hg1 & Hh1) & _). exact (K2 Hx1 Hg1 Hh1).
    Qed.

    Lemma alloc_kept : forall s (a : arr F) children bop buf,
        store_good (st_nodes s) -> wf a ->
        (forall e, In e children -> hvalid (st_nodes s) e) ->
        node_ok' bop children ->
        (forall code, bop = Some code -> f code a (cvals (st_nodes s) children)) ->
        kept s (alloc s a children bop buf).
    Proof.
      intros s a children bop buf Hg Hw Hch Hok Hf. unfold alloc, kept, opost. cbn [fst snd].
      split; [split; [| split] |]; cbn [st_nodes with_nodes].
      - eexists. reflexivity.
      - apply store_good_app; [exact Hg |].
        unfold node_good, node_ok. cbn [n_children n_pay n_count n_delta n_grad p_bop].
        split; [exact Hch |]. split; [exact Hok |]. split; [reflexivity |]. split; [reflexivity |].
        split; [exact Hw |]. intros x Hx. discriminate Hx.
      - unfold hvalid. cbn [e_node mkh]. rewrite app_length. simpl. lia.
      - intro Ha. apply all_ops_snoc; cbn [n_children n_pay p_bop]; try assumption.
        intros code Hb. destruct a as [d v]. exact (Hf code Hb).
    Qed.

    Lemma alloc_leaf_kept : forall s (a : arr F) buf,
        store_good (st_nodes s) -> wf a -> kept s (alloc s a [] None buf).
    Proof.
      intros s a buf Hg Hw. apply alloc_kept; try assumption;
        [intros e [] | reflexivity | intros code Hc; discriminate Hc].
    Qed.

    Lemma alloc_op_kept : forall s (a : arr F) children code buf,
        store_good (st_nodes s) -> wf a ->
        (forall e, In e children -> hvalid (st_nodes s) e) ->
        node_ok' (Some code) children ->
        is_forward code a (cvals (st_nodes s) children) ->
        fok code a (cvals (st_nodes s) children) ->
        kept s (alloc s a children (Some code) buf).
    Proof.
      intros s a children code buf Hg Hw Hch Hok Hfw Hf. apply alloc_kept; try assumption.
      intros code0 Hc. injection Hc as <-. exact (Hf Hfw).
    Qed.

    Lemma alloc_if_kept : forall s (a : arr F) tracked children code,
        store_good (st_nodes s) -> wf a ->
        (forall e, In e children -> hvalid (st_nodes s) e) ->
        (tracked = true -> node_ok' (Some code) children) ->
        is_forward code a (cvals (st_nodes s) children) ->
        fok code a (cvals (st_nodes s) children) ->
        kept s (alloc_if s a tracked children code).
    Proof.
      intros s a tracked children code Hg Hw Hch Hok Hfw Hf. unfold alloc_if. destruct tracked.
      - apply alloc_op_kept; try assumption. apply Hok. reflexivity.
      - apply alloc_leaf_kept; assumption.
    Qed.

    Lemma unary_kept : forall s h fwd code r,
        store_good (st_nodes s) -> hvalid (st_nodes s) h ->
        (forall a c, h_arr s h = Some a -> fwd a = Some c ->
                     wf c /\ arity (code c) = 1 /\ is_forward (code c) c [a] /\ fok (code c) c [a]) ->
        unary s h fwd code = Some r -> kept s r.
    Proof.
      intros s h fwd code r Hg Hh Hfwd H. unfold unary in H.
      revert H. apply obind_elim. intros a Ha H.
      revert H. apply obind_elim. intros c Hc H. injection H as <-.
      destruct (Hfwd a c Ha Hc) as (Hw & Har & Hfw & Hf).
      apply alloc_if_kept; cbn [cvals map]; rewrite ?(h_arr_nval s h a Ha); try assumption.
      - intros e [<- | []]. exact Hh.
      - intro Ht. split; [rewrite Har; reflexivity |]. intros _ e [<- | []]. exact Ht.
    Qed.

    Hypothesis f_plain : forall code v cs, plain code = true -> fok code v cs.

    Lemma unary_op_kept : forall k s h fwd code r,
        unary_op O k fwd code -> store_good (st_nodes s) -> hvalid (st_nodes s) h ->
        unary s h fwd code = Some r -> kept s r.
    Proof.
      intros k s h fwd code r Hu Hg Hh H. refine (unary_kept s h fwd code r Hg Hh _ H).
      intros a c _ Hc. destruct (unary_op_spec k fwd code a c Hu Hc) as (Hw & Hp & Har & Hfw).
      split; [exact Hw |]. split; [exact Har |]. split; [exact Hfw | exact (f_plain _ _ _ Hp)].
    Qed.

    Lemma binary_op_kept : forall k s ha hb fwd code r,
        binary_op O k fwd code -> store_good (st_nodes s) ->
        hvalid (st_nodes s) ha -> hvalid (st_nodes s) hb ->
        binary s ha hb fwd code = Some r -> kept s r.
    Proof.
      intros k s ha hb fwd code r Hb Hg Hha Hhb H. unfold binary in H.
      revert H. apply obind_elim. intros a Ha H.
      revert H. apply obind_elim. intros b Hbb H.
      revert H. apply obind_elim. intros c Hc H. injection H as <-.
      destruct (binary_op_spec k fwd code a b c Hb Hc) as (Hw & Hp & Har & Hun & Hfw).
      apply alloc_if_kept; cbn [cvals map];
        rewrite ?(h_arr_nval s ha a Ha), ?(h_arr_nval s hb b Hbb); try assumption.
      - intros e [<- | [<- | []]]; assumption.
      - intros _. split; [rewrite Har; reflexivity |]. rewrite Hun. discriminate.
      - exact (f_plain _ _ _ Hp).
    Qed.

    Section Ops.
      Variable s : state.
      Hypothesis Hg : store_good (st_nodes s).

      Lemma op_reshape_kept : forall d h r,
          hvalid (st_nodes s) h -> op_reshape s d h = Some r -> kept s r.
      Proof.
        intros d h r Hh H. unfold op_reshape in H.
        revert H. apply obind_elim. intros nd Hnd H.
        revert H. apply obind_elim. intros c Hc H. injection H as <-.
        destruct (a_reshape_wf d _ c Hc) as [Hw Hd].
        destruct (e_tracked h) eqn:Ht.
        - apply alloc_op_kept; try assumption.
          + intros e [<- | []]. exact Hh.
          + split; [reflexivity |]. intro Hu. discriminate Hu.
          + split; [exact I | left]. cbn [cvals map fwd_of_code]. unfold nval.
            unfold h_node in Hnd. rewrite Hnd, Hd. exact Hc.
          + apply f_plain. reflexivity.
        - apply alloc_leaf_kept; assumption.
      Qed.

      Lemma op_sum_kept : forall k h r,
          hvalid (st_nodes s) h ->
          (forall a v, h_arr s h = Some a -> fok (BSum k (sum_target (dims a) k)) v [a]) ->
          op_sum O s k h = Some r -> kept s r.
      Proof.
        intros k h r Hh Hf H. unfold op_sum in H. destruct (k =? 0) eqn:Hk.
        - injection H as <-. apply kept_refl; assumption.
        - revert H. apply obind_elim. intros a Ha H.
          refine (unary_kept s h _ _ r Hg Hh _ H). intros a0 c Ha0 Hc.
          assert (a0 = a) by congruence. subst a0. apply Nat.eqb_neq in Hk.
          split; [eapply a_sum_wf; [eapply h_arr_wf |]; eassumption |]. split; [reflexivity |].
          split; [| apply Hf; exact Ha]. split; [split; [exact Hk | reflexivity] | left; exact Hc].
      Qed.

      (** the third operand of a matmul closure: the additive term, or [zeros1] *)
      Definition third_operand (hc : option handle) (c : arr F) : Prop :=
        match hc with Some h => h_arr s h = Some c | None => c = zeros1 O end.

      Lemma op_matmul_kept : forall ta tb ha hb hc r,
          hvalid (st_nodes s) ha -> hvalid (st_nodes s) hb ->
          (forall h, hc = Some h -> hvalid (st_nodes s) h) ->
          (forall a b c v, h_arr s ha = Some a -> h_arr s hb = Some b -> third_operand hc c ->
                           fok (BMatmul ta tb) v [a; b; c]) ->
          op_matmul O s ta tb ha hb hc = Some r -> kept s r.
      Proof.
        intros ta tb ha hb hc r Ha Hb Hc Hf H. unfold op_matmul in H.
        revert H. apply obind_elim. intros a Haa H.
        revert H. apply obind_elim. intros b Hbb H.
        revert H. apply obind_elim. intros c Hcc H.
        revert H. apply obind_elim. intros x Hx H.
        pose proof (a_matmul_wf O _ _ _ _ _ _ Hx) as Hwx.
        destruct (e_tracked ha || e_tracked hb || match hc with Some h => e_tracked h | None => false end).
        - destruct hc as [h|].
          + injection H as <-.
            revert Hcc. apply obind_elim. intros cv Hcv Hcc. injection Hcc as <-.
            apply alloc_op_kept; cbn [cvals map];
              rewrite ?(h_arr_nval s ha a Haa), ?(h_arr_nval s hb b Hbb), ?(h_arr_nval s h cv Hcv);
              try assumption.
            * intros e [<- | [<- | [<- | []]]]; try assumption. apply Hc. reflexivity.
            * split; [reflexivity |]. intro Hu. discriminate Hu.
            * split; [exact I | left; exact Hx].
            * apply Hf; assumption.
          + injection Hcc as <-.
            pose proof (alloc_leaf_kept s (zeros1 O) None Hg (zeros1_wf O)) as K1.
            destruct (alloc s (zeros1 O) [] None None) as [s1 h3] eqn:Hal. injection H as <-.
            apply (kept_bind s s1 h3 _ K1). intros Hx1 Hg1 Hh3.
            assert (Hn3 : nval (st_nodes s1) (e_node h3) = zeros1 O).
            { unfold alloc in Hal. injection Hal as <- <-. unfold nval.
              cbn [st_nodes with_nodes e_node mkh]. rewrite nth_error_app2, Nat.sub_diag by lia.
              reflexivity. }
            apply alloc_op_kept; cbn [cvals map];
              rewrite ?(nval_ext s s1 ha a Hx1 Ha Haa), ?(nval_ext s s1 hb b Hx1 Hb Hbb), ?Hn3;
              try assumption.
            * intros e [<- | [<- | [<- | []]]]; try assumption; eapply hvalid_ext; eassumption.
            * split; [reflexivity |]. intro Hu. discriminate Hu.
            * split; [exact I | right]. split; [reflexivity | exact Hx].
            * apply Hf; try assumption. reflexivity.
        - injection H as <-. apply alloc_leaf_kept; assumption.
      Qed.

      Lemma op_unroll_kept : forall h sr sc fr fc r,
          hvalid (st_nodes s) h ->
          (forall a depth rows cols v, h_arr s h = Some a ->
                                       fok (BUnroll depth rows cols sr sc fr fc) v [a]) ->
          op_unroll O s h sr sc fr fc = Some r -> kept s r.
      Proof.
        intros h sr sc fr fc r Hh Hf H.
        destruct (unroll_eq_dims O s h sr sc fr fc r H)
          as (a & x & depth & rows & cols & Ha & Hdepth & Hrows & Hcols & Hx & ->).
        apply alloc_if_kept; cbn [cvals map]; rewrite ?(h_arr_nval s h a Ha); try assumption.
        - eapply unroll_blocks_wf. exact Hx.
        - intros e [<- | []]. exact Hh.
        - intros _. split; [reflexivity |]. intro Hu. discriminate Hu.
        - split; [cbn [code_fits nth]; tauto | left; exact Hx].
        - apply Hf. exact Ha.
      Qed.

      Lemma op_expand_kept : forall h rc cc r,
          hvalid (st_nodes s) h ->
          (forall a fcount v, h_arr s h = Some a -> fok (BExpand fcount (rc * cc)) v [a]) ->
          op_expand O s h rc cc = Some r -> kept s r.
      Proof.
        intros h rc cc r Hh Hf H.
        destruct (expand_eq_dim O s h rc cc r H) as (a & x & fcount & Ha & Hfc & Hx & ->).
        assert (Hdx : dimb (dims x) 2 = rc /\ dimb (dims x) 1 = cc).
        { pose proof Hx as Hx'. unfold expand_conv in Hx'. cbv zeta in Hx'. inv_bind Hx'.
          apply mk_wf in Hx'. destruct Hx' as [_ Hd]. unfold dimb.
          rewrite Hd, dim_back_snoc3_2, dim_back_snoc3_1. split; reflexivity. }
        destruct Hdx as [Hd2 Hd1].
        apply alloc_if_kept; cbn [cvals map]; rewrite ?(h_arr_nval s h a Ha); try assumption.
        - eapply expand_conv_wf. exact Hx.
        - intros e [<- | []]. exact Hh.
        - intro Ht. split; [reflexivity |]. intros _ e [<- | []]. exact Ht.
        - unfold is_forward. cbn [code_fits fwd_of_code nth]. rewrite Hd2, Hd1.
          split; [split; [exact Hfc | reflexivity] | left; exact Hx].
        - apply Hf. exact Ha.
      Qed.

      Lemma op_custom_kept : forall c hs r,
          (forall h, In h hs -> hvalid (st_nodes s) h) ->
          (forall args v, mapM (h_arr s) hs = Some args -> fok (BCustom c) v args) ->
          op_custom O s c hs = Some r -> kept s r.
      Proof.
        intros c hs r Hhs Hf H. unfold op_custom in H.
        revert H. apply obind_elim. intros args Hargs H.
        revert H. apply obind_elim. intros x Hx H. injection H as <-.
        destruct (mapM_h_arr s hs args Hargs) as [Hcv Hlen].
        apply alloc_op_kept; rewrite ?Hcv; try assumption.
        - eapply custom_forward_wf. exact Hx.
        - apply custom_forward_arity in Hx. split; [| intro Hu; discriminate Hu].
          rewrite <- Hlen, Hx. destruct c; reflexivity.
        - split; [exact I | left; exact Hx].
        - apply Hf. exact Hargs.
      Qed.
    End Ops.

    Lemma op_sub_kept : forall s ha hb r,
        store_good (st_nodes s) -> hvalid (st_nodes s) ha -> hvalid (st_nodes s) hb ->
        op_sub O s ha hb = Some r -> kept s r.
    Proof.
      intros s ha hb r Hg Ha Hb H. unfold op_sub in H.
      revert H. apply obind_elim. intros [s1 hn] H1 H.
      pose proof (unary_op_kept _ s hb _ _ _ (u_neg O) Hg Hb H1) as K1.
      apply (kept_bind s s1 hn r K1). intros Hx1 Hg1 Hh1.
      exact (binary_op_kept _ s1 ha hn _ _ r (b_add O) Hg1 (hvalid_ext s s1 ha Hx1 Ha) Hh1 H).
    Qed.

    Lemma op_axpy_kept : forall s alpha hx hy r,
        store_good (st_nodes s) -> hvalid (st_nodes s) hx -> hvalid (st_nodes s) hy ->
        op_axpy O s alpha hx hy = Some r -> kept s r.
    Proof.
      intros s alpha hx hy r Hg Ha Hb H. unfold op_axpy in H.
      revert H. apply obind_elim. intros [s1 hs] H1 H.
      pose proof (unary_op_kept _ s hx _ _ _ (u_scale O alpha) Hg Ha H1) as K1.
      apply (kept_bind s s1 hs r K1). intros Hx1 Hg1 Hh1.
      exact (binary_op_kept _ s1 hs hy _ _ r (b_add O) Hg1 Hh1 (hvalid_ext s s1 hy Hx1 Hb) H).
    Qed.

    Lemma op_softmax_kept : forall s h r,
        store_good (st_nodes s) -> hvalid (st_nodes s) h ->
        (forall a e v, h_arr s h = Some a -> a_exp O a = Some e ->
                       fok (BSum 1 (sum_target (dims e) 1)) v [e]) ->
        op_softmax O s h = Some r -> kept s r.
    Proof.
      intros s h r Hg Hh Hf H. unfold op_softmax in H.
      revert H. apply obind_elim. intros [s1 he] H1 H.
      revert H. apply obind_elim. intros [s2 hs] H2 H.
      pose proof (unary_op_kept _ s h _ _ _ (u_exp O) Hg Hh H1) as K1.
      apply (kept_bind s s1 he r K1). intros Hx1 Hg1 Hh1.
      destruct (unary_inv s h _ _ s1 he H1) as (a & e & Ha & He & Hres).
      pose proof (res_arr s s1 he e _ _ Hres) as Hhe.
      assert (K2 : kept s1 (s2, hs)).
      { refine (op_sum_kept s1 Hg1 1 he _ Hh1 _ H2). intros x v Hx.
        assert (x = e) by congruence. subst x. exact (Hf a e v Ha He). }
      apply (kept_bind s1 s2 hs r K2). intros Hx2 Hg2 Hh2.
      exact (binary_op_kept _ s2 he hs _ _ r (b_div O) Hg2 (hvalid_ext s1 s2 he Hx2 Hh1) Hh2 H).
    Qed.

    (** what a convolution asks of [f]: at the unroll node, at the matmul of the unrolled image
        with the reshaped filters, at the expand node *)
    Definition conv_fok (sr sc : nat) (image filters : arr F) : Prop :=
      (forall d r c fr fc v, fok (BUnroll d r c sr sc fr fc) v [image]) /\
      forall depth rows cols fr fc rcount ccount u last fm,
        dim_back (dims image) 3 = Some depth -> dim_back (dims image) 2 = Some rows ->
        dim_back (dims image) 1 = Some cols ->
        dim_back (dims filters) 2 = Some fr -> dim_back (dims filters) 1 = Some fc ->
        stride_count rows fr sr = Some rcount -> stride_count cols fc sc = Some ccount ->
        unroll_blocks O image sr sc fr fc = Some u -> dim_back (dims u) 1 = Some last ->
        a_reshape (firstn (length (dims filters) - 3) (dims filters) ++ [last / depth * depth])
                  filters = Some fm ->
        (forall v, fok (BMatmul false true) v [u; fm; zeros1 O]) /\
        (forall mr fcount v, a_matmul O u false fm true None = Some mr ->
                             fok (BExpand fcount (rcount * ccount)) v [mr]).

    Lemma op_conv_kept : forall s sr sc hi hf r,
        store_good (st_nodes s) -> hvalid (st_nodes s) hi -> hvalid (st_nodes s) hf ->
        (forall image filters, h_arr s hi = Some image -> h_arr s hf = Some filters ->
                               conv_fok sr sc image filters) ->
        op_conv O s sr sc hi hf = Some r -> kept s r.
    Proof.
      intros s sr sc hi hf r Hg Hi Hf Hfok H.
      destruct (conv_inv O s sr sc hi hf r H)
        as [image filters u1 u2 depth rows cols fr fc rcount ccount s1 hu ua last s2 hm s3 hcv
            Himage Hfilters _ _ Hdepth Hrows Hcols Hfr Hfc Hrcount Hccount H1 Hua Hlast H2 H3 H4].
      clear H. rename H4 into H.
      destruct (unroll_inv O s hi sr sc fr fc s1 hu H1) as (a & u & Ha & Hu & Hres1).
      pose proof (res_arr s s1 hu u _ _ Hres1) as Hhu.
      assert (a = image) by congruence. subst a. assert (ua = u) by congruence. subst ua.
      destruct (reshape_inv s1 _ hf s2 hm H2) as (fa & fm & Hfa & Hfm & Hres2).
      pose proof (res_arr s1 s2 hm fm _ _ Hres2) as Hhm.
      destruct (matmul_inv O s2 false true hu hm None s3 hcv H3)
        as (u' & fm' & c & mr & h3 & Hu' & Hfm' & Hc & Hmr & Hres3 & _).
      injection Hc as <-. pose proof (res_arr s2 s3 hcv mr _ _ Hres3) as Hhcv.
      destruct (Hfok image filters Himage Hfilters) as [Hfu Hfrest].
      assert (K1 : kept s (s1, hu)).
      { refine (op_unroll_kept s Hg hi sr sc fr fc _ Hi _ H1). intros x d r0 c v Hx.
        assert (x = image) by congruence. subst x. apply Hfu. }
      apply (kept_bind s s1 hu r K1). intros Hx1 Hg1 Hh1.
      assert (Hf1 : hvalid (st_nodes s1) hf) by (eapply hvalid_ext; eassumption).
      pose proof (op_reshape_kept s1 Hg1 _ hf _ Hf1 H2) as K2.
      apply (kept_bind s1 s2 hm r K2). intros Hx2 Hg2 Hh2.
      rewrite (h_arr_ext s s1 hf Hx1 Hf) in Hfa. assert (fa = filters) by congruence. subst fa.
      rewrite (h_arr_ext s1 s2 hu Hx2 Hh1) in Hu'. assert (u' = u) by congruence. subst u'.
      assert (fm' = fm) by congruence. subst fm'.
      destruct (Hfrest depth rows cols fr fc rcount ccount u last fm Hdepth Hrows Hcols Hfr Hfc
                       Hrcount Hccount Hu Hlast Hfm) as [Hfmm Hfex].
      assert (K3 : kept s2 (s3, hcv)).
      { refine (op_matmul_kept s2 Hg2 false true hu hm None _ (hvalid_ext s1 s2 hu Hx2 Hh1) Hh2 _ _ H3).
        - intros h0 Hh0. discriminate Hh0.
        - intros a b c v Ha' Hb' Hc'. cbn [third_operand] in Hc'.
          assert (a = u) by (rewrite (h_arr_ext s1 s2 hu Hx2 Hh1) in Ha'; congruence).
          assert (b = fm) by congruence. subst a b c. apply Hfmm. }
      apply (kept_bind s2 s3 hcv r K3). intros Hx3 Hg3 Hh3.
      refine (op_expand_kept s3 Hg3 hcv rcount ccount r Hh3 _ H). intros a fcount v Ha'.
      assert (a = mr) by congruence. subst a. exact (Hfex mr fcount v Hmr).
    Qed.

    (** what [apply_op s k hs] asks of [f] *)
    Definition op_fok (s : state) (k : opk) (hs : list handle) : Prop :=
      match k, hs with
      | OSum n, [a] => forall x v, h_arr s a = Some x -> fok (BSum n (sum_target (dims x) n)) v [x]
      | OSoftmax, [a] =>
        forall x e v, h_arr s a = Some x -> a_exp O x = Some e ->
                      fok (BSum 1 (sum_target (dims e) 1)) v [e]
      | OMatmul ta tb, [a; b] =>
        forall x y v, h_arr s a = Some x -> h_arr s b = Some y ->
                      fok (BMatmul ta tb) v [x; y; zeros1 O]
      | OMatmul ta tb, [a; b; c] =>
        forall x y z v, h_arr s a = Some x -> h_arr s b = Some y -> h_arr s c = Some z ->
                        fok (BMatmul ta tb) v [x; y; z]
      | OConv sr sc, [a; b] =>
        forall x y, h_arr s a = Some x -> h_arr s b = Some y -> conv_fok sr sc x y
      | OCustom c, _ => forall args v, mapM (h_arr s) hs = Some args -> fok (BCustom c) v args
      | _, _ => True
      end.

    Theorem apply_op_kept : forall s k hs r,
        store_good (st_nodes s) -> (forall h, In h hs -> hvalid (st_nodes s) h) ->
        op_fok s k hs -> apply_op O s k hs = Some r -> kept s r.
    Proof.
      intros s k hs r Hg Hhs Hf H.
      destruct (apply_op_cases O s k hs r H)
        as [k x fwd code Hu Hr | k x y fwd code Hb Hr | x y Hr | k x Hr | d x Hr | ta tb x y Hr
            | ta tb x y z Hr | sr sc x y Hr | x Hr | alpha x y Hr | c hs Hr];
        try (pose proof (Hhs x (or_introl eq_refl)) as Hx);
        try (pose proof (Hhs y (or_intror (or_introl eq_refl))) as Hy).
      - exact (unary_op_kept _ s x fwd code r Hu Hg Hx Hr).
      - exact (binary_op_kept _ s x y fwd code r Hb Hg Hx Hy Hr).
      - exact (op_sub_kept s x y r Hg Hx Hy Hr).
      - exact (op_sum_kept s Hg k x r Hx Hf Hr).
      - exact (op_reshape_kept s Hg d x r Hx Hr).
      - refine (op_matmul_kept s Hg ta tb x y None r Hx Hy _ _ Hr).
        + intros h0 Hh0. discriminate Hh0.
        + intros a b c v Ha Hb Hc. cbn [third_operand] in Hc. subst c. exact (Hf a b v Ha Hb).
      - refine (op_matmul_kept s Hg ta tb x y (Some z) r Hx Hy _ _ Hr).
        + intros h0 Hh0. injection Hh0 as <-. exact (Hhs z (or_intror (or_intror (or_introl eq_refl)))).
        + intros a b c v Ha Hb Hc. exact (Hf a b c v Ha Hb Hc).
      - exact (op_conv_kept s sr sc x y r Hg Hx Hy Hf Hr).
      - exact (op_softmax_kept s x r Hg Hx Hf Hr).
      - exact (op_axpy_kept s alpha x y r Hg Hx Hy Hr).
      - exact (op_custom_kept s Hg c hs r Hhs Hf Hr).
    Qed.

    Lemma apply_act_kept : forall s a h r,
        store_good (st_nodes s) -> hvalid (st_nodes s) h -> act_cond op_fok s a h ->
        apply_act O s a h = Some r -> kept s r.
    Proof.
      intros s a h r Hg Hh Hf H. destruct a; cbn [apply_act] in H.
      - injection H as <-. apply kept_refl; assumption.
      - exact (unary_op_kept _ s h _ _ r (u_relu O) Hg Hh H).
      - exact (unary_op_kept _ s h _ _ r (u_sigmoid O) Hg Hh H).
      - exact (op_softmax_kept s h r Hg Hh Hf H).
    Qed.

    Lemma layer_forward_kept : forall s l input r,
        store_good (st_nodes s) -> hvalid (st_nodes s) input -> lvalid (st_nodes s) l ->
        layer_cond op_fok s l input -> layer_forward O s l input = Some r -> kept s r.
    Proof.
      intros s l input r Hg Hi [Hw Hb] Hf H. unfold layer_forward in H. unfold layer_cond in Hf.
      destruct (l_conv l) as [[sr sc]|]; destruct Hf as [Hf1 Hfa].
      - revert H. apply obind_elim. intros [s1 hc] H1 H.
        revert H. apply obind_elim. intros [s2 h] H2 H.
        pose proof (op_conv_kept s sr sc input (l_w l) _ Hg Hi Hw Hf1 H1) as K1.
        apply (kept_bind s s1 hc r K1). intros Hx1 Hg1 Hh1.
        pose proof (binary_op_kept _ s1 hc (l_b l) _ _ _ (b_add O) Hg1 Hh1
                                   (hvalid_ext s s1 (l_b l) Hx1 Hb) H2) as K2.
        apply (kept_bind s1 s2 h r K2). intros Hx2 Hg2 Hh2.
        exact (apply_act_kept s2 (l_act l) h r Hg2 Hh2 (Hfa s1 hc s2 h H1 H2) H).
      - revert H. apply obind_elim. intros [s1 h] H1 H.
        assert (K1 : kept s (s1, h)).
        { refine (op_matmul_kept s Hg false true input (l_w l) (Some (l_b l)) _ Hi Hw _ _ H1).
          - intros h0 Hh0. injection Hh0 as <-. exact Hb.
          - intros a b c v Ha' Hb' Hc'. exact (Hf1 a b c v Ha' Hb' Hc'). }
        apply (kept_bind s s1 h r K1). intros Hx1 Hg1 Hh1.
        exact (apply_act_kept s1 (l_act l) h r Hg1 Hh1 (Hfa s1 h H1) H).
    Qed.

    Lemma fold_layers_kept : forall ls s h s1 out,
        store_good (st_nodes s) -> hvalid (st_nodes s) h ->
        (forall l, In l ls -> lvalid (st_nodes s) l) -> layers_cond op_fok s ls h ->
        fold_left (fun (acc : option (state * handle)) (l : layer) =>
                     st <- acc ;; let '(s', h') := st in layer_forward O s' l h')
                  ls (Some (s, h)) = Some (s1, out) ->
        kept s (s1, out).
    Proof.
      intro ls. induction ls as [|l ls IH]; intros s h s1 out Hg Hh Hls Hf H.
      - injection H as <- <-. apply kept_refl; assumption.
      - cbn [fold_left obind] in H. cbn [layers_cond] in Hf. destruct Hf as [Hfl Hfrest].
        destruct (layer_forward O s l h) as [[s2 h2]|] eqn:Hl;
          [| rewrite fold_left_none in H by (intro b; reflexivity); discriminate H].
        pose proof (layer_forward_kept s l h _ Hg Hh (Hls l (or_introl eq_refl)) Hfl Hl) as K.
        apply (kept_bind s s2 h2 _ K). intros Hx Hg2 Hh2.
        apply (IH s2 h2 s1 out Hg2 Hh2); [| exact (Hfrest s2 h2 eq_refl) | exact H].
        intros l0 Hl0. destruct (Hls l0 (or_intror Hl0)) as [Hw0 Hb0].
        split; eapply hvalid_ext; eassumption.
    Qed.

    Lemma cost_apply_kept : forall s c output target r,
        store_good (st_nodes s) -> hvalid (st_nodes s) output -> hvalid (st_nodes s) target ->
        cost_apply O s c output target = Some r -> kept s r.
    Proof.
      intros s c output target r Hg Ho Ht H. unfold cost_apply in H.
      revert H. apply obind_elim. intros o _ H. destruct c.
      - cbv zeta in H.
        revert H. apply obind_elim. intros [s1 d] H1 H.
        revert H. apply obind_elim. intros [s2 p] H2 H.
        pose proof (op_sub_kept s target output _ Hg Ht Ho H1) as K1.
        apply (kept_bind s s1 d r K1). intros Hx1 Hg1 Hh1.
        pose proof (unary_op_kept _ s1 d _ _ _ (u_powf O (two O)) Hg1 Hh1 H2) as K2.
        apply (kept_bind s1 s2 p r K2). intros Hx2 Hg2 Hh2.
        exact (unary_op_kept _ s2 p _ _ r (u_scale O _) Hg2 Hh2 H).
      - revert H. apply obind_elim. intros batch _ H.
        revert H. apply obind_elim. intros [s1 nt] H1 H.
        revert H. apply obind_elim. intros [s2 lo] H2 H.
        revert H. apply obind_elim. intros [s3 m] H3 H.
        pose proof (unary_op_kept _ s target _ _ _ (u_neg O) Hg Ht H1) as K1.
        apply (kept_bind s s1 nt r K1). intros Hx1 Hg1 Hh1.
        pose proof (unary_op_kept _ s1 output _ _ _ (u_ln O) Hg1 (hvalid_ext s s1 output Hx1 Ho) H2) as K2.
        apply (kept_bind s1 s2 lo r K2). intros Hx2 Hg2 Hh2.
        pose proof (binary_op_kept _ s2 nt lo _ _ _ (b_mul O) Hg2 (hvalid_ext s1 s2 nt Hx2 Hh1) Hh2 H3) as K3.
        apply (kept_bind s2 s3 m r K3). intros Hx3 Hg3 Hh3.
        exact (unary_op_kept _ s3 m _ _ r (u_scale O _) Hg3 Hh3 H).
    Qed.

    Definition skept (s s1 : state) : Prop :=
      store_good (st_nodes s1) /\ (ops (st_nodes s) -> ops (st_nodes s1)).

    Lemma skept_trans : forall s1 s2 s3, skept s1 s2 -> skept s2 s3 -> skept s1 s3.
    Proof. intros s1 s2 s3 [_ H1] [Hg H2]. split; [exact Hg | exact (fun H => H2 (H1 H))]. Qed.

    Lemma kept_skept : forall s r, kept s r -> skept s (fst r).
    Proof. intros s r ((_ & Hg & _) & Hf). split; assumption. Qed.

    Lemma make_layer_kept : forall s l s' ly,
        store_good (st_nodes s) -> make_layer s l = Some (s', ly) ->
        ext s s' /\ skept s s' /\ lvalid (st_nodes s') ly.
    Proof.
      intros s l s' ly Hg H.
      assert (Hgen : forall (wa ba : arr F) conv a,
                 wf wa -> wf ba ->
                 (let '(s1, hw) := alloc s wa [] None None in
                  let '(s2, hb) := alloc s1 ba [] None None in
                  Some (s2, {| l_conv := conv; l_act := a;
                               l_w := mkh (e_node hw) true true; l_b := mkh (e_node hb) true true |}))
                 = Some (s', ly) ->
                 ext s s' /\ skept s s' /\ lvalid (st_nodes s') ly).
      { intros wa ba conv a Hwa Hba H0.
        pose proof (alloc_leaf_kept s wa None Hg Hwa) as K1.
        destruct (alloc s wa [] None None) as [s1 hw].
        pose proof (kept_skept _ _ K1) as S1. destruct K1 as ((Hx1 & Hg1 & Hh1) & _). cbn [fst snd] in Hx1, Hg1, Hh1.
        pose proof (alloc_leaf_kept s1 ba None Hg1 Hba) as K2.
        destruct (alloc s1 ba [] None None) as [s2 hb].
        pose proof (kept_skept _ _ K2) as S2. destruct K2 as ((Hx2 & Hg2 & Hh2) & _). cbn [fst snd] in Hx2, Hg2, Hh2.
        injection H0 as <- <-.
        split; [eapply ext_trans; eassumption |]. split; [eapply skept_trans; eassumption |].
        split; [exact (hvalid_ext s1 s2 hw Hx2 Hh1) | exact Hh2]. }
      destruct l as [nin nout a w b | count depth fr fc sr sc a f0 b]; cbn [make_layer] in H.
      - revert H. apply obind_elim. intros wa Hwa H.
        revert H. apply obind_elim. intros ba Hba H.
        apply mk_wf in Hwa. apply mk_wf in Hba. eapply Hgen; [| | exact H]; tauto.
      - revert H. apply obind_elim. intros fa Hfa H.
        revert H. apply obind_elim. intros ba Hba H.
        apply mk_wf in Hfa. apply mk_wf in Hba. eapply Hgen; [| | exact H]; tauto.
    Qed.

    Lemma make_layers_kept : forall ls s out s1 layers,
        store_good (st_nodes s) -> (forall l, In l out -> lvalid (st_nodes s) l) ->
        fold_left (fun (acc : option (state * list layer)) (l : layer_spec) =>
                     st <- acc ;;
                     let '(s', out) := st in
                     r <- make_layer s' l ;;
                     let '(s'', ly) := r in Some (s'', out ++ [ly]))
                  ls (Some (s, out)) = Some (s1, layers) ->
        ext s s1 /\ skept s s1 /\ (forall l, In l layers -> lvalid (st_nodes s1) l).
    Proof.
      intro ls. induction ls as [|l ls IH]; intros s out s1 layers Hg Hout H.
      - injection H as <- <-. split; [apply ext_refl |]. split; [split; [exact Hg | exact (fun H => H)] | exact Hout].
      - cbn [fold_left obind] in H.
        destruct (make_layer s l) as [[s2 ly]|] eqn:Hm; cbn [obind] in H;
          [| rewrite fold_left_none in H by (intro b; reflexivity); discriminate H].
        destruct (make_layer_kept s l s2 ly Hg Hm) as (Hx & S2 & Hly).
        destruct (IH s2 (out ++ [ly]) s1 layers (proj1 S2)) as (Hx1 & S1 & Hl1).
        + intros l0 Hl0. apply in_app_or in Hl0. destruct Hl0 as [Hl0 | [<- | []]]; [| exact Hly].
          destruct (Hout l0 Hl0) as [Ha Hb]. split; eapply hvalid_ext; eassumption.
        + exact H.
        + split; [eapply ext_trans; eassumption |]. split; [eapply skept_trans; eassumption | exact Hl1].
    Qed.

    Lemma skel_kept : forall (s : state) (g' : list gnode),
        store_good g' -> length g' = length (st_nodes s) ->
        (forall id nd nd', nth_error (st_nodes s) id = Some nd -> nth_error g' id = Some nd' ->
                           n_pay nd' = n_pay nd /\ n_children nd' = n_children nd) ->
        skept s (with_nodes s g').
    Proof.
      intros s g' Hg' Hl Hsk. split; [exact Hg' |]. exact (all_ops_skel f _ g' Hl Hsk).
    Qed.

    Lemma clear_grad_kept : forall s h s',
        store_good (st_nodes s) -> clear_grad s h = Some s' -> skept s s' /\ grow s s'.
    Proof.
      intros s h s' Hg H. unfold clear_grad in H.
      revert H. apply obind_elim. intros nd Hnd H.
      revert H. apply obind_elim. intros g' Hput H. injection H as <-.
      pose proof (put_inv _ _ _ _ Hput) as (_ & Hl & Hn). unfold h_node in Hnd. split.
      - apply skel_kept; [| exact Hl |].
        + eapply store_good_put; [exact Hg | exact Hput |].
          destruct (Hg _ nd Hnd) as (H1 & H2 & H3 & H4 & H5 & _).
          unfold node_good, node_ok. cbn [set_grad n_children n_pay n_count n_delta n_grad].
          repeat (split; [assumption |]). intros x Hx. discriminate Hx.
        + intros id x x' Hx Hx'. rewrite Hn in Hx'. destruct (id =? e_node h) eqn:Hid.
          * apply Nat.eqb_eq in Hid. subst id. injection Hx' as <-.
            assert (x = nd) by (unfold Program.gnode in *; congruence). subst x. split; reflexivity.
          * assert (x' = x) by (unfold Program.gnode in *; congruence). subst x'. split; reflexivity.
      - unfold grow. cbn [st_nodes st_pool st_layers st_output with_nodes]. split; [nlia | tauto].
    Qed.

    Lemma gd_update_kept : forall s lr params s2 out,
        store_good (st_nodes s) -> (forall h, In h params -> hvalid (st_nodes s) h) ->
        gd_update O s lr params = Some (s2, out) ->
        skept s s2 /\ grow s s2 /\ (forall h, In h out -> hvalid (st_nodes s2) h).
    Proof.
      intros s lr params s2 out Hg Hps H. unfold gd_update in H. cbv zeta in H.
      revert H. apply obind_elim. intros pv _ H.
      revert H. apply obind_elim. intros pg _ H.
      revert H. apply obind_elim. intros s1 Hs1 H.
      revert H. apply obind_elim. intros [[s3 buf3] out3] Hfold H. injection H as -> ->.
      assert (H1 : skept s s1 /\ grow s s1).
      { refine (ofold_inv (fun st h => clear_grad st h) (fun st => skept s st /\ grow s st)
                          _ s s1 Hs1 _ _).
        - split; [split; [exact Hg | exact (fun H => H)] | apply grow_refl].
        - intros st h st1 [S Gr] _ Hc. destruct (clear_grad_kept st h st1 (proj1 S) Hc) as [S1 Gr1].
          split; [eapply skept_trans | eapply grow_trans]; eassumption. }
      destruct H1 as [S1 Gr1].
      refine (ofold_inv
                (fun (st : state * list F * list handle) (p : handle * bool) => gd_step (Some st) p)
                (fun st => let '(s', _, o) := st in
                           skept s s' /\ grow s s' /\ forall h, In h o -> hvalid (st_nodes s') h)
                _ (s1, _, []) (s2, buf3, out) Hfold _ _).
      - split; [exact S1 |]. split; [exact Gr1 | intros h []].
      - intros [[s' buf'] o] [h fr] [[s'' buf''] o'] (S & Gr & Ho) Hin Hstep.
        assert (Hh : hvalid (st_nodes s') h)
          by (apply (hvalid_grow s s' h Gr); apply Hps; exact (in_combine_l _ _ _ _ Hin)).
        unfold gd_step in Hstep. cbn [obind fst snd] in Hstep. destruct fr.
        + injection Hstep as <- _ <-. split; [exact S |]. split; [exact Gr |].
          intros h0 Hin0. apply in_app_or in Hin0. destruct Hin0 as [Hin0 | [<- | []]];
            [exact (Ho h0 Hin0) | exact Hh].
        + revert Hstep. apply obind_elim. intros a Ha Hstep.
          revert Hstep. apply obind_elim. intros u _ Hstep.
          revert Hstep. apply obind_elim. intros na Hna Hstep.
          apply mk_wf in Hna. destruct Hna as [Hwna _].
          pose proof (alloc_leaf_kept s' na None (proj1 S) Hwna) as K.
          destruct (alloc s' na [] None None) as [s3 h']. injection Hstep as <- _ <-.
          pose proof (kept_skept _ _ K) as S3. destruct K as ((Hx & Hg3 & Hh') & _). cbn [fst snd] in Hx, Hg3, Hh'.
          split; [eapply skept_trans; eassumption |].
          split; [eapply grow_trans; [exact Gr | apply ext_grow; exact Hx] |].
          intros h0 Hin0. apply in_app_or in Hin0. destruct Hin0 as [Hin0 | [<- | []]];
            [eapply hvalid_ext; [exact Hx | exact (Ho h0 Hin0)] | exact Hh'].
    Qed.

    Lemma pass_kept : forall (s : state) x seed r,
        good s -> hvalid (st_nodes s) x ->
        (forall sd nd, seed = Some sd -> h_node s x = Some nd -> grad_ok (n_pay nd) sd) ->
        run_backward E (st_nodes s) (e_node x) (e_keep x) seed = Some r ->
        good (with_nodes s (fst r)) /\ skept s (with_nodes s (fst r)).
    Proof.
      intros s x seed [g' log] [Hg Hr] Hx Hseed Hrun.
      destruct (pass_good (st_nodes s) (e_node x) (e_keep x) seed g' log Hg Hx Hseed Hrun) as [Hg' Hl].
      destruct (pass_skel (st_nodes s) _ _ _ g' log Hg Hx Hrun) as [_ Hsk]. cbn [fst].
      split; [apply good_with_nodes; [split | |]; assumption | apply skel_kept; assumption].
    Qed.

    Lemma model_forward_kept : forall s x s1 out,
        good s -> hvalid (st_nodes s) x -> layers_cond op_fok s (st_layers s) x ->
        model_forward O s x = Some (s1, out) ->
        exists s1', ext s s1' /\ s1 = with_output s1' (Some out) /\
                    store_good (st_nodes s1') /\ hvalid (st_nodes s1') out /\ good s1 /\
                    (ops (st_nodes s) -> ops (st_nodes s1)).
    Proof.
      intros s x s1 out [Hg Hr] Hx Hf H. unfold model_forward in H.
      revert H. apply obind_elim. intros [s2 out2] Hfold H. injection H as <- <-.
      destruct (fold_layers_kept (st_layers s) s x s2 out2 Hg Hx
                                 (fun l Hl => rvalid_layers s l Hr Hl) Hf Hfold)
        as ((Hx2 & Hg2 & Hh2) & Hf2). cbn [fst snd] in Hx2, Hg2, Hh2, Hf2.
      exists s2. repeat (split; [first [assumption | reflexivity] |]). split; [| exact Hf2].
      destruct (ext_fields s s2 Hx2) as (Hpool & Hlay & _). split; [exact Hg2 |].
      apply (rvalid_regrown s); cbn [with_output st_nodes st_pool st_layers st_output];
        [exact Hr | exact (ext_len s s2 Hx2) | exact Hpool | |].
      - intros l Hl. rewrite Hlay in Hl.
        exact (lvalid_le _ _ l (ext_len s s2 Hx2) (rvalid_layers s l Hr Hl)).
      - intros h Hh. injection Hh as <-. exact Hh2.
    Qed.

    Lemma model_backward_kept : forall s t s2 loss,
        good s -> hvalid (st_nodes s) t -> model_backward O s t = Some (s2, loss) ->
        good s2 /\ (ops (st_nodes s) -> ops (st_nodes s2)).
    Proof.
      intros s t s2 loss [Hg Hr] Ht H. unfold model_backward in H.
      revert H. apply obind_elim. intros output Hout H.
      revert H. apply obind_elim. intros [sc err] Hcost H.
      revert H. apply obind_elim. intros res Hrun H.
      revert H. apply obind_elim. intros ea _ H. injection H as <- _.
      destruct (cost_apply_kept s (st_cost s) output t _ Hg (rvalid_output s output Hr Hout) Ht Hcost)
        as ((Hx2 & Hg2 & Hh2) & Hf2). cbn [fst snd] in Hx2, Hg2, Hh2, Hf2.
      destruct (pass_kept sc err None res) as [G1 [_ Hf1]];
        [split; [exact Hg2 | eapply rvalid_ext; eassumption] | exact Hh2
         | intros sd nd Hsd; discriminate Hsd | exact Hrun |].
      split; [exact G1 | exact (fun H => Hf1 (Hf2 H))].
    Qed.

    Lemma model_update_kept : forall s s',
        good s -> model_update O s = Some s' -> good s' /\ (ops (st_nodes s) -> ops (st_nodes s')).
    Proof.
      intros s s' [Hg Hr] H. unfold model_update in H.
      revert H. apply obind_elim. intros [s2 hs] Hgu H. injection H as <-.
      destruct (gd_update_kept s (st_lr s) (model_params s) s2 hs Hg (model_params_valid s Hr) Hgu)
        as ([Hg2 Hf2] & (Hlen & Hpool & Hlay & Hout) & Hhs).
      split; [| exact Hf2]. split; [exact Hg2 |].
      apply (rvalid_regrown s); cbn [with_layers st_nodes st_pool st_layers st_output];
        [exact Hr | exact Hlen | exact Hpool | |].
      - apply rebuild_valid; [| exact Hhs].
        intros l Hl. rewrite Hlay in Hl. exact (lvalid_le _ _ l Hlen (rvalid_layers s l Hr Hl)).
      - intros h Hh. rewrite Hout in Hh. pose proof (rvalid_output s h Hr Hh) as Hv.
        unfold hvalid in *. nlia.
    Qed.

    Lemma new_leaf_wf : forall (s : state) i a t o,
        store_good (st_nodes s) -> new_leaf O s i = Some (a, t, o) -> wf a.
    Proof.
      intros s i a t o Hg H. destruct i; try discriminate H; cbn [new_leaf] in H;
        apply obind_some in H; destruct H as (y & Hy & H).
      - injection H as <- _ _. exact (proj1 (mk_wf _ _ _ Hy)).
      - injection H as <- _ _. exact (zeros_wf O _ _ Hy).
      - injection H as <- _ _. exact (from_flat_wf _ _ Hy).
      - revert H. apply obind_elim. intros a' Ha H. injection H as <- _ _.
        exact (from_arrays_wf _ _ Ha).
      - revert H. apply obind_elim. intros gr Hgr H. injection H as <- _ _.
        unfold grad_of in Hgr. destruct (h_node s y) as [nd|] eqn:Hnd; [| discriminate Hgr].
        exact (proj1 (store_good_grad _ _ nd Hg Hnd gr Hgr)).
    Qed.

    Theorem step_kept : forall s0 i s' o,
        good s0 -> seed_ok s0 i -> instr_cond op_fok s0 i -> step O s0 i = Some (s', o) ->
        good s' /\ (ops (st_nodes s0) -> ops (st_nodes s')).
    Proof.
      intros s0 i s' o Hgd0 Hseed Hf H.
      destruct (step_cases O s0 i s' o H) as (s1 & slot & Hc & ->).
      unfold instr_cond in Hf. cbv zeta in Hf.
      set (s := with_tag s0 (length (st_pool s0))) in *.
      assert (Hgd : good s) by exact Hgd0. pose proof Hgd as [Hg Hr].
      change (st_nodes s0) with (st_nodes s).
      cut (good s1 /\ (forall h, slot = Some h -> hvalid (st_nodes s1) h) /\
           (ops (st_nodes s) -> ops (st_nodes s1))).
      { intros (G1 & Hs & Hf1). split; [apply good_push; assumption | exact Hf1]. }
      assert (Hnone : forall (g : list gnode) h, @None handle = Some h -> hvalid g h)
        by (intros g h Hh; discriminate Hh).
      destruct Hc as [i a t o Hl | i o Hq | h x Hx | i h v o s1 Hrb Hs1 | k args hs s1 h a Hhs Hop Ha
                      | h seed x sd r Hx Hsd Hrun | h x s1 Hx Hs1 | lr hs params s1 out s2 Hp Hgu Hs2
                      | ls c lr s1 layers Hm | h x s1 out a Hx Hm Ha | h x s1 loss Hx Hm | s1 Hm].
      - destruct (alloc_leaf_kept s a None Hg (new_leaf_wf s i a t o Hg Hl)) as ((Hx1 & Hg1 & Hh1) & Hf1).
        split; [split; [exact Hg1 | eapply rvalid_ext; eassumption] |]. split; [| exact Hf1].
        intros h Hh. injection Hh as <-. exact Hh1.
      - split; [exact Hgd |]. split; [apply Hnone | exact (fun H => H)].
      - split; [exact Hgd |]. split; [| exact (fun H => H)].
        intros h0 Hh0. injection Hh0 as <-. exact (var_valid s h x Hr Hx).
      - destruct (rebind_inv s i h v o Hrb) as (x & Hx & Hv).
        destruct (set_var_good s h v s1 Hgd) as [Hgd1 Hn1]; [| exact Hs1 |].
        + intros y Hy. unfold hvalid. rewrite (Hv y Hy). exact (var_valid s h x Hr Hx).
        + rewrite Hn1. split; [exact Hgd1 |]. split; [apply Hnone | exact (fun H => H)].
      - destruct (apply_op_kept s k hs _ Hg (mapM_var_valid s args hs Hr Hhs) (Hf hs Hhs) Hop)
          as ((Hx1 & Hg1 & Hh1) & Hf1). cbn [fst snd] in Hx1, Hg1, Hh1, Hf1.
        split; [split; [exact Hg1 | eapply rvalid_ext; eassumption] |]. split; [| exact Hf1].
        intros h0 Hh0. injection Hh0 as <-. exact Hh1.
      - destruct (pass_kept s x sd r Hgd (var_valid s h x Hr Hx)) as [G1 [_ Hf1]]; [| exact Hrun |].
        + intros a nd Ha Hnd. subst sd. destruct seed as [[d v]|]; [| discriminate Hsd].
          cbn [seed_arr] in Hsd. revert Hsd. apply obind_elim. intros a' Ha' Hsd.
          injection Hsd as <-. apply mk_wf in Ha'. destruct Ha' as [Hwa Hda].
          split; [exact Hwa |]. rewrite Hda. exact (Hseed x nd Hx Hnd).
        + split; [exact G1 |]. split; [apply Hnone | exact Hf1].
      - destruct (clear_grad_kept s x s1 Hg Hs1) as [[Hg1 Hf1] Gr].
        split; [split; [exact Hg1 | eapply rvalid_grow; eassumption] |].
        split; [apply Hnone | exact Hf1].
      - destruct (gd_update_kept s lr params s1 out Hg (mapM_var_valid s hs params Hr Hp) Hgu)
          as ([Hg1 Hf1] & Gr1 & Hout).
        rewrite (set_vars_nodes _ _ _ Hs2). split; [| split; [apply Hnone | exact Hf1]].
        apply (fold_set_var_good (combine hs out) s1 s2); [| | exact Hs2].
        + split; [exact Hg1 | eapply rvalid_grow; eassumption].
        + intros [j y] Hj. apply Hout. exact (in_combine_r _ _ _ _ Hj).
      - destruct (make_layers_kept ls s [] s1 layers Hg) with (2 := Hm) as (Hx1 & [Hg1 Hf1] & Hl1);
          [intros l0 [] |].
        destruct (ext_fields s s1 Hx1) as (Hpool & _ & _ & _ & Hout & _).
        split; [| split; [apply Hnone | exact Hf1]]. split; [exact Hg1 |].
        apply (rvalid_regrown s);
          cbn [with_config with_layers st_nodes st_pool st_layers st_output];
          [exact Hr | exact (ext_len s s1 Hx1) | exact Hpool | exact Hl1 |].
        intros h0 Hh0. rewrite Hout in Hh0.
        eapply hvalid_ext; [exact Hx1 | eapply rvalid_output; eassumption].
      - destruct (model_forward_kept s x s1 out Hgd (var_valid s h x Hr Hx) (Hf x Hx) Hm)
          as (s2 & _ & -> & _ & Ho & G1 & Hf1).
        split; [exact G1 |]. split; [| exact Hf1]. intros h0 Hh0. injection Hh0 as <-. exact Ho.
      - destruct (model_backward_kept s x s1 loss Hgd (var_valid s h x Hr Hx) Hm) as [G1 Hf1].
        split; [exact G1 |]. split; [apply Hnone | exact Hf1].
      - destruct (model_update_kept s s1 Hgd Hm) as [G1 Hf1].
        split; [exact G1 |]. split; [apply Hnone | exact Hf1].
    Qed.
  End Ladder.

  Lemma op_fok_all : forall f : bop_code F -> arr F -> list (arr F) -> Prop,
      (forall code v cs, is_forward code v cs -> f code v cs) -> forall s k hs, op_fok f s k hs.
  Proof.
    intros f Hf s k hs.
    destruct k; destruct hs as [|h1 [|h2 [|h3 [|h4 l]]]]; cbn [op_fok]; try exact I;
      try (intros; exact (Hf _ _ _)).
    intros x y _ _. split; [intros; exact (Hf _ _ _) |]. intros. split; intros; exact (Hf _ _ _).
  Qed.

  Local Notation any := (fun (_ : bop_code F) (_ : arr F) (_ : list (arr F)) => True).

  Lemma alloc_leaf_post : forall s (a : arr F) buf,
      store_good (st_nodes s) -> wf a -> opost s (alloc s a [] None buf).
  Proof. intros s a buf Hg Hw. exact (proj1 (alloc_leaf_kept any s a buf Hg Hw)). Qed.

  Theorem apply_op_post : forall s k hs r,
      store_good (st_nodes s) -> (forall h, In h hs -> hvalid (st_nodes s) h) ->
      apply_op O s k hs = Some r -> opost s r.
  Proof.
    intros s k hs r Hg Hhs H.
    exact (proj1 (apply_op_kept any (fun _ _ _ _ _ => I) s k hs r Hg Hhs
                                (op_fok_all any (fun _ _ _ _ => I) s k hs) H)).
  Qed.

  Lemma fold_layers_post : forall ls s h s1 out,
      store_good (st_nodes s) -> hvalid (st_nodes s) h ->
      (forall l, In l ls -> lvalid (st_nodes s) l) ->
      fold_left (fun (acc : option (state * handle)) (l : layer) =>
                   st <- acc ;; let '(s', h') := st in layer_forward O s' l h')
                ls (Some (s, h)) = Some (s1, out) ->
      opost s (s1, out).
  Proof.
    intros ls s h s1 out Hg Hh Hls H.
    exact (proj1 (fold_layers_kept any (fun _ _ _ _ _ => I) ls s h s1 out Hg Hh Hls
                                   (layers_cond_all _ (op_fok_all any (fun _ _ _ _ => I)) ls s h) H)).
  Qed.

  Lemma cost_apply_post : forall s c output target r,
      store_good (st_nodes s) -> hvalid (st_nodes s) output -> hvalid (st_nodes s) target ->
      cost_apply O s c output target = Some r -> opost s r.
  Proof.
    intros s c output target r Hg Ho Ht H.
    exact (proj1 (cost_apply_kept any (fun _ _ _ _ _ => I) s c output target r Hg Ho Ht H)).
  Qed.

  Lemma fold_make_layers : forall ls s out s1 layers,
      store_good (st_nodes s) -> (forall l, In l out -> lvalid (st_nodes s) l) ->
      fold_left (fun (acc : option (state * list layer)) (l : layer_spec) =>
                   st <- acc ;;
                   let '(s', out) := st in
                   r <- make_layer s' l ;;
                   let '(s'', ly) := r in Some (s'', out ++ [ly]))
                ls (Some (s, out)) = Some (s1, layers) ->
      ext s s1 /\ store_good (st_nodes s1) /\ (forall l, In l layers -> lvalid (st_nodes s1) l).
  Proof.
    intros ls s out s1 layers Hg Hout H.
    destruct (make_layers_kept any ls s out s1 layers Hg Hout H) as (Hx & [Hg1 _] & Hl).
    split; [exact Hx |]. split; assumption.
  Qed.

  Lemma gd_update_good : forall s lr params s2 out,
      store_good (st_nodes s) -> (forall h, In h params -> hvalid (st_nodes s) h) ->
      gd_update O s lr params = Some (s2, out) ->
      store_good (st_nodes s2) /\ grow s s2 /\ (forall h, In h out -> hvalid (st_nodes s2) h).
  Proof.
    intros s lr params s2 out Hg Hps H.
    destruct (gd_update_kept any s lr params s2 out Hg Hps H) as ([Hg2 _] & Gr & Hout).
    split; [exact Hg2 |]. split; assumption.
  Qed.

  Section FromForward.
    Variable f : bop_code F -> arr F -> list (arr F) -> Prop.
    Hypothesis f_forward : forall code v cs, is_forward code v cs -> f code v cs.

    Theorem step_forward : forall s0 i s' o,
        good s0 -> seed_ok s0 i -> step O s0 i = Some (s', o) ->
        good s' /\ (all_ops f (st_nodes s0) -> all_ops f (st_nodes s')).
    Proof.
      intros s0 i s' o Hgd Hseed H.
      exact (step_kept f (fun code v cs _ => f_forward code v cs) s0 i s' o Hgd Hseed
                       (instr_cond_all _ (op_fok_all f f_forward) s0 i) H).
    Qed.
  End FromForward.

  Theorem step_good : forall s0 i s' o,
      good s0 -> seed_ok s0 i -> step O s0 i = Some (s', o) -> good s'.
  Proof.
    intros s0 i s' o Hgd Hseed H. exact (proj1 (step_forward any (fun _ _ _ _ => I) s0 i s' o Hgd Hseed H)).
  Qed.

  (** [s] is the state after a successful prefix of the program [p], started in [s0], all of
      whose explicit seeds were well-shaped when they were used *)
  Inductive reaches (s0 : state) : list instr -> state -> Prop :=
  | reaches_nil : forall p, reaches s0 p s0
  | reaches_step : forall i p s1 o s,
      seed_ok s0 i -> step O s0 i = Some (s1, o) -> reaches s1 p s -> reaches s0 (i :: p) s.

  Theorem reaches_good : forall s0 p s, good s0 -> reaches s0 p s -> good s.
  Proof.
    intros s0 p s Hgd H. induction H as [s0 p | s0 i p s1 o s Hseed Hstep Hre IH].
    - exact Hgd.
    - apply IH. eapply step_good; eassumption.
  Qed.

  Definition reachable_state (p : list instr) (s : state) : Prop := reaches (init_state O) p s.

  Theorem run_good : forall p s, reachable_state p s -> good s.
  Proof. intros p s H. eapply reaches_good; [apply good_init | exact H]. Qed.

  (** the states a run goes through; the list ends where an instruction panics *)
  Fixpoint states_from (s : state) (p : list instr) : list state :=
    s :: match p with
         | [] => []
         | i :: p' => match step O s i with
                      | Some (s', _) => states_from s' p'
                      | None => []
                      end
         end.

  Fixpoint seeds_ok (s : state) (p : list instr) : Prop :=
    match p with
    | [] => True
    | i :: p' => seed_ok s i /\
                 match step O s i with
                 | Some (s', _) => seeds_ok s' p'
                 | None => True
                 end
    end.

  Theorem states_good : forall p s, good s -> seeds_ok s p -> Forall good (states_from s p).
  Proof.
    intro p. induction p as [|i p IH]; intros s Hgd Hs.
    - constructor; [exact Hgd | constructor].
    - cbn [states_from]. constructor; [exact Hgd |].
      destruct Hs as [Hi Hs]. destruct (step O s i) as [[s' o]|] eqn:Hstep; [| constructor].
      apply IH; [eapply step_good; eassumption | exact Hs].
  Qed.

  Corollary run_states_good : forall p,
      seeds_ok (init_state O) p -> Forall good (states_from (init_state O) p).
  Proof. intros p H. apply states_good; [apply good_init | exact H]. Qed.
End HistoryInv.

Section Zip.
  Context {A : Type} (f : A -> A -> A).
  Local Notation zip a b := (map (fun p => f (fst p) (snd p)) (combine a b)).

  Lemma zip_comm : (forall x y, f x y = f y x) -> forall a b, zip a b = zip b a.
  Proof.
    intros Hc a. induction a as [|x a IH]; intros [|y b]; try reflexivity.
    simpl. rewrite Hc. f_equal. apply IH.
  Qed.

  Lemma zip_assoc : (forall x y z, f x (f y z) = f (f x y) z) ->
                    forall a b c, zip (zip a b) c = zip a (zip b c).
  Proof.
    intros Ha a. induction a as [|x a IH]; intros [|y b] [|z c]; try reflexivity.
    simpl. rewrite Ha. f_equal. apply IH.
  Qed.

  Lemma zip_nth : forall a b k d,
      k < length a -> k < length b -> nth k (zip a b) d = f (nth k a d) (nth k b d).
  Proof.
    intro a. induction a as [|x a IH]; intros [|y b] k d Hka Hkb; simpl in *; try lia.
    destruct k as [|k]; [reflexivity |]. apply IH; lia.
  Qed.
End Zip.

(** * The value hypotheses of [Proofs/EngineValue.v] for the concrete engine

    With [sh := dims], [psh := p_dims], the hypotheses [add_ok], [add_comm], [add_assoc],
    [flat_sh] of [Section Value] hold for WELL-FORMED, NON-SCALAR arrays only.  The
    unconditional [add_ok] is false, even for well-formed arrays: the array with
    dimensions [[]] (one value; [mk [] [v]] succeeds) cannot be added to itself, and since
    [sh x = sh x] whatever [sh] is, no choice of [sh] repairs it. *)

Section ValueHyps.
  Context {F : Type} (O : ScalarOps F) (R : is_cring O).

  Local Notation E := (Program.E O).

  Definition scalar0 (v : F) : arr F := {| dims := []; vals := [v] |}.

  Lemma scalar0_wf : forall v, wf (scalar0 v).
  Proof. intro v. split; [constructor | reflexivity]. Qed.

  Lemma scalar0_add_fails : forall v w, a_add O (scalar0 v) (scalar0 w) = None.
  Proof. intros v w. reflexivity. Qed.

  Lemma scalar0_is_built : forall v, mk [] [v] = Some (scalar0 v).
  Proof. intro v. reflexivity. Qed.

  Theorem add_ok_false : forall (S : Type) (sh : arr F -> S),
      ~ (forall x y, sh x = sh y -> exists z, eo_add E x y = Some z /\ sh z = sh x).
  Proof.
    intros S sh H. destruct (H (scalar0 (f0 O)) (scalar0 (f0 O)) eq_refl) as (z & Hz & _).
    simpl in Hz. rewrite scalar0_add_fails in Hz. discriminate Hz.
  Qed.

  Lemma value_add_ok : forall x y : arr F,
      wf x -> wf y -> dims x = dims y -> dims x <> [] ->
      exists z, eo_add E x y = Some z /\ wf z /\ dims z = dims x.
  Proof.
    intros x y Hx Hy Hd Hne.
    destruct (a_add_same_dims O x y Hx Hy Hd Hne) as (c & Hc & Hwc & Hdc & _).
    exists c. simpl. tauto.
  Qed.

  Lemma a_add_nil_dims : forall x y : arr F, dims x = [] -> a_add O x y = None.
  Proof.
    intros x y Hd. unfold a_add, element_wise_op. rewrite Hd.
    destruct (element_wise_dimensions [] (dims y)); reflexivity.
  Qed.

  (** the point-wise sum of two arrays of equal dimensions: what [a_add] computes on them *)
  Definition psum (x y : arr F) : arr F :=
    {| dims := dims x; vals := map (fun p => fadd O (fst p) (snd p)) (combine (vals x) (vals y)) |}.

  Lemma psum_wf : forall x y, wf x -> wf y -> dims x = dims y -> wf (psum x y).
  Proof.
    intros x y [Hx1 Hx2] [_ Hy2] Hd. split; cbn [psum dims vals]; [exact Hx1 |].
    rewrite map_length, combine_length, <- Hx2, <- Hy2, <- Hd. symmetry. apply Nat.min_id.
  Qed.

  Lemma a_add_psum : forall x y : arr F,
      wf x -> wf y -> dims x = dims y ->
      a_add O x y = match dims x with [] => None | _ => Some (psum x y) end.
  Proof.
    intros x y Hx Hy Hd. destruct (dims x) as [|d0 dr] eqn:Hdx; [exact (a_add_nil_dims x y Hdx) |].
    rewrite <- Hdx in *.
    assert (Hne : dims x <> []) by (rewrite Hdx; discriminate).
    destruct (a_add_same_dims O x y Hx Hy Hd Hne) as (c & Hc & [_ Hlc] & Hdc & Hvc).
    rewrite Hc. f_equal. destruct (psum_wf x y Hx Hy Hd) as [_ Hlp].
    pose proof Hx as [_ Hlx]. pose proof Hy as [_ Hly]. cbn [psum dims] in Hlp.
    apply (arr_ext O); [exact Hdc | congruence |].
    intros k Hk. rewrite <- Hlc, Hdc in Hk. rewrite (Hvc k Hk). symmetry.
    apply zip_nth; [rewrite <- Hlx | rewrite <- Hly, <- Hd]; exact Hk.
  Qed.

  Lemma value_add_comm : forall x y : arr F,
      wf x -> wf y -> dims x = dims y -> eo_add E x y = eo_add E y x.
  Proof.
    intros x y Hx Hy Hd. cbn [eo_add Program.E].
    rewrite (a_add_psum x y Hx Hy Hd), (a_add_psum y x Hy Hx (eq_sym Hd)), <- Hd.
    replace (psum y x) with (psum x y); [reflexivity |].
    unfold psum. rewrite Hd. f_equal. apply zip_comm. apply (cr_add_comm O R).
  Qed.

  Lemma value_add_assoc : forall x y z xy yz : arr F,
      wf x -> wf y -> wf z -> dims x = dims y -> dims y = dims z ->
      eo_add E x y = Some xy -> eo_add E y z = Some yz -> eo_add E xy z = eo_add E x yz.
  Proof.
    intros x y z xy yz Hx Hy Hz Hxy Hyz H1 H2. cbn [eo_add Program.E] in *.
    rewrite (a_add_psum x y Hx Hy Hxy) in H1. rewrite (a_add_psum y z Hy Hz Hyz), <- Hxy in H2.
    rewrite (a_add_psum xy z), (a_add_psum x yz);
      destruct (dims x) eqn:Hdx; try discriminate H1;
      injection H1 as <-; injection H2 as <-; cbn [psum dims]; try congruence;
      try (apply psum_wf; congruence); try assumption.
    rewrite Hdx. f_equal. unfold psum. cbn [dims vals]. f_equal. apply zip_assoc.
    apply (cr_add_assoc O R).
  Qed.

  Lemma value_flat_sh : forall (d : arr F) (p : @pay F) d',
      wf d -> eo_flat E d p = Some d' -> wf d' /\ dims d' = p_dims p.
  Proof. intros d p d' Hd H. simpl in H. exact (flatten_to_shape O d d' _ Hd H). Qed.

  Lemma value_ones_sh : forall p : @pay F, dims (eo_ones E p) = p_dims p.
  Proof. reflexivity. Qed.

  Lemma value_ones_wf : forall p : @pay F, wf (pay_arr p) -> wf (eo_ones E p).
  Proof. intros p H. apply (wf_ones O p H). Qed.
End ValueHyps.

Print Assumptions good_init.
Print Assumptions good_gives.
Print Assumptions apply_op_post.
Print Assumptions pass_good.
Print Assumptions step_good.
Print Assumptions run_good.
Print Assumptions run_states_good.
Print Assumptions add_ok_false.
Print Assumptions value_add_ok.
Print Assumptions value_add_comm.
Print Assumptions value_add_assoc.
Print Assumptions value_flat_sh.
