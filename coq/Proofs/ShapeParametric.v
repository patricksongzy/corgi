(** C19 (provable part): switching the float width never changes shapes, tracking,
    or which inputs are accepted.

    Every model function is polymorphic in [ScalarOps F].  For two ARBITRARY scalar
    instances [O1 : ScalarOps F1], [O2 : ScalarOps F2] we prove, by a relational
    (parametricity-style) argument, that the whole model maps same-shaped data to
    same-shaped data and panics on exactly the same inputs:

      - Part 1: relational toolkit ([orel], [obind_rel], checked list accessors);
      - Part 2: arrays and derivative closures over an arbitrary relation [RF] on
        scalars ([arel], key lemma [sliced_op_relF] for closures in [sop_relF],
        [run_bop_relF] under [code_relF]); every lemma asks only that the scalar
        functions it meets respect [RF];
      - Part 3: the instance [RF := TT] ([same_shape], [sop_rel], [code_rel]);
      - Part 4: the engine -- abstraction theorem for [propagate] and [backward]
        over arbitrary payload/adjoint relations ([backward_rel]);
      - Part 5: the instruction interpreter -- [step_rel], [run_rel] under
        [instr_rel];
      - Part 6: the corollary [run_cast] for a program whose scalar constants are
        converted by an arbitrary function [cast : F1 -> F2].

    No model function branches on scalar values except [fgt0] in relu (which only
    selects a scalar) and [feqb] in [arr_eqb] (instruction [IEq], whose boolean is
    therefore excluded from the claim: see [obs_rel_for]). *)

From Coq Require Import List Arith Bool.
From Corgi Require Import Lib.OptionMonad Lib.IdxDefs Model.Scalar Model.Arr Model.SlicedOp
     Model.Elementwise Model.Linalg Model.Image Model.Ops Model.Engine Model.Program
     Proofs.SlicedOpSpec.
Import ListNotations.

(** * Part 1: relational toolkit *)

(** both panicked, or both returned and the results are related *)
Definition orel {A B} (R : A -> B -> Prop) (x : option A) (y : option B) : Prop :=
  match x, y with
  | None, None => True
  | Some a, Some b => R a b
  | _, _ => False
  end.

(** the full relation *)
Definition TT {A B} (a : A) (b : B) : Prop := True.

(** lists of equal length (the relation on scalar buffers) *)
Definition leq {A B} (l1 : list A) (l2 : list B) : Prop := length l1 = length l2.

(** pairs *)
Definition prel {A B C D} (R : A -> B -> Prop) (S : C -> D -> Prop)
           (p : A * C) (q : B * D) : Prop := R (fst p) (fst q) /\ S (snd p) (snd q).

Lemma orel_mono : forall {A B} (R S : A -> B -> Prop) x y,
    (forall a b, R a b -> S a b) -> orel R x y -> orel S x y.
Proof. intros A B R S [a|] [b|] H; simpl; auto. Qed.

Lemma orel_eq_refl : forall {A} (x : option A), orel eq x x.
Proof. intros A [a|]; simpl; auto. Qed.

Lemma orel_refl : forall {A} (R : A -> A -> Prop) (x : option A),
    (forall a, R a a) -> orel R x x.
Proof. intros A R [a|] H; simpl; auto. Qed.

Lemma obind_rel : forall {A1 A2 B1 B2} (R : A1 -> A2 -> Prop) (S : B1 -> B2 -> Prop)
                         (x : option A1) (y : option A2) f g,
    orel R x y ->
    (forall a b, R a b -> orel S (f a) (g b)) ->
    orel S (obind x f) (obind y g).
Proof. intros A1 A2 B1 B2 R S [a|] [b|] f g H K; simpl in *; auto; contradiction. Qed.

Lemma obind_rel_same : forall {A B1 B2} (S : B1 -> B2 -> Prop) (x : option A) f g,
    (forall a, orel S (f a) (g a)) ->
    orel S (obind x f) (obind x g).
Proof. intros A B1 B2 S [a|] f g K; simpl; auto. Qed.

Lemma guard_rel : forall b1 b2, b1 = b2 -> orel (@TT unit unit) (guard b1) (guard b2).
Proof. intros b1 b2 ->. destruct b2; simpl; exact I. Qed.

Lemma check_rel : forall {B1 B2} (S : B1 -> B2 -> Prop) b1 b2 (k1 : option B1) (k2 : option B2),
    b1 = b2 -> orel S k1 k2 ->
    orel S (obind (guard b1) (fun _ => k1)) (obind (guard b2) (fun _ => k2)).
Proof. intros B1 B2 S b1 b2 k1 k2 -> H. destruct b2; simpl; auto. Qed.

(** the second components agree and the continuations are related from related first ones *)
Lemma obind_rel_fst : forall {A1 A2 C B1 B2} (R : A1 -> A2 -> Prop) (S : B1 -> B2 -> Prop)
                             (x : option (A1 * C)) (y : option (A2 * C)) f g,
    orel (prel R eq) x y ->
    (forall a1 a2 c, R a1 a2 -> orel S (f (a1, c)) (g (a2, c))) ->
    orel S (obind x f) (obind y g).
Proof.
  intros A1 A2 C B1 B2 R S x y f g H K. eapply obind_rel; [exact H|].
  intros [a1 c1] [a2 c2] [Ha Hc]. cbn [fst snd] in Ha, Hc. subst c2. apply K, Ha.
Qed.

Lemma orel_some_inv : forall {A B} (R : A -> B -> Prop) x y a,
    orel R x y -> x = Some a -> exists b, y = Some b /\ R a b.
Proof. intros A B R x [b|] a H ->; simpl in H; [eauto|contradiction]. Qed.

Lemma orel_none_iff : forall {A B} (R : A -> B -> Prop) x y,
    orel R x y -> (x = None <-> y = None).
Proof. intros A B R [a|] [b|] H; simpl in H; split; intros; try contradiction; congruence. Qed.

(** ** Lists *)

Lemma F2_length : forall {A B} (R : A -> B -> Prop) l1 l2, Forall2 R l1 l2 -> length l1 = length l2.
Proof. exact @Forall2_len. Qed.

Lemma F2_leq : forall {A B} (R : A -> B -> Prop) l1 l2, Forall2 R l1 l2 -> leq l1 l2.
Proof. intros. unfold leq. eapply F2_length; eauto. Qed.

Lemma F2_TT : forall {A B} (l1 : list A) (l2 : list B), leq l1 l2 -> Forall2 TT l1 l2.
Proof.
  unfold leq. induction l1 as [|a l1 IH]; intros [|b l2] H; simpl in H; try discriminate; constructor.
  - exact I.
  - apply IH. congruence.
Qed.

Lemma F2_mono : forall {A B} (R S : A -> B -> Prop) l1 l2,
    (forall a b, R a b -> S a b) -> Forall2 R l1 l2 -> Forall2 S l1 l2.
Proof. intros A B R S l1 l2 H K. induction K; constructor; auto. Qed.

Lemma F2_refl : forall {A} (R : A -> A -> Prop) l, (forall a, R a a) -> Forall2 R l l.
Proof. intros A R l H. induction l; constructor; auto. Qed.

Lemma F2_1 : forall {A B} (R : A -> B -> Prop) a b, R a b -> Forall2 R [a] [b].
Proof. intros. constructor; [assumption|constructor]. Qed.

Lemma F2_2 : forall {A B} (R : A -> B -> Prop) a1 b1 a2 b2, R a1 b1 -> R a2 b2 -> Forall2 R [a1; a2] [b1; b2].
Proof. intros. constructor; [assumption|apply F2_1; assumption]. Qed.

Lemma F2_3 : forall {A B} (R : A -> B -> Prop) a1 b1 a2 b2 a3 b3,
    R a1 b1 -> R a2 b2 -> R a3 b3 -> Forall2 R [a1; a2; a3] [b1; b2; b3].
Proof. intros. constructor; [assumption|apply F2_2; assumption]. Qed.

Lemma F2_firstn : forall {A B} (R : A -> B -> Prop) n l1 l2,
    Forall2 R l1 l2 -> Forall2 R (firstn n l1) (firstn n l2).
Proof.
  intros A B R n l1 l2 H. revert n. induction H; intros [|n]; simpl; auto.
Qed.

Lemma F2_skipn : forall {A B} (R : A -> B -> Prop) n l1 l2,
    Forall2 R l1 l2 -> Forall2 R (skipn n l1) (skipn n l2).
Proof.
  intros A B R n l1 l2 H. revert n. induction H; intros [|n]; simpl; auto.
Qed.

Lemma F2_map : forall {A1 A2 B1 B2} (R : A1 -> A2 -> Prop) (S : B1 -> B2 -> Prop) f g l1 l2,
    (forall a b, R a b -> S (f a) (g b)) ->
    Forall2 R l1 l2 -> Forall2 S (map f l1) (map g l2).
Proof. intros A1 A2 B1 B2 R S f g l1 l2 H K. induction K; simpl; auto. Qed.

Lemma F2_map_same : forall {X B1 B2} (S : B1 -> B2 -> Prop) (f : X -> B1) (g : X -> B2) l,
    (forall x, S (f x) (g x)) -> Forall2 S (map f l) (map g l).
Proof. intros X B1 B2 S f g l H. induction l; simpl; auto. Qed.

Lemma F2_map_eq : forall {A1 A2 B} (R : A1 -> A2 -> Prop) (f : A1 -> B) (g : A2 -> B) l1 l2,
    (forall a b, R a b -> f a = g b) ->
    Forall2 R l1 l2 -> map f l1 = map g l2.
Proof. intros A1 A2 B R f g l1 l2 H K. induction K; simpl; f_equal; auto. Qed.

Lemma F2_combine : forall {A1 A2 B1 B2} (R : A1 -> A2 -> Prop) (S : B1 -> B2 -> Prop) l1 l2 m1 m2,
    Forall2 R l1 l2 -> Forall2 S m1 m2 -> Forall2 (prel R S) (combine l1 m1) (combine l2 m2).
Proof.
  intros A1 A2 B1 B2 R S l1 l2 m1 m2 H. revert m1 m2.
  induction H; intros m1 m2 K; destruct K; simpl; constructor; [split|]; auto.
Qed.

Lemma F2_combine_r : forall {X A B} (R : A -> B -> Prop) l1 l2 (es : list X),
    Forall2 R l1 l2 ->
    Forall2 (fun p q => R (fst p) (fst q) /\ snd p = snd q) (combine l1 es) (combine l2 es).
Proof. intros X A B R l1 l2 es H. apply (F2_combine R eq); [exact H|apply F2_refl; reflexivity]. Qed.

Lemma F2_repeat : forall {A B} (R : A -> B -> Prop) x y n, R x y -> Forall2 R (repeat x n) (repeat y n).
Proof. intros A B R x y n H. induction n; simpl; auto. Qed.

Lemma F2_concat : forall {A B} (R : A -> B -> Prop) l1 l2,
    Forall2 (Forall2 R) l1 l2 -> Forall2 R (concat l1) (concat l2).
Proof. intros A B R l1 l2 H. induction H; simpl; [constructor|apply Forall2_app; assumption]. Qed.

Lemma F2_nth : forall {A B} (R : A -> B -> Prop) i l1 l2 d1 d2,
    R d1 d2 -> Forall2 R l1 l2 -> R (nth i l1 d1) (nth i l2 d2).
Proof. intros A B R i l1 l2 d1 d2 Hd H. revert i. induction H; intros [|i]; simpl; auto. Qed.

Lemma forallb_F2 : forall {A B} (R : A -> B -> Prop) f g l1 l2,
    (forall a b, R a b -> f a = g b) ->
    Forall2 R l1 l2 -> forallb f l1 = forallb g l2.
Proof. intros A B R f g l1 l2 H K. induction K; simpl; [reflexivity|]. f_equal; auto. Qed.

Lemma filter_F2 : forall {A B} (R : A -> B -> Prop) f g l1 l2,
    (forall a b, R a b -> f a = g b) ->
    Forall2 R l1 l2 -> Forall2 R (filter f l1) (filter g l2).
Proof.
  intros A B R f g l1 l2 H K. induction K; simpl; [constructor|].
  rewrite (H _ _ H0). destruct (g y); auto.
Qed.

Lemma nth_error_F2 : forall {A B} (R : A -> B -> Prop) l1 l2 i,
    Forall2 R l1 l2 -> orel R (nth_error l1 i) (nth_error l2 i).
Proof.
  intros A B R l1 l2 i H. revert i. induction H; intros [|i]; simpl; auto.
Qed.

Lemma slice_F2 : forall {A B} (R : A -> B -> Prop) off len l1 l2,
    Forall2 R l1 l2 -> orel (Forall2 R) (slice off len l1) (slice off len l2).
Proof.
  intros A B R off len l1 l2 H. unfold slice. rewrite (F2_length _ _ _ H).
  destruct (off + len <=? length l2); cbn [orel]; [|exact I].
  apply F2_firstn, F2_skipn, H.
Qed.

Lemma splice_F2 : forall {A B} (R : A -> B -> Prop) off n1 n2 l1 l2,
    Forall2 R n1 n2 -> Forall2 R l1 l2 -> Forall2 R (splice off n1 l1) (splice off n2 l2).
Proof.
  intros A B R off n1 n2 l1 l2 Hn Hl. unfold splice. rewrite (F2_length _ _ _ Hn).
  apply Forall2_app; [apply F2_firstn, Hl|]. apply Forall2_app; [exact Hn|apply F2_skipn, Hl].
Qed.

Lemma set_nth_F2 : forall {A B} (R : A -> B -> Prop) i x y l1 l2,
    R x y -> Forall2 R l1 l2 -> orel (Forall2 R) (set_nth i x l1) (set_nth i y l2).
Proof.
  unfold set_nth. intros A B R i x y l1 l2 Hxy H. rewrite (F2_length _ _ _ H).
  destruct (i <? length l2); cbn [orel]; [|exact I].
  apply Forall2_app; [apply F2_firstn; assumption|].
  constructor; [assumption|apply (F2_skipn R (S i)); assumption].
Qed.

Lemma mapM_F2 : forall {A1 A2 B1 B2} (R : A1 -> A2 -> Prop) (S : B1 -> B2 -> Prop) f g l1 l2,
    (forall a b, R a b -> orel S (f a) (g b)) ->
    Forall2 R l1 l2 -> orel (Forall2 S) (mapM f l1) (mapM g l2).
Proof.
  intros A1 A2 B1 B2 R S f g l1 l2 H K. induction K; simpl; [constructor|].
  eapply obind_rel; [apply H; assumption|]. intros a b Hab.
  eapply obind_rel; [exact IHK|]. intros la lb Hl. simpl. constructor; assumption.
Qed.

Lemma mapM_same : forall {A B1 B2} (S : B1 -> B2 -> Prop) (f : A -> option B1) (g : A -> option B2) l,
    (forall a, orel S (f a) (g a)) -> orel (Forall2 S) (mapM f l) (mapM g l).
Proof.
  intros A B1 B2 S f g l H. apply mapM_F2 with (R := eq).
  - intros a b <-. apply H.
  - apply F2_refl. reflexivity.
Qed.

Lemma fold_left_rel : forall {A1 A2 X1 X2} (RA : A1 -> A2 -> Prop) (RX : X1 -> X2 -> Prop)
                             f1 f2 l1 l2 a1 a2,
    (forall a1 a2 x1 x2, RA a1 a2 -> RX x1 x2 -> RA (f1 a1 x1) (f2 a2 x2)) ->
    Forall2 RX l1 l2 -> RA a1 a2 ->
    RA (fold_left f1 l1 a1) (fold_left f2 l2 a2).
Proof.
  intros A1 A2 X1 X2 RA RX f1 f2 l1 l2 a1 a2 H K. revert a1 a2.
  induction K; intros a1 a2 Ha; simpl; auto.
Qed.

Lemma fold_left_rel_same : forall {A1 A2 X} (RA : A1 -> A2 -> Prop)
                                  (f1 : A1 -> X -> A1) (f2 : A2 -> X -> A2) l a1 a2,
    (forall a1 a2 x, RA a1 a2 -> RA (f1 a1 x) (f2 a2 x)) ->
    RA a1 a2 ->
    RA (fold_left f1 l a1) (fold_left f2 l a2).
Proof.
  intros A1 A2 X RA f1 f2 l a1 a2 H. revert a1 a2.
  induction l; intros a1 a2 Ha; simpl; auto.
Qed.

(** destruct one layer of a [Forall2] on operand lists, closing the panicking case *)
Ltac inv_f2 H :=
  let a := fresh "s" in let b := fresh "s" in let Hab := fresh "Hs" in
  destruct H as [|a b ? ? Hab H]; simpl; trivial.

(** * Part 2: arrays and closures over a relation on scalars *)

Section ArrRelF.
  Context {F1 F2 : Type} (RF : F1 -> F2 -> Prop).

  Definition arel (a1 : arr F1) (a2 : arr F2) : Prop :=
    dims a1 = dims a2 /\ Forall2 RF (vals a1) (vals a2).

  Definition rel1 (g1 : F1 -> F1) (g2 : F2 -> F2) : Prop :=
    forall x1 x2, RF x1 x2 -> RF (g1 x1) (g2 x2).

  Definition rel2 (g1 : F1 -> F1 -> F1) (g2 : F2 -> F2 -> F2) : Prop :=
    forall x1 x2 y1 y2, RF x1 x2 -> RF y1 y2 -> RF (g1 x1 y1) (g2 x2 y2).

  (** a closure of [sliced_op] that takes related slices to related slices *)
  Definition sop_relF (op1 : @sop F1) (op2 : @sop F2) : Prop :=
    forall cur1 cur2 sl1 sl2,
      Forall2 RF cur1 cur2 -> Forall2 (Forall2 RF) sl1 sl2 ->
      orel (Forall2 RF) (op1 cur1 sl1) (op2 cur2 sl2).

  Lemma arel_dims : forall a1 a2, arel a1 a2 -> dims a1 = dims a2.
  Proof. intros a1 a2 [H _]. exact H. Qed.

  Lemma arel_vals : forall a1 a2, arel a1 a2 -> Forall2 RF (vals a1) (vals a2).
  Proof. intros a1 a2 [_ H]. exact H. Qed.

  Lemma arel_length : forall a1 a2, arel a1 a2 -> length (vals a1) = length (vals a2).
  Proof. intros a1 a2 [_ H]. exact (F2_length _ _ _ H). Qed.

  (** ** Constructors *)

  Lemma mk_relF : forall d1 d2 (v1 : list F1) (v2 : list F2),
      d1 = d2 -> Forall2 RF v1 v2 -> orel arel (mk d1 v1) (mk d2 v2).
  Proof.
    intros d1 d2 v1 v2 <- H. unfold mk. rewrite (F2_length _ _ _ H).
    destruct (dims_valid d1); simpl; [|exact I].
    destruct (prod d1 =? length v2); simpl; [|exact I].
    split; [reflexivity|exact H].
  Qed.

  Lemma from_flat_relF : forall (v1 : list F1) (v2 : list F2),
      Forall2 RF v1 v2 -> orel arel (from_flat v1) (from_flat v2).
  Proof.
    intros v1 v2 H. unfold from_flat. apply mk_relF; [rewrite (F2_length _ _ _ H); reflexivity|exact H].
  Qed.

  Lemma from_arrays_relF : forall l1 l2,
      Forall2 arel l1 l2 -> orel arel (from_arrays l1) (from_arrays l2).
  Proof.
    intros l1 l2 H. destruct H as [|a1 a2 l1 l2 Ha Hl]; simpl; [exact I|].
    apply check_rel.
    - apply (forallb_F2 arel); [|exact Hl].
      intros b1 b2 Hb. rewrite (arel_dims _ _ Hb), (arel_dims _ _ Ha). reflexivity.
    - apply mk_relF.
      + rewrite (F2_length _ _ _ Hl), (arel_dims _ _ Ha). reflexivity.
      + apply Forall2_app; [apply arel_vals; exact Ha|].
        apply F2_concat. apply (F2_map arel); [exact arel_vals|exact Hl].
  Qed.

  Lemma a_reshape_relF : forall d a1 a2,
      arel a1 a2 -> orel arel (a_reshape d a1) (a_reshape d a2).
  Proof. intros d a1 a2 Ha. apply mk_relF; [reflexivity|apply arel_vals; exact Ha]. Qed.

  Lemma map_arr_relF : forall g1 g2 a1 a2,
      rel1 g1 g2 -> arel a1 a2 -> orel arel (map_arr g1 a1) (map_arr g2 a2).
  Proof.
    intros g1 g2 a1 a2 Hg Ha. apply mk_relF; [apply arel_dims; exact Ha|].
    apply (F2_map RF); [exact Hg|apply arel_vals; exact Ha].
  Qed.

  Lemma zip_vals_relF : forall g1 g2 a1 a2 b1 b2,
      rel2 g1 g2 -> arel a1 a2 -> arel b1 b2 -> orel arel (zip_vals g1 a1 b1) (zip_vals g2 a2 b2).
  Proof.
    intros g1 g2 a1 a2 b1 b2 Hg Ha Hb. apply mk_relF; [apply arel_dims; exact Ha|].
    apply (F2_map (prel RF RF)).
    - intros p q [H1 H2]. apply Hg; assumption.
    - apply F2_combine; apply arel_vals; assumption.
  Qed.

  Lemma index_multi_relF : forall a1 a2 idx,
      arel a1 a2 -> orel RF (index_multi a1 idx) (index_multi a2 idx).
  Proof.
    intros a1 a2 idx [Hd Hv]. unfold index_multi. rewrite Hd.
    apply obind_rel_same. intros off. apply nth_error_F2. exact Hv.
  Qed.

  Lemma index_flat_relF : forall a1 a2 i,
      arel a1 a2 -> orel RF (index_flat a1 i) (index_flat a2 i).
  Proof.
    intros a1 a2 i Ha. unfold index_flat. rewrite (arel_length _ _ Ha).
    apply check_rel; [reflexivity|]. apply nth_error_F2. apply arel_vals. exact Ha.
  Qed.

  (** ** The loop of [sliced_op] *)

  Lemma operand_slice_relF : forall k lc idx a1 a2,
      arel a1 a2 -> orel (Forall2 RF) (operand_slice k lc idx a1) (operand_slice k lc idx a2).
  Proof.
    intros k lc idx a1 a2 [Hd Hv]. unfold operand_slice, group_length. rewrite Hd.
    apply slice_F2. exact Hv.
  Qed.

  Lemma sliced_loop_relF : forall op1 op2 l1 l2 k lc lead out_dims ogl n idx out1 out2,
      sop_relF op1 op2 -> Forall2 arel l1 l2 -> Forall2 RF out1 out2 ->
      orel (Forall2 RF) (sliced_loop op1 l1 k lc lead out_dims ogl n idx out1)
                        (sliced_loop op2 l2 k lc lead out_dims ogl n idx out2).
  Proof.
    intros op1 op2 l1 l2 k lc lead out_dims ogl n idx out1 out2 Hop Hl.
    revert idx out1 out2. induction n as [|n IH]; intros idx out1 out2 Hout; simpl; [exact Hout|].
    eapply obind_rel.
    { apply (mapM_F2 arel); [|exact Hl]. intros a b Hab. apply operand_slice_relF. exact Hab. }
    intros sl1 sl2 Hsl.
    eapply obind_rel; [apply slice_F2; exact Hout|]. intros cur1 cur2 Hcur.
    eapply obind_rel; [apply Hop; [exact Hcur|exact Hsl]|]. intros new1 new2 Hnew.
    apply check_rel; [rewrite (F2_length _ _ _ Hnew); reflexivity|].
    apply IH. apply splice_F2; assumption.
  Qed.

  (** ** Closures that need nothing of the scalars *)

  Lemma unroll_sop_relF : forall depth rows cols sr sc fr fc rcount ccount,
      sop_relF (@unroll_sop F1 depth rows cols sr sc fr fc rcount ccount)
               (@unroll_sop F2 depth rows cols sr sc fr fc rcount ccount).
  Proof.
    intros depth rows cols sr sc fr fc rcount ccount cur1 cur2 sl1 sl2 Hcur Hsl. unfold unroll_sop.
    inv_f2 Hsl. inv_f2 Hsl.
    apply mapM_same. intros oi. apply nth_error_F2. assumption.
  Qed.

  Lemma fill_sop_relF : sop_relF (@fill_sop F1) (@fill_sop F2).
  Proof.
    intros cur1 cur2 sl1 sl2 Hcur Hsl. unfold fill_sop.
    inv_f2 Hsl. inv_f2 Hsl.
    eapply obind_rel; [apply (nth_error_F2 RF s s0 0); assumption|]. intros x1 x2 Hx.
    cbn [orel]. apply (F2_map RF); [intros; exact Hx|exact Hcur].
  Qed.

  Lemma ew_sop_relF : forall g1 g2 la lb, rel2 g1 g2 -> sop_relF (ew_sop g1 la lb) (ew_sop g2 la lb).
  Proof.
    intros g1 g2 la lb Hg cur1 cur2 sl1 sl2 Hcur Hsl. unfold ew_sop.
    inv_f2 Hsl. inv_f2 Hsl. inv_f2 Hsl.
    rewrite (F2_length _ _ _ Hcur). apply mapM_same. intros i.
    eapply obind_rel; [apply nth_error_F2; eassumption|]. intros x1 x2 Hx.
    eapply obind_rel; [apply nth_error_F2; eassumption|]. intros y1 y2 Hy.
    apply Hg; assumption.
  Qed.

  Lemma when_relF : forall b (x1 : option (arr F1)) (x2 : option (arr F2)),
      orel arel x1 x2 -> orel (orel arel) (when b x1) (when b x2).
  Proof.
    intros b x1 x2 H. unfold when. destruct b; [|exact I].
    eapply obind_rel; [exact H|]. intros r1 r2 Hr. exact Hr.
  Qed.

  Lemma flag_relF : forall (b : bool) x1 x2,
      arel x1 x2 -> orel arel (if b then Some x1 else None) (if b then Some x2 else None).
  Proof. intros [|] x1 x2 H; [exact H|exact I]. Qed.

  (** ** Operations that use the ring structure *)

  Variables (O1 : ScalarOps F1) (O2 : ScalarOps F2).

  Record ring_rel : Prop := {
    rr_0 : RF (f0 O1) (f0 O2);
    rr_1 : RF (f1 O1) (f1 O2);
    rr_add : rel2 (fadd O1) (fadd O2);
    rr_mul : rel2 (fmul O1) (fmul O2);
    rr_sub : rel2 (fsub O1) (fsub O2);
    rr_neg : rel1 (fneg O1) (fneg O2)
  }.

  Hypothesis HR : ring_rel.

  Lemma m1_relF : RF (m1 O1) (m1 O2).
  Proof. apply (rr_neg HR), (rr_1 HR). Qed.

  Lemma two_relF : RF (two O1) (two O2).
  Proof. apply (rr_add HR); apply (rr_1 HR). Qed.

  Lemma vsum_relF : forall l1 l2, Forall2 RF l1 l2 -> RF (vsum O1 l1) (vsum O2 l2).
  Proof.
    intros l1 l2 H. apply (fold_left_rel RF RF); [exact (rr_add HR)|exact H|exact (rr_0 HR)].
  Qed.

  Lemma zeros_relF : forall d, orel arel (zeros O1 d) (zeros O2 d).
  Proof. intros d. apply mk_relF; [reflexivity|]. apply F2_repeat, (rr_0 HR). Qed.

  Lemma zeros1_relF : arel (zeros1 O1) (zeros1 O2).
  Proof. split; [reflexivity|]. constructor; [exact (rr_0 HR)|constructor]. Qed.

  Theorem sliced_op_relF : forall l1 l2 op1 op2 in_dims out_dims k flatten,
      sop_relF op1 op2 -> Forall2 arel l1 l2 ->
      orel arel (sliced_op O1 l1 op1 in_dims out_dims k flatten)
                (sliced_op O2 l2 op2 in_dims out_dims k flatten).
  Proof.
    intros l1 l2 op1 op2 in_dims out_dims k flatten Hop Hl. rewrite !sliced_op_unfold. cbv zeta.
    apply check_rel.
    { apply (forallb_F2 arel); [|exact Hl]. intros a b Hab. unfold sliced_valid.
      rewrite (arel_dims _ _ Hab). reflexivity. }
    eapply obind_rel.
    { apply sliced_loop_relF; [exact Hop|exact Hl|]. apply F2_repeat, (rr_0 HR). }
    intros out1 out2 Hout. apply obind_rel_same. intros d'. apply mk_relF; [reflexivity|exact Hout].
  Qed.

  Theorem element_wise_op_relF : forall g1 g2 a1 a2 b1 b2,
      rel2 g1 g2 -> arel a1 a2 -> arel b1 b2 ->
      orel arel (element_wise_op O1 g1 a1 b1) (element_wise_op O2 g2 a2 b2).
  Proof.
    intros g1 g2 a1 a2 b1 b2 Hg Ha Hb. unfold element_wise_op.
    rewrite (arel_dims _ _ Ha), (arel_dims _ _ Hb).
    do 3 (apply obind_rel_same; intro).
    apply sliced_op_relF; [apply ew_sop_relF; exact Hg|apply F2_2; assumption].
  Qed.

  Lemma a_add_relF : forall a1 a2 b1 b2, arel a1 a2 -> arel b1 b2 ->
      orel arel (a_add O1 a1 b1) (a_add O2 a2 b2).
  Proof. intros. apply element_wise_op_relF; [exact (rr_add HR)|assumption|assumption]. Qed.

  Lemma a_mul_relF : forall a1 a2 b1 b2, arel a1 a2 -> arel b1 b2 ->
      orel arel (a_mul O1 a1 b1) (a_mul O2 a2 b2).
  Proof. intros. apply element_wise_op_relF; [exact (rr_mul HR)|assumption|assumption]. Qed.

  Lemma a_scale_relF : forall s1 s2 a1 a2, RF s1 s2 -> arel a1 a2 ->
      orel arel (a_scale O1 s1 a1) (a_scale O2 s2 a2).
  Proof.
    intros s1 s2 a1 a2 Hs Ha. apply map_arr_relF; [|exact Ha].
    intros x1 x2 Hx. apply (rr_mul HR); assumption.
  Qed.

  Lemma a_neg_relF : forall a1 a2, arel a1 a2 -> orel arel (a_neg O1 a1) (a_neg O2 a2).
  Proof. intros. apply a_scale_relF; [exact m1_relF|assumption]. Qed.

  Lemma a_sub_relF : forall a1 a2 b1 b2, arel a1 a2 -> arel b1 b2 ->
      orel arel (a_sub O1 a1 b1) (a_sub O2 a2 b2).
  Proof.
    intros a1 a2 b1 b2 Ha Hb. unfold a_sub.
    eapply obind_rel; [apply a_neg_relF; exact Hb|]. intros n1 n2 Hn. apply a_add_relF; assumption.
  Qed.

  Lemma a_axpy_relF : forall al1 al2 x1 x2 y1 y2, RF al1 al2 -> arel x1 x2 -> arel y1 y2 ->
      orel arel (a_axpy O1 al1 x1 y1) (a_axpy O2 al2 x2 y2).
  Proof.
    intros al1 al2 x1 x2 y1 y2 Hal Hx Hy. unfold a_axpy.
    eapply obind_rel; [apply a_scale_relF; assumption|]. intros n1 n2 Hn. apply a_add_relF; assumption.
  Qed.

  (** the scalar functions outside the ring enter as hypotheses *)
  Lemma a_div_relF : forall a1 a2 b1 b2, rel2 (fdiv O1) (fdiv O2) -> arel a1 a2 -> arel b1 b2 ->
      orel arel (a_div O1 a1 b1) (a_div O2 a2 b2).
  Proof. intros. apply element_wise_op_relF; assumption. Qed.

  Lemma a_reciprocal_relF : forall a1 a2, rel2 (fdiv O1) (fdiv O2) -> arel a1 a2 ->
      orel arel (a_reciprocal O1 a1) (a_reciprocal O2 a2).
  Proof.
    intros a1 a2 Hd Ha. apply map_arr_relF; [|exact Ha].
    intros x1 x2 Hx. apply Hd; [exact (rr_1 HR)|exact Hx].
  Qed.

  Lemma a_powf_relF : forall e1 e2 a1 a2, rel2 (fpow O1) (fpow O2) -> RF e1 e2 -> arel a1 a2 ->
      orel arel (a_powf O1 e1 a1) (a_powf O2 e2 a2).
  Proof.
    intros e1 e2 a1 a2 Hp He Ha. apply map_arr_relF; [|exact Ha].
    intros x1 x2 Hx. apply Hp; assumption.
  Qed.

  (** ** Reductions and [flatten_to] *)

  Lemma sum_sop_relF : sop_relF (sum_sop O1) (sum_sop O2).
  Proof.
    intros cur1 cur2 sl1 sl2 Hcur Hsl. unfold sum_sop.
    inv_f2 Hsl. inv_f2 Hsl.
    destruct Hcur; [exact I|]. constructor; [apply vsum_relF|]; assumption.
  Qed.

  Theorem a_sum_relF : forall k a1 a2, arel a1 a2 -> orel arel (a_sum O1 k a1) (a_sum O2 k a2).
  Proof.
    intros k a1 a2 Ha. unfold a_sum. destruct (k =? 0); [exact Ha|].
    rewrite (arel_dims _ _ Ha).
    apply sliced_op_relF; [apply sum_sop_relF|apply F2_1; assumption].
  Qed.

  Lemma strided_relF : forall i stride s1 s2,
      Forall2 RF s1 s2 -> Forall2 RF (strided O1 i stride s1) (strided O2 i stride s2).
  Proof.
    intros i stride s1 s2 H. unfold strided. rewrite (F2_length _ _ _ H).
    apply F2_map_same. intros j. apply F2_nth; [exact (rr_0 HR)|exact H].
  Qed.

  Lemma flatten_sop_relF : sop_relF (flatten_sop O1) (flatten_sop O2).
  Proof.
    intros cur1 cur2 sl1 sl2 Hcur Hsl. unfold flatten_sop.
    inv_f2 Hsl. inv_f2 Hsl.
    rewrite (F2_length _ _ _ Hcur). apply (F2_map (prel eq RF)).
    - intros p q [Hn Hx]. rewrite Hn. apply (rr_add HR); [exact Hx|].
      apply vsum_relF, strided_relF. assumption.
    - apply F2_combine; [apply F2_refl; reflexivity|exact Hcur].
  Qed.

  Theorem flatten_to_relF : forall a1 a2 target,
      arel a1 a2 -> orel arel (flatten_to O1 a1 target) (flatten_to O2 a2 target).
  Proof.
    intros a1 a2 target Ha. unfold flatten_to. rewrite (arel_dims _ _ Ha).
    destruct (dims_eqb (dims a2) target); [exact Ha|].
    eapply obind_rel with (R := arel).
    - destruct (length (dims a2) - length target =? 0); [exact Ha|].
      apply sliced_op_relF; [apply flatten_sop_relF|apply F2_1; assumption].
    - intros fl1 fl2 Hfl. rewrite (arel_dims _ _ Hfl).
      destruct (dims_eqb (dims fl2) target); [exact Hfl|].
      apply sliced_op_relF; [apply flatten_sop_relF|apply F2_1; assumption].
  Qed.

  (** ** matmul *)

  Lemma matmul_slice_relF : forall rows cols sum_len ta tb cur1 sa1 sb1 cur2 sa2 sb2,
      Forall2 RF cur1 cur2 -> Forall2 RF sa1 sa2 -> Forall2 RF sb1 sb2 ->
      orel (Forall2 RF) (matmul_slice O1 rows cols sum_len ta tb cur1 sa1 sb1)
                        (matmul_slice O2 rows cols sum_len ta tb cur2 sa2 sb2).
  Proof.
    intros rows cols sum_len ta tb cur1 sa1 sb1 cur2 sa2 sb2 Hc Ha Hb. unfold matmul_slice.
    apply mapM_same. intros p.
    eapply obind_rel with (R := Forall2 RF).
    - apply mapM_same. intros k.
      eapply obind_rel; [apply nth_error_F2; exact Ha|]. intros x1 x2 Hx.
      eapply obind_rel; [apply nth_error_F2; exact Hb|]. intros y1 y2 Hy.
      apply (rr_mul HR); assumption.
    - intros t1 t2 Ht.
      eapply obind_rel; [apply nth_error_F2; exact Hc|]. intros o1 o2 Ho.
      apply (rr_add HR); [exact Ho|apply vsum_relF; exact Ht].
  Qed.

  Lemma cyc_fill_relF : forall cur1 s1 cur2 s2,
      Forall2 RF cur1 cur2 -> Forall2 RF s1 s2 -> Forall2 RF (cyc_fill O1 cur1 s1) (cyc_fill O2 cur2 s2).
  Proof.
    intros cur1 s1 cur2 s2 Hc Hs. unfold cyc_fill.
    rewrite (F2_length _ _ _ Hc), (F2_length _ _ _ Hs). destruct Hs; [exact Hc|].
    apply F2_map_same. intros i. apply F2_nth; [exact (rr_0 HR)|constructor; assumption].
  Qed.

  Lemma matmul_sop_relF : forall set_output rows cols sum_len ta tb,
      sop_relF (matmul_sop O1 set_output rows cols sum_len ta tb)
               (matmul_sop O2 set_output rows cols sum_len ta tb).
  Proof.
    intros set_output rows cols sum_len ta tb cur1 cur2 sl1 sl2 Hcur Hsl. unfold matmul_sop.
    inv_f2 Hsl. inv_f2 Hsl. inv_f2 Hsl. inv_f2 Hsl.
    apply matmul_slice_relF; try assumption.
    destruct set_output; [apply cyc_fill_relF; assumption|exact Hcur].
  Qed.

  Theorem a_matmul_relF : forall a1 a2 ta b1 b2 tb c1 c2,
      arel a1 a2 -> arel b1 b2 -> orel arel c1 c2 ->
      orel arel (a_matmul O1 a1 ta b1 tb c1) (a_matmul O2 a2 ta b2 tb c2).
  Proof.
    intros a1 a2 ta b1 b2 tb c1 c2 Ha Hb Hc. unfold a_matmul.
    rewrite (arel_dims _ _ Ha), (arel_dims _ _ Hb).
    apply obind_rel_same. intros sh.
    destruct c1 as [c1|], c2 as [c2|]; simpl in Hc; try contradiction.
    - apply check_rel.
      { unfold bias_ok. rewrite (arel_dims _ _ Hc), (arel_length _ _ Hc). reflexivity. }
      apply sliced_op_relF; [apply matmul_sop_relF|apply F2_3; assumption].
    - apply check_rel; [reflexivity|].
      apply sliced_op_relF; [apply matmul_sop_relF|apply F2_3; [assumption|assumption|apply zeros1_relF]].
  Qed.

  (** ** Image operations *)

  Theorem unroll_blocks_relF : forall a1 a2 sr sc fr fc,
      arel a1 a2 -> orel arel (unroll_blocks O1 a1 sr sc fr fc) (unroll_blocks O2 a2 sr sc fr fc).
  Proof.
    intros a1 a2 sr sc fr fc Ha. unfold unroll_blocks. rewrite (arel_dims _ _ Ha).
    do 5 (apply obind_rel_same; intro).
    apply sliced_op_relF; [apply unroll_sop_relF|apply F2_1; assumption].
  Qed.

  Lemma roll_sop_relF : forall summed count depth rows cols sr sc fr fc ccount,
      sop_relF (roll_sop O1 summed count depth rows cols sr sc fr fc ccount)
               (roll_sop O2 summed count depth rows cols sr sc fr fc ccount).
  Proof.
    intros summed count depth rows cols sr sc fr fc ccount cur1 cur2 sl1 sl2 Hcur Hsl.
    unfold roll_sop. inv_f2 Hsl. inv_f2 Hsl.
    apply (fold_left_rel_same (orel (Forall2 RF))); [|exact Hcur].
    intros acc1 acc2 ii Hacc.
    eapply obind_rel; [exact Hacc|]. intros out1 out2 Hout.
    eapply obind_rel; [apply nth_error_F2; eassumption|]. intros x1 x2 Hx.
    eapply obind_rel; [apply nth_error_F2; exact Hout|]. intros o1 o2 Ho.
    apply set_nth_F2; [|exact Hout].
    destruct summed; [apply (rr_add HR); assumption|exact Hx].
  Qed.

  Theorem roll_blocks_relF : forall summed a1 a2 depth rows cols sr sc fr fc,
      arel a1 a2 ->
      orel arel (roll_blocks O1 summed a1 depth rows cols sr sc fr fc)
                (roll_blocks O2 summed a2 depth rows cols sr sc fr fc).
  Proof.
    intros summed a1 a2 depth rows cols sr sc fr fc Ha. unfold roll_blocks.
    rewrite (arel_dims _ _ Ha).
    apply obind_rel_same. intros count. apply obind_rel_same. intros ccount.
    apply sliced_op_relF; [apply roll_sop_relF|apply F2_1; assumption].
  Qed.

  Theorem expand_conv_relF : forall a1 a2 rcount ccount,
      arel a1 a2 -> orel arel (expand_conv O1 a1 rcount ccount) (expand_conv O2 a2 rcount ccount).
  Proof.
    intros a1 a2 rcount ccount Ha. unfold expand_conv.
    rewrite (arel_dims _ _ Ha), (arel_length _ _ Ha).
    apply obind_rel_same. intros fcount.
    apply check_rel; [reflexivity|].
    eapply obind_rel with (R := Forall2 RF).
    - apply mapM_same. intros ri. apply nth_error_F2. apply arel_vals. exact Ha.
    - intros v1 v2 Hvv. rewrite (F2_length _ _ _ Hvv).
      apply check_rel; [reflexivity|].
      apply mk_relF; [reflexivity|]. apply Forall2_app; [exact Hvv|apply F2_repeat, (rr_0 HR)].
  Qed.

  Theorem conv_relF : forall i1 i2 k1 k2 sr sc,
      arel i1 i2 -> arel k1 k2 -> orel arel (conv O1 i1 k1 sr sc) (conv O2 i2 k2 sr sc).
  Proof.
    intros i1 i2 k1 k2 sr sc Hi Hf. unfold conv.
    rewrite (arel_dims _ _ Hi), (arel_dims _ _ Hf).
    apply check_rel; [reflexivity|]. apply check_rel; [reflexivity|].
    do 7 (apply obind_rel_same; intro).
    eapply obind_rel; [apply unroll_blocks_relF; exact Hi|]. intros u1 u2 Hu.
    rewrite (arel_dims _ _ Hu).
    apply obind_rel_same. intros last.
    eapply obind_rel; [apply a_reshape_relF; exact Hf|]. intros fm1 fm2 Hfm.
    eapply obind_rel; [apply a_matmul_relF; [exact Hu|exact Hfm|exact I]|]. intros cv1 cv2 Hcv.
    apply expand_conv_relF. exact Hcv.
  Qed.

  (** ** Derivative closures *)

  Lemma mul_values_relF : forall a1 b1 a2 b2,
      Forall2 RF a1 a2 -> Forall2 RF b1 b2 -> Forall2 RF (mul_values O1 a1 b1) (mul_values O2 a2 b2).
  Proof.
    intros a1 b1 a2 b2 Ha Hb. apply (F2_map (prel RF RF)).
    - intros p q [H1 H2]. apply (rr_mul HR); assumption.
    - apply F2_combine; assumption.
  Qed.

  Theorem custom_forward_relF : forall c l1 l2,
      Forall2 arel l1 l2 -> orel arel (custom_forward O1 c l1) (custom_forward O2 c l2).
  Proof.
    intros c l1 l2 H. unfold custom_forward.
    destruct c; inv_f2 H; inv_f2 H; try inv_f2 H; apply zip_vals_relF; try assumption;
      try exact (rr_mul HR).
    intros x1 x2 y1 y2 Hx Hy. apply (rr_add HR); [exact Hx|]. apply (rr_mul HR); [exact two_relF|exact Hy].
  Qed.

  Lemma expand_back_relF : forall fcount stride m n x1 x2,
      Forall2 RF x1 x2 ->
      orel (Forall2 RF)
        (fold_left (fun acc di => out <- acc ;; v <- nth_error x1 di ;;
                                  set_nth (expand_index fcount stride di) v out)
                   (seq 0 m) (Some (repeat (f0 O1) n)))
        (fold_left (fun acc di => out <- acc ;; v <- nth_error x2 di ;;
                                  set_nth (expand_index fcount stride di) v out)
                   (seq 0 m) (Some (repeat (f0 O2) n))).
  Proof.
    intros fcount stride m n x1 x2 Hx.
    apply (fold_left_rel_same (orel (Forall2 RF))); [|apply F2_repeat, (rr_0 HR)].
    intros acc1 acc2 di Hacc.
    eapply obind_rel; [exact Hacc|]. intros out1 out2 Hout.
    eapply obind_rel; [apply nth_error_F2; exact Hx|]. intros v1 v2 Hv.
    apply set_nth_F2; assumption.
  Qed.

  (** The same constructor, with related captured data; a constructor whose closure
      calls scalar functions outside the ring carries the hypothesis that they
      respect [RF]. *)
  Inductive code_relF : bop_code F1 -> bop_code F2 -> Prop :=
  | CF_Add : code_relF BAdd BAdd
  | CF_Mul : code_relF BMul BMul
  | CF_Div : rel2 (fdiv O1) (fdiv O2) -> rel2 (fpow O1) (fpow O2) -> code_relF BDiv BDiv
  | CF_Neg : code_relF BNeg BNeg
  | CF_Scale : forall s1 s2, RF s1 s2 -> code_relF (BScale s1) (BScale s2)
  | CF_Recip : rel2 (fdiv O1) (fdiv O2) -> rel2 (fpow O1) (fpow O2) -> code_relF BRecip BRecip
  | CF_Powf : forall e1 e2, rel2 (fpow O1) (fpow O2) -> RF e1 e2 -> code_relF (BPowf e1) (BPowf e2)
  | CF_Ln : rel2 (fdiv O1) (fdiv O2) -> code_relF BLn BLn
  | CF_Exp : forall c1 c2, Forall2 RF c1 c2 -> code_relF (BExp c1) (BExp c2)
  | CF_Sum : forall k target, code_relF (BSum k target) (BSum k target)
  | CF_Reshape : code_relF BReshape BReshape
  | CF_Matmul : forall ta tb, code_relF (BMatmul ta tb) (BMatmul ta tb)
  | CF_Unroll : forall depth rows cols sr sc fr fc,
      code_relF (BUnroll depth rows cols sr sc fr fc) (BUnroll depth rows cols sr sc fr fc)
  | CF_Expand : forall fcount stride, code_relF (BExpand fcount stride) (BExpand fcount stride)
  | CF_Relu : rel1 (fun v => if fgt0 O1 v then f1 O1 else f0 O1)
                   (fun v => if fgt0 O2 v then f1 O2 else f0 O2) -> code_relF BRelu BRelu
  | CF_Sigmoid : forall c1 c2, Forall2 RF c1 c2 -> code_relF (BSigmoid c1) (BSigmoid c2)
  | CF_Custom : forall c, code_relF (BCustom c) (BCustom c).

  (** the next pair of children *)
  Ltac child H c e Hc := destruct H as [|c e ? ? Hc H]; cbn [run_bop].
  (** a closure given too few or too many children panics on both sides *)
  Ltac wrong_arity := exact I.

  Theorem run_bop_relF : forall code1 code2 cs1 cs2 t x1 x2,
      code_relF code1 code2 -> Forall2 arel cs1 cs2 -> arel x1 x2 ->
      orel (Forall2 (orel arel)) (run_bop O1 code1 cs1 t x1) (run_bop O2 code2 cs2 t x2).
  Proof.
    intros code1 code2 cs1 cs2 t x1 x2 Hcode Hcs Hx.
    destruct Hcode as [| |Hdiv Hpow| |s1 s2 Hs|Hdiv Hpow|e1 e2 Hpow He|Hdiv|k1 k2 Hk| | | | |
                       |Hrelu|k1 k2 Hk|c]; try destruct c;
      child Hcs c0 e0 Hc0; try (child Hcs c1 e1 Hc1); try (child Hcs c2 e2 Hc2);
      try (child Hcs c3 e3 Hc3).
    all: try wrong_arity.
    - (* BAdd *)
      apply F2_2; apply flag_relF, Hx.
    - (* BMul *)
      eapply obind_rel; [apply when_relF, a_mul_relF; assumption|]. intros d0 d0' H0.
      eapply obind_rel; [apply when_relF, a_mul_relF; assumption|]. intros d1 d1' H1. apply F2_2; assumption.
    - (* BDiv *)
      eapply obind_rel; [apply when_relF, a_div_relF; assumption|]. intros d0 d0' H0.
      eapply obind_rel.
      { apply when_relF.
        eapply obind_rel; [apply a_neg_relF; assumption|]. intros n n' Hn.
        eapply obind_rel; [apply a_powf_relF; [assumption|exact two_relF|assumption]|].
        intros p p' Hp.
        eapply obind_rel; [apply a_div_relF; assumption|]. intros q q' Hq.
        apply a_mul_relF; assumption. }
      intros d1 d1' H1. apply F2_2; assumption.
    - (* BNeg *)
      eapply obind_rel; [apply a_neg_relF; assumption|]. intros r r' Hr. apply F2_1; assumption.
    - (* BScale *)
      eapply obind_rel; [apply a_scale_relF; assumption|]. intros r r' Hr. apply F2_1; assumption.
    - (* BRecip *)
      eapply obind_rel; [apply a_reciprocal_relF; assumption|]. intros r r' Hr.
      eapply obind_rel; [apply a_powf_relF; [assumption|exact two_relF|assumption]|]. intros p p' Hp.
      eapply obind_rel; [apply a_neg_relF; assumption|]. intros n n' Hn.
      eapply obind_rel; [apply a_mul_relF; assumption|]. intros d d' Hd. apply F2_1; assumption.
    - (* BPowf *)
      eapply obind_rel.
      { apply a_powf_relF; [assumption| |assumption]. apply (rr_sub HR); [exact He|exact (rr_1 HR)]. }
      intros p p' Hp.
      eapply obind_rel; [apply a_scale_relF; assumption|]. intros s s' Hs.
      eapply obind_rel; [apply a_mul_relF; assumption|]. intros d d' Hd. apply F2_1; assumption.
    - (* BLn *)
      eapply obind_rel; [apply a_reciprocal_relF; assumption|]. intros r r' Hr.
      eapply obind_rel; [apply a_mul_relF; assumption|]. intros d d' Hd. apply F2_1; assumption.
    - (* BExp *)
      eapply obind_rel.
      { apply mk_relF; [apply arel_dims; assumption|].
        apply mul_values_relF; [apply arel_vals; assumption|assumption]. }
      intros d d' Hd. apply F2_1; assumption.
    - (* BSum *)
      eapply obind_rel; [apply a_reshape_relF; exact Hx|]. intros y y' Hy.
      rewrite (arel_dims _ _ Hc0).
      eapply obind_rel.
      { apply sliced_op_relF; [apply fill_sop_relF|apply F2_1, Hy]. }
      intros d d' Hd. apply F2_1; assumption.
    - (* BReshape *)
      rewrite (arel_dims _ _ Hc0).
      eapply obind_rel; [apply when_relF, a_reshape_relF; assumption|]. intros d d' Hd. apply F2_1; assumption.
    - (* BMatmul *)
      rewrite (arel_dims _ _ Hc0), (arel_dims _ _ Hc1).
      eapply obind_rel.
      { apply when_relF.
        destruct ((length (dims e0) <? 2) && (length (dims e1) <? 2) && negb ta && negb tb);
          [apply a_mul_relF; assumption|].
        destruct ta; apply a_matmul_relF; try assumption; exact I. }
      intros d0 d0' H0.
      eapply obind_rel.
      { apply when_relF.
        destruct ((length (dims e0) <? 2) && (length (dims e1) <? 2) && negb ta && negb tb);
          [apply a_mul_relF; assumption|].
        destruct tb; apply a_matmul_relF; try assumption; exact I. }
      intros d1 d1' H1. apply F2_3; [exact H0|exact H1|apply flag_relF, Hx].
    - (* BUnroll *)
      eapply obind_rel; [apply when_relF, roll_blocks_relF; assumption|]. intros d d' Hd. apply F2_1; assumption.
    - (* BExpand *)
      rewrite (arel_dims _ _ Hc0).
      apply check_rel; [reflexivity|].
      eapply obind_rel; [apply expand_back_relF, arel_vals; exact Hx|]. intros v v' Hv.
      eapply obind_rel; [apply mk_relF; [reflexivity|exact Hv]|]. intros d d' Hd. apply F2_1; assumption.
    - (* BRelu *)
      eapply obind_rel; [apply map_arr_relF; assumption|]. intros der der' Hder.
      eapply obind_rel; [apply a_mul_relF; assumption|]. intros d d' Hd. apply F2_1; assumption.
    - (* BSigmoid *)
      eapply obind_rel.
      { apply mk_relF; [apply arel_dims; assumption|].
        apply mul_values_relF; [|apply arel_vals; exact Hx].
        apply (F2_map RF); [|exact Hk]. intros v v' Hv.
        apply (rr_mul HR); [exact Hv|]. apply (rr_sub HR); [exact (rr_1 HR)|exact Hv]. }
      intros d d' Hd. apply F2_1; assumption.
    - (* CMul *)
      eapply obind_rel; [apply when_relF, zip_vals_relF; [exact (rr_mul HR)|assumption|assumption]|].
      intros d0 d0' H0.
      eapply obind_rel; [apply when_relF, zip_vals_relF; [exact (rr_mul HR)|assumption|assumption]|].
      intros d1 d1' H1. apply F2_2; assumption.
    - (* CAff *)
      eapply obind_rel; [apply when_relF, a_scale_relF; [exact two_relF|assumption]|].
      intros d1 d1' H1. apply F2_2; [apply flag_relF, Hx|exact H1].
    - (* CSq *)
      eapply obind_rel.
      { apply when_relF.
        eapply obind_rel; [apply a_scale_relF; [exact two_relF|assumption]|]. intros s s' Hs.
        apply zip_vals_relF; [exact (rr_mul HR)|assumption|assumption]. }
      intros d d' Hd. apply F2_1; assumption.
  Qed.

End ArrRelF.

(** * Part 3: shapes, the instance [RF := TT] *)

(** C19, array level: every forward array operation of the model maps same-shaped
    operands (over two arbitrary scalar instances) to same-shaped results, and
    panics on exactly the same inputs. *)

Section ArrRel.
  Context {F1 F2 : Type} (O1 : ScalarOps F1) (O2 : ScalarOps F2).

  Definition same_shape (a1 : arr F1) (a2 : arr F2) : Prop :=
    dims a1 = dims a2 /\ length (vals a1) = length (vals a2).

  (** a closure is shape-parametric: on slices of equal lengths both fail, or both
      succeed with results of equal length *)
  Definition sop_rel (op1 : @sop F1) (op2 : @sop F2) : Prop :=
    forall cur1 cur2 sl1 sl2,
      leq cur1 cur2 -> Forall2 leq sl1 sl2 -> orel leq (op1 cur1 sl1) (op2 cur2 sl2).

  Notation ar := (arel (@TT F1 F2)).

  Lemma same_shape_dims : forall a1 a2, same_shape a1 a2 -> dims a1 = dims a2.
  Proof. intros a1 a2 [H _]. exact H. Qed.

  Lemma same_shape_vals : forall a1 a2, same_shape a1 a2 -> leq (vals a1) (vals a2).
  Proof. intros a1 a2 [_ H]. exact H. Qed.

  Lemma ss_ar : forall a1 a2, same_shape a1 a2 <-> ar a1 a2.
  Proof.
    intros a1 a2. split; intros [Hd Hv]; (split; [exact Hd|]).
    - apply F2_TT. exact Hv.
    - exact (F2_length _ _ _ Hv).
  Qed.

  Lemma orel_ss_ar : forall x y, orel same_shape x y <-> orel ar x y.
  Proof. intros x y. split; apply orel_mono; intros a b; apply ss_ar. Qed.

  Lemma F2_ss_ar : forall l1 l2, Forall2 same_shape l1 l2 <-> Forall2 ar l1 l2.
  Proof. intros l1 l2. split; apply F2_mono; intros a b; apply ss_ar. Qed.

  Lemma ring_TT : ring_rel TT O1 O2.
  Proof. constructor; repeat intro; exact I. Qed.

  Lemma rel1_TT : forall g1 g2, rel1 (@TT F1 F2) g1 g2.
  Proof. repeat intro. exact I. Qed.

  Lemma rel2_TT : forall g1 g2, rel2 (@TT F1 F2) g1 g2.
  Proof. repeat intro. exact I. Qed.

  Lemma sop_rel_relF : forall op1 op2, sop_rel op1 op2 -> sop_relF TT op1 op2.
  Proof.
    intros op1 op2 H cur1 cur2 sl1 sl2 Hcur Hsl.
    eapply orel_mono; [exact (@F2_TT F1 F2)|]. apply H; [exact (F2_leq _ _ _ Hcur)|].
    eapply F2_mono; [|exact Hsl]. exact (F2_leq TT).
  Qed.

  (** ** Array operations *)

  Theorem sliced_op_rel : forall l1 l2 op1 op2 in_dims out_dims k flatten,
      sop_rel op1 op2 -> Forall2 same_shape l1 l2 ->
      orel same_shape (sliced_op O1 l1 op1 in_dims out_dims k flatten)
                      (sliced_op O2 l2 op2 in_dims out_dims k flatten).
  Proof.
    intros l1 l2 op1 op2 in_dims out_dims k flatten Hop Hl.
    apply orel_ss_ar, sliced_op_relF; [exact ring_TT|apply sop_rel_relF, Hop|apply F2_ss_ar, Hl].
  Qed.

  Lemma a_sub_rel : forall a1 a2 b1 b2, same_shape a1 a2 -> same_shape b1 b2 ->
      orel same_shape (a_sub O1 a1 b1) (a_sub O2 a2 b2).
  Proof.
    intros a1 a2 b1 b2 Ha Hb. apply orel_ss_ar, a_sub_relF; [exact ring_TT| |]; apply ss_ar; assumption.
  Qed.

  Lemma a_axpy_rel : forall al1 al2 x1 x2 y1 y2, same_shape x1 x2 -> same_shape y1 y2 ->
      orel same_shape (a_axpy O1 al1 x1 y1) (a_axpy O2 al2 x2 y2).
  Proof.
    intros al1 al2 x1 x2 y1 y2 Hx Hy.
    apply orel_ss_ar, a_axpy_relF; [exact ring_TT|exact I| |]; apply ss_ar; assumption.
  Qed.

  Theorem a_softmax_rel : forall a1 a2,
      same_shape a1 a2 -> orel same_shape (a_softmax O1 a1) (a_softmax O2 a2).
  Proof.
    intros a1 a2 Ha. unfold a_softmax. apply orel_ss_ar.
    eapply obind_rel; [apply map_arr_relF; [apply rel1_TT|apply ss_ar, Ha]|]. intros e1 e2 He.
    eapply obind_rel; [apply a_sum_relF; [exact ring_TT|exact He]|]. intros s1 s2 Hs.
    apply element_wise_op_relF; [exact ring_TT|apply rel2_TT|exact He|exact Hs].
  Qed.

  Theorem a_matmul_rel : forall a1 a2 ta b1 b2 tb c1 c2,
      same_shape a1 a2 -> same_shape b1 b2 -> orel same_shape c1 c2 ->
      orel same_shape (a_matmul O1 a1 ta b1 tb c1) (a_matmul O2 a2 ta b2 tb c2).
  Proof.
    intros a1 a2 ta b1 b2 tb c1 c2 Ha Hb Hc.
    apply orel_ss_ar, a_matmul_relF; [exact ring_TT|apply ss_ar, Ha|apply ss_ar, Hb|apply orel_ss_ar, Hc].
  Qed.

  Theorem conv_rel : forall i1 i2 f1 f2 sr sc,
      same_shape i1 i2 -> same_shape f1 f2 ->
      orel same_shape (conv O1 i1 f1 sr sc) (conv O2 i2 f2 sr sc).
  Proof.
    intros i1 i2 f1 f2 sr sc Hi Hf. apply orel_ss_ar, conv_relF; [exact ring_TT| |]; apply ss_ar; assumption.
  Qed.

  (** ** Derivative closures *)

  (** same constructor, same naturals and booleans, scalar lists of equal length,
      scalars unconstrained *)
  Inductive code_rel : bop_code F1 -> bop_code F2 -> Prop :=
  | CR_Add : code_rel BAdd BAdd
  | CR_Mul : code_rel BMul BMul
  | CR_Div : code_rel BDiv BDiv
  | CR_Neg : code_rel BNeg BNeg
  | CR_Scale : forall s1 s2, code_rel (BScale s1) (BScale s2)
  | CR_Recip : code_rel BRecip BRecip
  | CR_Powf : forall e1 e2, code_rel (BPowf e1) (BPowf e2)
  | CR_Ln : code_rel BLn BLn
  | CR_Exp : forall c1 c2, leq c1 c2 -> code_rel (BExp c1) (BExp c2)
  | CR_Sum : forall k target, code_rel (BSum k target) (BSum k target)
  | CR_Reshape : code_rel BReshape BReshape
  | CR_Matmul : forall ta tb, code_rel (BMatmul ta tb) (BMatmul ta tb)
  | CR_Unroll : forall depth rows cols sr sc fr fc,
      code_rel (BUnroll depth rows cols sr sc fr fc) (BUnroll depth rows cols sr sc fr fc)
  | CR_Expand : forall fcount stride, code_rel (BExpand fcount stride) (BExpand fcount stride)
  | CR_Relu : code_rel BRelu BRelu
  | CR_Sigmoid : forall c1 c2, leq c1 c2 -> code_rel (BSigmoid c1) (BSigmoid c2)
  | CR_Custom : forall c, code_rel (BCustom c) (BCustom c).

  Lemma code_rel_relF : forall c1 c2, code_rel c1 c2 -> code_relF TT O1 O2 c1 c2.
  Proof.
    intros c1 c2 H. destruct H; constructor; try (repeat intro; exact I); apply F2_TT; assumption.
  Qed.

  Theorem run_bop_rel : forall code1 code2 cs1 cs2 t x1 x2,
      code_rel code1 code2 -> Forall2 same_shape cs1 cs2 -> same_shape x1 x2 ->
      orel (Forall2 (orel same_shape)) (run_bop O1 code1 cs1 t x1) (run_bop O2 code2 cs2 t x2).
  Proof.
    intros code1 code2 cs1 cs2 t x1 x2 Hcode Hcs Hx.
    eapply orel_mono; [intros l1 l2; apply F2_mono; intros a b; apply orel_ss_ar|].
    apply run_bop_relF; [exact ring_TT|apply code_rel_relF, Hcode|apply F2_ss_ar, Hcs|apply ss_ar, Hx].
  Qed.
End ArrRel.

(** * Part 4: the engine *)

(** C19, engine: the abstraction theorem of [propagate] and [backward].  For two
    payload types, two adjoint types, relations [RP], [RD] between them and two
    records of engine operations that respect the relations, passes over
    node-wise related stores stay related (same children, flags and counts;
    related payloads; deltas and gradients present at the same nodes and related). *)


Section EngineRel.
  Context {P1 P2 D1 D2 : Type}.
  Variable RP : P1 -> P2 -> Prop.
  Variable RD : D1 -> D2 -> Prop.

  Definition node_rel (n1 : node P1 D1) (n2 : node P2 D2) : Prop :=
    RP (n_pay n1) (n_pay n2) /\
    n_children n1 = n_children n2 /\
    n_count n1 = n_count n2 /\
    orel RD (n_delta n1) (n_delta n2) /\
    orel RD (n_grad n1) (n_grad n2).

  Definition store_rel (g1 : store P1 D1) (g2 : store P2 D2) : Prop := Forall2 node_rel g1 g2.

  Definition trace_rel (l1 : list (nat * D1)) (l2 : list (nat * D2)) : Prop :=
    Forall2 (fun p q => fst p = fst q /\ RD (snd p) (snd q)) l1 l2.

  Lemma node_rel_pay : forall n1 n2, node_rel n1 n2 -> RP (n_pay n1) (n_pay n2).
  Proof. intros n1 n2 H. apply H. Qed.

  Lemma node_rel_children : forall n1 n2, node_rel n1 n2 -> n_children n1 = n_children n2.
  Proof. intros n1 n2 H. apply H. Qed.

  Lemma node_rel_count : forall n1 n2, node_rel n1 n2 -> n_count n1 = n_count n2.
  Proof. intros n1 n2 H. apply H. Qed.

  Lemma node_rel_delta : forall n1 n2, node_rel n1 n2 -> orel RD (n_delta n1) (n_delta n2).
  Proof. intros n1 n2 H. apply H. Qed.

  Lemma node_rel_grad : forall n1 n2, node_rel n1 n2 -> orel RD (n_grad n1) (n_grad n2).
  Proof. intros n1 n2 H. apply H. Qed.

  Lemma set_count_rel : forall n1 n2 c, node_rel n1 n2 -> node_rel (set_count n1 c) (set_count n2 c).
  Proof. intros n1 n2 c (Hp & Hc & Hn & Hd & Hg). repeat split; assumption. Qed.

  Lemma set_delta_rel : forall n1 n2 d1 d2,
      node_rel n1 n2 -> orel RD d1 d2 -> node_rel (set_delta n1 d1) (set_delta n2 d2).
  Proof. intros n1 n2 d1 d2 (Hp & Hc & Hn & Hd & Hg) H. repeat split; assumption. Qed.

  Lemma set_grad_rel : forall n1 n2 d1 d2,
      node_rel n1 n2 -> orel RD d1 d2 -> node_rel (set_grad n1 d1) (set_grad n2 d2).
  Proof. intros n1 n2 d1 d2 (Hp & Hc & Hn & Hd & Hg) H. repeat split; assumption. Qed.

  Lemma set_children_rel : forall n1 n2 es,
      node_rel n1 n2 -> node_rel (set_children n1 es) (set_children n2 es).
  Proof. intros n1 n2 es (Hp & Hc & Hn & Hd & Hg). repeat split; assumption. Qed.

  Lemma put_rel : forall g1 g2 id n1 n2,
      store_rel g1 g2 -> node_rel n1 n2 -> orel store_rel (put g1 id n1) (put g2 id n2).
  Proof. intros. apply set_nth_F2; assumption. Qed.

  Lemma get_rel : forall g1 g2 id,
      store_rel g1 g2 -> orel node_rel (nth_error g1 id) (nth_error g2 id).
  Proof. intros. apply nth_error_F2. assumption. Qed.

  (** [propagate] never looks at payloads or adjoints *)
  Theorem propagate_rel : forall fuel g1 g2 id,
      store_rel g1 g2 -> orel store_rel (propagate fuel g1 id) (propagate fuel g2 id).
  Proof.
    induction fuel as [|fuel IH]; intros g1 g2 id Hg; simpl; [exact I|].
    eapply obind_rel; [apply get_rel; exact Hg|]. intros nd1 nd2 Hnd.
    rewrite (node_rel_children _ _ Hnd).
    apply (fold_left_rel_same (orel store_rel)); [|exact Hg].
    intros acc1 acc2 e Hacc.
    eapply obind_rel; [exact Hacc|]. intros h1 h2 Hh.
    destruct (e_tracked e); [|exact Hh].
    eapply obind_rel; [apply get_rel; exact Hh|]. intros c1 c2 Hc.
    rewrite (node_rel_count _ _ Hc).
    eapply obind_rel; [apply put_rel; [exact Hh|apply set_count_rel; exact Hc]|]. intros k1 k2 Hk.
    destruct (n_count c2 =? 0); [apply IH|]; exact Hk.
  Qed.

  Variable E1 : eops P1 D1.
  Variable E2 : eops P2 D2.

  (** the two records of engine operations respect the relations *)
  Record eops_rel : Prop := {
    er_ones : forall p1 p2, RP p1 p2 -> RD (eo_ones E1 p1) (eo_ones E2 p2);
    er_flat : forall d1 d2 p1 p2,
        RD d1 d2 -> RP p1 p2 -> orel RD (eo_flat E1 d1 p1) (eo_flat E2 d2 p2);
    er_add : forall x1 x2 y1 y2,
        RD x1 x2 -> RD y1 y2 -> orel RD (eo_add E1 x1 y1) (eo_add E2 x2 y2);
    er_hasop : forall p1 p2, RP p1 p2 -> eo_hasop E1 p1 = eo_hasop E2 p2;
    er_bop : forall p1 p2 c1 c2 t x1 x2,
        RP p1 p2 -> Forall2 RP c1 c2 -> RD x1 x2 ->
        orel (Forall2 (orel RD)) (eo_bop E1 p1 c1 t x1) (eo_bop E2 p2 c2 t x2)
  }.

  Hypothesis HE : eops_rel.

  Definition res_rel : store P1 D1 * list (nat * D1) -> store P2 D2 * list (nat * D2) -> Prop :=
    prel store_rel trace_rel.

  Lemma accumulate_rel : forall (o1 : option D1) (o2 : option D2) d1 d2,
      orel RD o1 o2 -> RD d1 d2 ->
      orel RD (match o1 with Some x => eo_add E1 x d1 | None => Some d1 end)
              (match o2 with Some x => eo_add E2 x d2 | None => Some d2 end).
  Proof.
    intros [x1|] [x2|] d1 d2 Ho Hd; simpl in Ho; try contradiction.
    - apply (er_add HE); assumption.
    - exact Hd.
  Qed.

  Theorem backward_rel : forall fuel g1 g2 id keep seed1 seed2 log1 log2,
      store_rel g1 g2 -> orel RD seed1 seed2 -> trace_rel log1 log2 ->
      orel res_rel (backward E1 fuel g1 id keep seed1 log1) (backward E2 fuel g2 id keep seed2 log2).
  Proof.
    induction fuel as [|fuel IH]; intros g1 g2 id keep seed1 seed2 log1 log2 Hg Hseed Hlog;
      [exact I|]. cbn [backward].
    eapply obind_rel; [apply get_rel; exact Hg|]. intros nd1 nd2 Hnd.
    eapply obind_rel with (R := prel store_rel RD).
    { pose proof (node_rel_delta _ _ Hnd) as Hd.
      destruct (n_delta nd1) as [x1|], (n_delta nd2) as [x2|]; simpl in Hd; try contradiction.
      - eapply obind_rel; [apply put_rel; [exact Hg|apply set_delta_rel; [exact Hnd|exact I]]|].
        intros k1 k2 Hk. split; assumption.
      - eapply obind_rel; [apply propagate_rel; exact Hg|]. intros k1 k2 Hk.
        split; [exact Hk|]. cbn [snd].
        destruct seed1, seed2; simpl in Hseed; try contradiction; [exact Hseed|].
        apply (er_ones HE), (node_rel_pay _ _ Hnd). }
    intros [k1 delta1] [k2 delta2] [Hk Hdelta]. cbn [fst snd] in Hk, Hdelta.
    eapply obind_rel; [apply get_rel; exact Hk|]. intros m1 m2 Hm.
    eapply obind_rel with (R := res_rel).
    { rewrite (er_hasop HE _ _ (node_rel_pay _ _ Hm)), (node_rel_children _ _ Hm).
      destruct (eo_hasop E2 (n_pay m2)).
      - eapply obind_rel; [apply put_rel; [exact Hk|apply set_children_rel; exact Hm]|].
        intros ka1 ka2 Hka.
        eapply obind_rel with (R := Forall2 RP).
        { apply mapM_same. intros e.
          eapply obind_rel; [apply get_rel; exact Hka|]. intros c1 c2 Hc. exact (node_rel_pay _ _ Hc). }
        intros pays1 pays2 Hpays.
        eapply obind_rel; [apply (er_bop HE); [exact (node_rel_pay _ _ Hm)|exact Hpays|exact Hdelta]|].
        intros ds1 ds2 Hds.
        eapply obind_rel; [apply get_rel; exact Hka|]. intros ma1 ma2 Hma.
        rewrite (node_rel_children _ _ Hma).
        eapply obind_rel; [apply put_rel; [exact Hka|apply set_children_rel; exact Hma]|].
        intros kb1 kb2 Hkb.
        apply check_rel; [rewrite (F2_length _ _ _ Hds); reflexivity|].
        apply (fold_left_rel (orel res_rel) (prel eq (orel RD))).
        + intros acc1 acc2 [e1 od1] [e2 od2] Hacc [He Hod]. cbn [fst snd] in He, Hod. subst e2.
          eapply obind_rel; [exact Hacc|]. intros [h1 lg1] [h2 lg2] [Hh Hlg]. cbn [fst snd] in *.
          destruct od1 as [d1|], od2 as [d2|]; simpl in Hod; try contradiction; [|split; assumption].
          eapply obind_rel; [apply get_rel; exact Hh|]. intros c1 c2 Hc.
          eapply obind_rel; [apply (er_flat HE); [exact Hod|exact (node_rel_pay _ _ Hc)]|].
          intros f1 f2 Hf.
          eapply obind_rel; [apply accumulate_rel; [exact (node_rel_delta _ _ Hc)|exact Hf]|].
          intros nw1 nw2 Hnw.
          rewrite (node_rel_count _ _ Hc).
          apply check_rel; [reflexivity|].
          eapply obind_rel.
          { apply put_rel; [exact Hh|]. apply set_count_rel, set_delta_rel; assumption. }
          intros h1' h2' Hh'.
          destruct (n_count c2 =? 1); [|split; assumption].
          apply IH; [exact Hh'|exact I|exact Hlg].
        + apply F2_combine; [apply F2_refl; reflexivity|exact Hds].
        + split; [exact Hkb|]. cbn [snd].
          apply Forall2_app; [exact Hlog|]. constructor; [|constructor]. split; [reflexivity|exact Hdelta].
      - apply check_rel; [reflexivity|]. split; assumption. }
    intros [h1 lg1] [h2 lg2] [Hh Hlg]. cbn [fst snd] in Hh, Hlg.
    eapply obind_rel; [apply get_rel; exact Hh|]. intros r1 r2 Hr.
    rewrite (node_rel_children _ _ Hr).
    destruct ((match n_children r2 with [] => true | _ => false end) || keep); [|split; assumption].
    eapply obind_rel; [apply accumulate_rel; [exact (node_rel_grad _ _ Hr)|exact Hdelta]|].
    intros ng1 ng2 Hng.
    eapply obind_rel; [apply put_rel; [exact Hh|apply set_grad_rel; assumption]|].
    intros z1 z2 Hz. split; assumption.
  Qed.

  Corollary run_backward_rel : forall g1 g2 id keep seed1 seed2,
      store_rel g1 g2 -> orel RD seed1 seed2 ->
      orel res_rel (run_backward E1 g1 id keep seed1) (run_backward E2 g2 id keep seed2).
  Proof.
    intros. unfold run_backward. apply backward_rel; [assumption|assumption|constructor].
  Qed.
End EngineRel.

(** * Part 5: programs *)

(** C19, programs: the interpreter of Model/Program.v over two scalar instances,
    on related instruction lists, panics at the same instruction (or not at all)
    and produces observations with the same kinds, the same naturals and scalar
    lists of equal lengths. *)


Section ProgramRel.
  Context {F1 F2 : Type} (O1 : ScalarOps F1) (O2 : ScalarOps F2).

  Notation ss := (@same_shape F1 F2).
  Notation crel := (@code_rel F1 F2).
  Notation ar := (arel (@TT F1 F2)).

  (** ** Payloads, nodes, states *)

  Definition pay_rel (p1 : @pay F1) (p2 : @pay F2) : Prop :=
    p_dims p1 = p_dims p2 /\
    leq (p_vals p1) (p_vals p2) /\
    orel crel (p_bop p1) (p_bop p2) /\
    p_buf p1 = p_buf p2 /\
    p_tag p1 = p_tag p2.

  Definition nodes_rel : list (@gnode F1) -> list (@gnode F2) -> Prop := store_rel pay_rel ss.

  Definition state_rel (s1 : @state F1) (s2 : @state F2) : Prop :=
    nodes_rel (st_nodes s1) (st_nodes s2) /\
    st_pool s1 = st_pool s2 /\
    st_layers s1 = st_layers s2 /\
    st_cost s1 = st_cost s2 /\
    st_output s1 = st_output s2 /\
    st_tag s1 = st_tag s2.

  Definition sh_rel : @state F1 * handle -> @state F2 * handle -> Prop := prel state_rel eq.

  Lemma pay_arr_rel : forall p1 p2, pay_rel p1 p2 -> ar (pay_arr p1) (pay_arr p2).
  Proof. intros p1 p2 (Hd & Hv & _). split; [exact Hd|apply F2_TT, Hv]. Qed.

  Lemma pay_bop_rel : forall p1 p2, pay_rel p1 p2 -> orel crel (p_bop p1) (p_bop p2).
  Proof. intros p1 p2 H. apply H. Qed.

  (** related closures sit under the same constructor *)
  Lemma bop_match_eq : forall {X} (k1 : bop_code F1 -> X) (k2 : bop_code F2 -> X) d b1 b2,
      orel crel b1 b2 -> (forall c1 c2, crel c1 c2 -> k1 c1 = k2 c2) ->
      match b1 with Some c => k1 c | None => d end = match b2 with Some c => k2 c | None => d end.
  Proof. intros X k1 k2 d [c1|] [c2|] Hb H; simpl in Hb; try contradiction; auto. Qed.

  Lemma E_rel : eops_rel pay_rel ss (E O1) (E O2).
  Proof.
    constructor; simpl.
    - intros p1 p2 (Hd & Hv & _). split; simpl; [exact Hd|]. rewrite !repeat_length. exact Hv.
    - intros d1 d2 p1 p2 Hd (Hp & _). rewrite Hp.
      apply orel_ss_ar, flatten_to_relF; [exact (ring_TT O1 O2)|apply ss_ar, Hd].
    - intros x1 x2 y1 y2 Hx Hy.
      apply orel_ss_ar, a_add_relF; [exact (ring_TT O1 O2)|apply ss_ar, Hx|apply ss_ar, Hy].
    - intros p1 p2 Hp. apply bop_match_eq; [exact (pay_bop_rel _ _ Hp)|reflexivity].
    - intros p1 p2 c1 c2 t x1 x2 Hp Hc Hx.
      eapply obind_rel; [exact (pay_bop_rel _ _ Hp)|]. intros code1 code2 Hcode.
      apply run_bop_rel; [exact Hcode| |exact Hx].
      apply F2_ss_ar, (F2_map pay_rel); [exact pay_arr_rel|exact Hc].
  Qed.

  Lemma init_state_rel : state_rel (init_state O1) (init_state O2).
  Proof. repeat split; simpl. constructor. Qed.

  Ltac st_split := repeat split; simpl; try assumption; try reflexivity.

  Lemma with_nodes_rel : forall s1 s2 g1 g2,
      state_rel s1 s2 -> nodes_rel g1 g2 -> state_rel (with_nodes s1 g1) (with_nodes s2 g2).
  Proof. intros s1 s2 g1 g2 (Hn & Hp & Hl & Hc & Ho & Ht) Hg. st_split. Qed.

  Lemma with_pool_rel : forall s1 s2 p,
      state_rel s1 s2 -> state_rel (with_pool s1 p) (with_pool s2 p).
  Proof. intros s1 s2 p (Hn & Hp & Hl & Hc & Ho & Ht). st_split. Qed.

  Lemma with_layers_rel : forall s1 s2 l,
      state_rel s1 s2 -> state_rel (with_layers s1 l) (with_layers s2 l).
  Proof. intros s1 s2 p (Hn & Hp & Hl & Hc & Ho & Ht). st_split. Qed.

  Lemma with_output_rel : forall s1 s2 o,
      state_rel s1 s2 -> state_rel (with_output s1 o) (with_output s2 o).
  Proof. intros s1 s2 p (Hn & Hp & Hl & Hc & Ho & Ht). st_split. Qed.

  Lemma with_tag_rel : forall s1 s2 t,
      state_rel s1 s2 -> state_rel (with_tag s1 t) (with_tag s2 t).
  Proof. intros s1 s2 p (Hn & Hp & Hl & Hc & Ho & Ht). st_split. Qed.

  Lemma with_config_rel : forall s1 s2 c lr1 lr2,
      state_rel s1 s2 -> state_rel (with_config s1 c lr1) (with_config s2 c lr2).
  Proof. intros s1 s2 c lr1 lr2 (Hn & Hp & Hl & Hc & Ho & Ht). st_split. Qed.

  Lemma st_nodes_rel : forall s1 s2, state_rel s1 s2 -> nodes_rel (st_nodes s1) (st_nodes s2).
  Proof. intros s1 s2 H. apply H. Qed.
  Lemma st_pool_eq : forall s1 s2, state_rel s1 s2 -> st_pool s1 = st_pool s2.
  Proof. intros s1 s2 H. apply H. Qed.
  Lemma st_layers_eq : forall s1 s2, state_rel s1 s2 -> st_layers s1 = st_layers s2.
  Proof. intros s1 s2 H. apply H. Qed.
  Lemma st_cost_eq : forall s1 s2, state_rel s1 s2 -> st_cost s1 = st_cost s2.
  Proof. intros s1 s2 H. apply H. Qed.
  Lemma st_output_eq : forall s1 s2, state_rel s1 s2 -> st_output s1 = st_output s2.
  Proof. intros s1 s2 H. apply H. Qed.
  Lemma st_tag_eq : forall s1 s2, state_rel s1 s2 -> st_tag s1 = st_tag s2.
  Proof. intros s1 s2 H. apply H. Qed.

  Lemma h_node_rel : forall s1 s2 h,
      state_rel s1 s2 -> orel (node_rel pay_rel ss) (h_node s1 h) (h_node s2 h).
  Proof. intros s1 s2 h Hs. apply get_rel, st_nodes_rel, Hs. Qed.

  Lemma h_arr_rel : forall s1 s2 h, state_rel s1 s2 -> orel ar (h_arr s1 h) (h_arr s2 h).
  Proof.
    intros s1 s2 h Hs. unfold h_arr.
    eapply obind_rel; [apply h_node_rel; exact Hs|]. intros n1 n2 Hn.
    apply pay_arr_rel, (node_rel_pay _ _ _ _ Hn).
  Qed.

  Lemma grad_of_rel : forall s1 s2 h, state_rel s1 s2 -> orel ss (grad_of s1 h) (grad_of s2 h).
  Proof.
    intros s1 s2 h Hs. unfold grad_of.
    pose proof (h_node_rel _ _ h Hs) as Hn.
    destruct (h_node s1 h), (h_node s2 h); simpl in Hn; try contradiction; [|exact I].
    exact (node_rel_grad _ _ _ _ Hn).
  Qed.

  Lemma alloc_rel : forall s1 s2 a1 a2 ch b1 b2 buf,
      state_rel s1 s2 -> ar a1 a2 -> orel crel b1 b2 ->
      sh_rel (alloc s1 a1 ch b1 buf) (alloc s2 a2 ch b2 buf).
  Proof.
    intros s1 s2 a1 a2 ch b1 b2 buf Hs [Hd Hv] Hb. apply F2_length in Hv. unfold alloc.
    pose proof (st_nodes_rel _ _ Hs) as Hn.
    assert (Hlen : length (st_nodes s1) = length (st_nodes s2)) by exact (F2_length _ _ _ Hn).
    rewrite Hlen, (st_tag_eq _ _ Hs).
    rewrite (bop_match_eq (fun _ => true) (fun _ => true) false b1 b2 Hb) by reflexivity.
    split; cbn [fst snd]; [|reflexivity].
    apply with_nodes_rel; [exact Hs|].
    apply Forall2_app; [exact Hn|]. constructor; [|constructor].
    repeat split; simpl; try assumption; exact I.
  Qed.

  (** [let '(t, h) := alloc ..] on both sides: the handles agree and the continuations
      start from related states *)
  Lemma alloc_let_rel : forall {B1 B2} (S : B1 -> B2 -> Prop) s1 s2 a1 a2 ch b1 b2 buf
                               (k1 : @state F1 -> handle -> B1) (k2 : @state F2 -> handle -> B2),
      state_rel s1 s2 -> ar a1 a2 -> orel crel b1 b2 ->
      (forall t1 t2 h, state_rel t1 t2 -> S (k1 t1 h) (k2 t2 h)) ->
      S (let '(t, h) := alloc s1 a1 ch b1 buf in k1 t h) (let '(t, h) := alloc s2 a2 ch b2 buf in k2 t h).
  Proof.
    intros B1 B2 S s1 s2 a1 a2 ch b1 b2 buf k1 k2 Hs Ha Hb K.
    pose proof (alloc_rel s1 s2 a1 a2 ch b1 b2 buf Hs Ha Hb) as H.
    destruct (alloc s1 a1 ch b1 buf) as [t1 h1], (alloc s2 a2 ch b2 buf) as [t2 h2].
    destruct H as [Ht Hh]. cbn [fst snd] in Ht, Hh. subst h2. apply K, Ht.
  Qed.

  Lemma alloc_if_rel : forall s1 s2 a1 a2 tr ch b1 b2,
      state_rel s1 s2 -> ar a1 a2 -> crel b1 b2 ->
      sh_rel (alloc_if s1 a1 tr ch b1) (alloc_if s2 a2 tr ch b2).
  Proof.
    intros. unfold alloc_if. destruct tr; apply alloc_rel; try assumption; exact I.
  Qed.

  (** ** Operations *)

  Inductive opk_rel : @opk F1 -> @opk F2 -> Prop :=
  | KR_Add : opk_rel OAdd OAdd
  | KR_Sub : opk_rel OSub OSub
  | KR_Mul : opk_rel OMul OMul
  | KR_Div : opk_rel ODiv ODiv
  | KR_Neg : opk_rel ONeg ONeg
  | KR_Scale : forall c1 c2, opk_rel (OScale c1) (OScale c2)
  | KR_Recip : opk_rel ORecip ORecip
  | KR_Powf : forall e1 e2, opk_rel (OPowf e1) (OPowf e2)
  | KR_Ln : opk_rel OLn OLn
  | KR_Exp : opk_rel OExp OExp
  | KR_Sum : forall k, opk_rel (OSum k) (OSum k)
  | KR_Reshape : forall d, opk_rel (OReshape d) (OReshape d)
  | KR_Matmul : forall ta tb, opk_rel (OMatmul ta tb) (OMatmul ta tb)
  | KR_Conv : forall sr sc, opk_rel (OConv sr sc) (OConv sr sc)
  | KR_Relu : opk_rel ORelu ORelu
  | KR_Sigmoid : opk_rel OSigmoid OSigmoid
  | KR_Softmax : opk_rel OSoftmax OSoftmax
  | KR_Axpy : forall a1 a2, opk_rel (OAxpy a1) (OAxpy a2)
  | KR_Custom : forall c, opk_rel (OCustom c) (OCustom c).

  Lemma unary_rel : forall s1 s2 h fwd1 fwd2 code1 code2,
      state_rel s1 s2 ->
      (forall a1 a2, ar a1 a2 -> orel ar (fwd1 a1) (fwd2 a2)) ->
      (forall r1 r2, ar r1 r2 -> crel (code1 r1) (code2 r2)) ->
      orel sh_rel (unary s1 h fwd1 code1) (unary s2 h fwd2 code2).
  Proof.
    intros s1 s2 h fwd1 fwd2 code1 code2 Hs Hf Hc. unfold unary.
    eapply obind_rel; [apply h_arr_rel; exact Hs|]. intros a1 a2 Ha.
    eapply obind_rel; [apply Hf; exact Ha|]. intros r1 r2 Hr.
    apply alloc_if_rel; [exact Hs|exact Hr|apply Hc; exact Hr].
  Qed.

  Lemma ar_leq : forall a1 a2, ar a1 a2 -> leq (vals a1) (vals a2).
  Proof. intros a1 a2 H. exact (arel_length _ _ _ H). Qed.

  (** the eight unary operations: the forward function is a [map_arr] *)
  Lemma unary_map_rel : forall s1 s2 h g1 g2 code1 code2,
      state_rel s1 s2 -> (forall r1 r2, ar r1 r2 -> crel (code1 r1) (code2 r2)) ->
      orel sh_rel (unary s1 h (map_arr g1) code1) (unary s2 h (map_arr g2) code2).
  Proof.
    intros. apply unary_rel; [assumption| |assumption].
    intros a1 a2 Ha. apply map_arr_relF; [apply rel1_TT|exact Ha].
  Qed.

  (** the three binary operations: the forward function is an [element_wise_op] *)
  Lemma binary_rel : forall s1 s2 ha hb g1 g2 code1 code2,
      state_rel s1 s2 -> crel code1 code2 ->
      orel sh_rel (binary s1 ha hb (element_wise_op O1 g1) code1)
                  (binary s2 ha hb (element_wise_op O2 g2) code2).
  Proof.
    intros s1 s2 ha hb g1 g2 code1 code2 Hs Hc. unfold binary.
    eapply obind_rel; [apply h_arr_rel; exact Hs|]. intros a1 a2 Ha.
    eapply obind_rel; [apply h_arr_rel; exact Hs|]. intros b1 b2 Hb.
    eapply obind_rel; [apply element_wise_op_relF; [exact (ring_TT O1 O2)|apply rel2_TT|exact Ha|exact Hb]|].
    intros r1 r2 Hr. apply alloc_if_rel; assumption.
  Qed.

  Lemma op_sum_rel : forall s1 s2 k h,
      state_rel s1 s2 -> orel sh_rel (op_sum O1 s1 k h) (op_sum O2 s2 k h).
  Proof.
    intros s1 s2 k h Hs. unfold op_sum. destruct (k =? 0); [split; [exact Hs|reflexivity]|].
    eapply obind_rel; [apply h_arr_rel; exact Hs|]. intros a1 a2 Ha.
    apply unary_rel; [exact Hs|intros; apply a_sum_relF; [exact (ring_TT O1 O2)|assumption]|].
    intros r1 r2 _. rewrite (arel_dims _ _ _ Ha). constructor.
  Qed.

  Lemma op_reshape_rel : forall s1 s2 d h,
      state_rel s1 s2 -> orel sh_rel (op_reshape s1 d h) (op_reshape s2 d h).
  Proof.
    intros s1 s2 d h Hs. unfold op_reshape.
    eapply obind_rel; [apply h_node_rel; exact Hs|]. intros n1 n2 Hn.
    pose proof (node_rel_pay _ _ _ _ Hn) as Hp.
    eapply obind_rel; [apply a_reshape_relF, pay_arr_rel, Hp|]. intros r1 r2 Hr.
    destruct Hp as (_ & _ & _ & Hb & _). rewrite Hb. cbn [orel].
    destruct (e_tracked h); apply alloc_rel; try assumption; [constructor|exact I].
  Qed.

  Lemma op_matmul_rel : forall s1 s2 ta tb ha hb hc,
      state_rel s1 s2 -> orel sh_rel (op_matmul O1 s1 ta tb ha hb hc) (op_matmul O2 s2 ta tb ha hb hc).
  Proof.
    intros s1 s2 ta tb ha hb hc Hs. unfold op_matmul.
    eapply obind_rel; [apply h_arr_rel; exact Hs|]. intros a1 a2 Ha.
    eapply obind_rel; [apply h_arr_rel; exact Hs|]. intros b1 b2 Hb.
    eapply obind_rel with (R := orel ar).
    { destruct hc as [h|]; [|exact I].
      eapply obind_rel; [apply h_arr_rel; exact Hs|]. intros x1 x2 Hx. exact Hx. }
    intros c1 c2 Hc.
    eapply obind_rel; [apply a_matmul_relF; [exact (ring_TT O1 O2)|assumption..]|]. intros r1 r2 Hr.
    destruct (e_tracked ha || e_tracked hb || match hc with Some h => e_tracked h | None => false end);
      [|apply alloc_rel; [exact Hs|exact Hr|exact I]].
    destruct hc as [h|]; [apply alloc_rel; [exact Hs|exact Hr|constructor]|].
    apply alloc_let_rel; [exact Hs|apply zeros1_relF, ring_TT|exact I|]. intros t1 t2 h3 Ht.
    apply alloc_rel; [exact Ht|exact Hr|constructor].
  Qed.

  Lemma op_unroll_rel : forall s1 s2 h sr sc fr fc,
      state_rel s1 s2 -> orel sh_rel (op_unroll O1 s1 h sr sc fr fc) (op_unroll O2 s2 h sr sc fr fc).
  Proof.
    intros s1 s2 h sr sc fr fc Hs. unfold op_unroll.
    eapply obind_rel; [apply h_arr_rel; exact Hs|]. intros a1 a2 Ha.
    rewrite (arel_dims _ _ _ Ha).
    do 3 (apply obind_rel_same; intro).
    eapply obind_rel; [apply unroll_blocks_relF; [exact (ring_TT O1 O2)|exact Ha]|]. intros r1 r2 Hr.
    apply alloc_if_rel; try assumption. constructor.
  Qed.

  Lemma op_expand_rel : forall s1 s2 h rcount ccount,
      state_rel s1 s2 -> orel sh_rel (op_expand O1 s1 h rcount ccount) (op_expand O2 s2 h rcount ccount).
  Proof.
    intros s1 s2 h rcount ccount Hs. unfold op_expand.
    eapply obind_rel; [apply h_arr_rel; exact Hs|]. intros a1 a2 Ha.
    rewrite (arel_dims _ _ _ Ha).
    apply obind_rel_same. intros fcount.
    eapply obind_rel; [apply expand_conv_relF; [exact (ring_TT O1 O2)|exact Ha]|]. intros r1 r2 Hr.
    apply alloc_if_rel; try assumption. constructor.
  Qed.

  Lemma op_conv_rel : forall s1 s2 sr sc hi hf,
      state_rel s1 s2 -> orel sh_rel (op_conv O1 s1 sr sc hi hf) (op_conv O2 s2 sr sc hi hf).
  Proof.
    intros s1 s2 sr sc hi hf Hs. unfold op_conv.
    eapply obind_rel; [apply h_arr_rel; exact Hs|]. intros i1 i2 Hi.
    eapply obind_rel; [apply h_arr_rel; exact Hs|]. intros f1 f2 Hf.
    rewrite (arel_dims _ _ _ Hi), (arel_dims _ _ _ Hf).
    apply check_rel; [reflexivity|]. apply check_rel; [reflexivity|].
    do 7 (apply obind_rel_same; intro).
    eapply obind_rel_fst; [apply op_unroll_rel; exact Hs|]. intros t1 t2 hu Ht.
    eapply obind_rel; [apply h_arr_rel; exact Ht|]. intros u1 u2 Hu.
    rewrite (arel_dims _ _ _ Hu).
    apply obind_rel_same. intros last.
    eapply obind_rel_fst; [apply op_reshape_rel; exact Ht|]. intros v1 v2 hm Hv.
    eapply obind_rel_fst; [apply op_matmul_rel; exact Hv|]. intros w1 w2 hc Hw.
    apply op_expand_rel. exact Hw.
  Qed.

  Lemma op_sub_rel : forall s1 s2 ha hb,
      state_rel s1 s2 -> orel sh_rel (op_sub O1 s1 ha hb) (op_sub O2 s2 ha hb).
  Proof.
    intros s1 s2 ha hb Hs. unfold op_sub.
    eapply obind_rel_fst; [apply unary_map_rel; [exact Hs|intros; constructor]|]. intros t1 t2 hn Ht.
    apply binary_rel; [exact Ht|constructor].
  Qed.

  Lemma op_axpy_rel : forall s1 s2 al1 al2 hx hy,
      state_rel s1 s2 -> orel sh_rel (op_axpy O1 s1 al1 hx hy) (op_axpy O2 s2 al2 hx hy).
  Proof.
    intros s1 s2 al1 al2 hx hy Hs. unfold op_axpy.
    eapply obind_rel_fst; [apply unary_map_rel; [exact Hs|intros; constructor]|]. intros t1 t2 hn Ht.
    apply binary_rel; [exact Ht|constructor].
  Qed.

  Lemma op_softmax_rel : forall s1 s2 h,
      state_rel s1 s2 -> orel sh_rel (op_softmax O1 s1 h) (op_softmax O2 s2 h).
  Proof.
    intros s1 s2 h Hs. unfold op_softmax.
    eapply obind_rel_fst.
    { apply unary_map_rel; [exact Hs|]. intros r1 r2 Hr. constructor. apply ar_leq, Hr. }
    intros t1 t2 he Ht.
    eapply obind_rel_fst; [apply op_sum_rel; exact Ht|]. intros u1 u2 hs Hu.
    apply binary_rel; [exact Hu|constructor].
  Qed.

  Lemma op_custom_rel : forall s1 s2 c hs,
      state_rel s1 s2 -> orel sh_rel (op_custom O1 s1 c hs) (op_custom O2 s2 c hs).
  Proof.
    intros s1 s2 c hs Hs. unfold op_custom.
    eapply obind_rel with (R := Forall2 ar).
    { apply mapM_same. intros h. apply h_arr_rel. exact Hs. }
    intros l1 l2 Hl.
    eapply obind_rel; [apply custom_forward_relF; [exact (ring_TT O1 O2)|exact Hl]|]. intros r1 r2 Hr.
    apply alloc_rel; [exact Hs|exact Hr|constructor].
  Qed.

  Theorem apply_op_rel : forall s1 s2 k1 k2 hs,
      state_rel s1 s2 -> opk_rel k1 k2 ->
      orel sh_rel (apply_op O1 s1 k1 hs) (apply_op O2 s2 k2 hs).
  Proof.
    intros s1 s2 k1 k2 hs Hs Hk. unfold apply_op.
    destruct Hk.
    19: (* OCustom takes any number of operands *) apply op_custom_rel, Hs.
    all: destruct hs as [|ha [|hb [|hc [|hd hs]]]].
    (* with the wrong number of operands both sides panic *)
    all: try exact I.
    - (* OAdd *) apply binary_rel; [exact Hs|constructor].
    - (* OSub *) apply op_sub_rel, Hs.
    - (* OMul *) apply binary_rel; [exact Hs|constructor].
    - (* ODiv *) apply binary_rel; [exact Hs|constructor].
    - (* ONeg *) apply unary_map_rel; [exact Hs|intros; constructor].
    - (* OScale *) apply unary_map_rel; [exact Hs|intros; constructor].
    - (* ORecip *) apply unary_map_rel; [exact Hs|intros; constructor].
    - (* OPowf *) apply unary_map_rel; [exact Hs|intros; constructor].
    - (* OLn *) apply unary_map_rel; [exact Hs|intros; constructor].
    - (* OExp *) apply unary_map_rel; [exact Hs|]. intros r1 r2 Hr. constructor. apply ar_leq, Hr.
    - (* OSum *) apply op_sum_rel, Hs.
    - (* OReshape *) apply op_reshape_rel, Hs.
    - (* OMatmul, two operands *) apply op_matmul_rel, Hs.
    - (* OMatmul, with the additive term *) apply op_matmul_rel, Hs.
    - (* OConv *) apply op_conv_rel, Hs.
    - (* ORelu *) apply unary_map_rel; [exact Hs|intros; constructor].
    - (* OSigmoid *) apply unary_map_rel; [exact Hs|]. intros r1 r2 Hr. constructor. apply ar_leq, Hr.
    - (* OSoftmax *) apply op_softmax_rel, Hs.
    - (* OAxpy *) apply op_axpy_rel, Hs.
  Qed.

  (** ** Ownership *)

  (** a function of the node at [id] that respects [node_rel] takes the same value on
      both stores *)
  Lemma node_match_eq : forall {X} (k1 : @gnode F1 -> X) (k2 : @gnode F2 -> X) d g1 g2 id,
      nodes_rel g1 g2 -> (forall n1 n2, node_rel pay_rel ss n1 n2 -> k1 n1 = k2 n2) ->
      match nth_error g1 id with Some nd => k1 nd | None => d end
      = match nth_error g2 id with Some nd => k2 nd | None => d end.
  Proof.
    intros X k1 k2 d g1 g2 id Hg H.
    assert (Hn : orel (node_rel pay_rel ss) (nth_error g1 id) (nth_error g2 id)) by apply get_rel, Hg.
    destruct (nth_error g1 id), (nth_error g2 id); simpl in Hn; try contradiction; auto.
  Qed.

  Lemma reach_rel : forall fuel g1 g2 todo seen,
      nodes_rel g1 g2 -> reach fuel g1 todo seen = reach fuel g2 todo seen.
  Proof.
    induction fuel as [|fuel IH]; intros g1 g2 todo seen Hg; simpl; [reflexivity|].
    destruct todo as [|id rest]; [reflexivity|].
    destruct (existsb (Nat.eqb id) seen); [apply IH; exact Hg|].
    rewrite (node_match_eq (fun nd => map e_node (n_children nd)) (fun nd => map e_node (n_children nd))
                           [] g1 g2 id Hg).
    - apply IH. exact Hg.
    - intros n1 n2 Hn. rewrite (node_rel_children _ _ _ _ Hn). reflexivity.
  Qed.

  Lemma buf_of_rel : forall g1 g2 id, nodes_rel g1 g2 -> buf_of g1 id = buf_of g2 id.
  Proof.
    intros g1 g2 id Hg. unfold buf_of.
    apply node_match_eq; [exact Hg|]. intros n1 n2 Hn. apply (node_rel_pay _ _ _ _ Hn).
  Qed.

  Lemma roots_rel : forall s1 s2, state_rel s1 s2 -> roots s1 = roots s2.
  Proof.
    intros s1 s2 Hs. unfold roots.
    rewrite (st_pool_eq _ _ Hs), (st_layers_eq _ _ Hs), (st_output_eq _ _ Hs). reflexivity.
  Qed.

  Lemma edges_rel : forall g1 g2,
      nodes_rel g1 g2 ->
      fold_right (fun (nd : node (@pay F1) (arr F1)) acc => length (n_children nd) + acc) 0 g1
      = fold_right (fun (nd : node (@pay F2) (arr F2)) acc => length (n_children nd) + acc) 0 g2.
  Proof.
    intros g1 g2 Hg. induction Hg as [|n1 n2 g1 g2 Hn Hg IH]; simpl; [reflexivity|].
    rewrite (node_rel_children _ _ _ _ Hn), IH. reflexivity.
  Qed.

  Lemma count_buf_rel : forall g1 g2 b (l : list handle),
      nodes_rel g1 g2 ->
      count_if (fun h => buf_of g1 (e_node h) =? b) l = count_if (fun h => buf_of g2 (e_node h) =? b) l.
  Proof.
    intros g1 g2 b l Hg. unfold count_if. f_equal. apply filter_ext.
    intros h. rewrite (buf_of_rel _ _ _ Hg). reflexivity.
  Qed.

  Theorem strong_count_rel : forall s1 s2 b,
      state_rel s1 s2 -> strong_count s1 b = strong_count s2 b.
  Proof.
    intros s1 s2 b Hs. unfold strong_count. cbv zeta.
    pose proof (st_nodes_rel _ _ Hs) as Hg.
    assert (Hlen : length (st_nodes s1) = length (st_nodes s2)) by exact (F2_length _ _ _ Hg).
    rewrite (roots_rel _ _ Hs), (edges_rel _ _ Hg), Hlen.
    rewrite (reach_rel _ _ _ _ _ Hg).
    f_equal; [apply count_buf_rel, Hg|].
    apply fold_right_ext. intros id acc. apply node_match_eq; [exact Hg|].
    intros n1 n2 Hn. pose proof (node_rel_pay _ _ _ _ Hn) as (_ & _ & Hb & Hbuf & _).
    rewrite (node_rel_children _ _ _ _ Hn), Hbuf. f_equal. f_equal; [apply count_buf_rel, Hg|].
    apply bop_match_eq; [exact Hb|]. intros c1 c2 Hc. destruct Hc; reflexivity.
  Qed.

  (** ** Optimizer *)

  Lemma clear_grad_rel : forall s1 s2 h,
      state_rel s1 s2 -> orel state_rel (clear_grad s1 h) (clear_grad s2 h).
  Proof.
    intros s1 s2 h Hs. unfold clear_grad.
    eapply obind_rel; [apply h_node_rel; exact Hs|]. intros n1 n2 Hn.
    eapply obind_rel.
    { apply put_rel; [apply st_nodes_rel; exact Hs|]. apply set_grad_rel; [exact Hn|exact I]. }
    intros g1 g2 Hg. apply with_nodes_rel; assumption.
  Qed.

  Lemma sgd_zip_length : forall {F} (O : ScalarOps F) lr xs gs, length (sgd_zip O lr xs gs) = length xs.
  Proof.
    intros F O lr xs. induction xs as [|x xs IH]; intros [|g gs]; simpl; try reflexivity.
    rewrite IH. reflexivity.
  Qed.

  Lemma frozen_rel : forall s1 s2 params taken,
      state_rel s1 s2 ->
      frozen_flags s1 taken params = frozen_flags s2 taken params.
  Proof.
    intros s1 s2 params. induction params as [|h params IH]; intros taken Hs; [reflexivity|].
    cbn [frozen_flags]. pose proof (grad_of_rel _ _ h Hs) as Hg.
    destruct (grad_of s1 h), (grad_of s2 h); simpl in Hg; try contradiction.
    - destruct (existsb (Nat.eqb (e_node h)) taken); f_equal; apply IH; exact Hs.
    - f_equal. apply IH. exact Hs.
  Qed.

  Theorem gd_update_rel : forall s1 s2 lr1 lr2 params,
      state_rel s1 s2 ->
      orel (prel state_rel eq) (gd_update O1 s1 lr1 params) (gd_update O2 s2 lr2 params).
  Proof.
    intros s1 s2 lr1 lr2 params Hs. unfold gd_update. cbv zeta.
    rewrite (frozen_rel _ _ params [] Hs).
    eapply obind_rel with (R := Forall2 (Forall2 TT)).
    { apply mapM_same. intros h.
      eapply obind_rel; [apply h_arr_rel; exact Hs|]. intros a1 a2 Ha.
      apply arel_vals, Ha. }
    intros pv1 pv2 Hpv.
    eapply obind_rel with (R := Forall2 (Forall2 TT)).
    { apply mapM_same. intros h.
      eapply obind_rel; [apply grad_of_rel; exact Hs|]. intros a1 a2 Ha.
      apply F2_TT, same_shape_vals, Ha. }
    intros pg1 pg2 _.
    eapply obind_rel with (R := state_rel).
    { apply (fold_left_rel_same (orel state_rel)); [|exact Hs].
      intros acc1 acc2 h Hacc.
      eapply obind_rel; [exact Hacc|]. intros t1 t2 Ht. apply clear_grad_rel. exact Ht. }
    intros t1 t2 Ht.
    (* the loop keeps related states, buffers of equal length and the same handles *)
    eapply obind_rel_fst with (R := prel state_rel leq).
    { apply (fold_left_rel_same (orel (prel (prel state_rel leq) eq))).
      - intros acc1 acc2 [h fz] Hacc.
        eapply obind_rel_fst; [exact Hacc|]. intros [u1 buf1] [u2 buf2] out [Hu Hbuf].
        cbn [fst snd] in Hu, Hbuf |- *. unfold leq in Hbuf.
        destruct fz; [split; [split; assumption|reflexivity]|].
        eapply obind_rel; [apply h_arr_rel; exact Hu|]. intros a1 a2 Ha.
        rewrite (arel_dims _ _ _ Ha), (arel_length _ _ _ Ha), Hbuf.
        apply check_rel; [reflexivity|].
        eapply obind_rel.
        { apply mk_relF; [reflexivity|]. apply F2_TT. unfold leq. rewrite !firstn_length, Hbuf. reflexivity. }
        intros na1 na2 Hna.
        apply alloc_let_rel; [exact Hu|exact Hna|exact I|]. intros w1 w2 hn Hw.
        split; [split; [exact Hw|]|reflexivity]. cbn [fst snd]. unfold leq.
        rewrite !skipn_length, Hbuf. reflexivity.
      - split; [split; [exact Ht|]|reflexivity]. cbn [fst snd].
        unfold leq. rewrite !sgd_zip_length. exact (F2_length _ _ _ (F2_concat TT _ _ Hpv)). }
    intros [u1 buf1] [u2 buf2] out [Hu _]. split; [exact Hu|reflexivity].
  Qed.

  (** ** Layers, costs, model *)

  Lemma apply_act_rel : forall s1 s2 a h,
      state_rel s1 s2 -> orel sh_rel (apply_act O1 s1 a h) (apply_act O2 s2 a h).
  Proof.
    intros s1 s2 a h Hs. destruct a; cbn [apply_act].
    - split; [exact Hs|reflexivity].
    - (* relu *) apply unary_map_rel; [exact Hs|intros; constructor].
    - (* sigmoid *) apply unary_map_rel; [exact Hs|]. intros r1 r2 Hr. constructor. apply ar_leq, Hr.
    - apply op_softmax_rel, Hs.
  Qed.

  Lemma layer_forward_rel : forall s1 s2 l input,
      state_rel s1 s2 -> orel sh_rel (layer_forward O1 s1 l input) (layer_forward O2 s2 l input).
  Proof.
    intros s1 s2 l input Hs. unfold layer_forward. destruct (l_conv l) as [[sr sc]|].
    - eapply obind_rel_fst; [apply op_conv_rel; exact Hs|]. intros t1 t2 hc Ht.
      eapply obind_rel_fst; [apply binary_rel; [exact Ht|constructor]|]. intros u1 u2 h Hu.
      apply apply_act_rel, Hu.
    - eapply obind_rel_fst; [apply op_matmul_rel; exact Hs|]. intros t1 t2 h Ht.
      apply apply_act_rel, Ht.
  Qed.

  Lemma model_forward_rel : forall s1 s2 input,
      state_rel s1 s2 -> orel sh_rel (model_forward O1 s1 input) (model_forward O2 s2 input).
  Proof.
    intros s1 s2 input Hs. unfold model_forward. rewrite (st_layers_eq _ _ Hs).
    eapply obind_rel_fst.
    { apply (fold_left_rel_same (orel sh_rel)); [|split; [exact Hs|reflexivity]].
      intros acc1 acc2 l Hacc.
      eapply obind_rel_fst; [exact Hacc|]. intros t1 t2 h Ht. apply layer_forward_rel, Ht. }
    intros t1 t2 h Ht. split; [|reflexivity]. apply with_output_rel, Ht.
  Qed.

  Lemma cost_apply_rel : forall s1 s2 c output target,
      state_rel s1 s2 ->
      orel sh_rel (cost_apply O1 s1 c output target) (cost_apply O2 s2 c output target).
  Proof.
    intros s1 s2 c output target Hs. unfold cost_apply.
    eapply obind_rel; [apply h_arr_rel; exact Hs|]. intros o1 o2 Ho.
    destruct c.
    - eapply obind_rel_fst; [apply op_sub_rel; exact Hs|]. intros t1 t2 d Ht.
      eapply obind_rel_fst; [apply unary_map_rel; [exact Ht|intros; constructor]|]. intros u1 u2 p Hu.
      apply unary_map_rel; [exact Hu|intros; constructor].
    - rewrite (arel_dims _ _ _ Ho). apply obind_rel_same. intros batch.
      eapply obind_rel_fst; [apply unary_map_rel; [exact Hs|intros; constructor]|]. intros t1 t2 nt Ht.
      eapply obind_rel_fst; [apply unary_map_rel; [exact Ht|intros; constructor]|]. intros u1 u2 lo Hu.
      eapply obind_rel_fst; [apply binary_rel; [exact Hu|constructor]|]. intros v1 v2 m Hv.
      apply unary_map_rel; [exact Hv|intros; constructor].
  Qed.

  Lemma model_backward_rel : forall s1 s2 target,
      state_rel s1 s2 ->
      orel (prel state_rel TT) (model_backward O1 s1 target) (model_backward O2 s2 target).
  Proof.
    intros s1 s2 target Hs. unfold model_backward.
    rewrite (st_output_eq _ _ Hs), (st_cost_eq _ _ Hs).
    apply obind_rel_same. intros output.
    eapply obind_rel_fst; [apply cost_apply_rel; exact Hs|]. intros t1 t2 err Ht.
    eapply obind_rel.
    { apply (run_backward_rel pay_rel ss (E O1) (E O2) E_rel); [apply st_nodes_rel; exact Ht|exact I]. }
    intros res1 res2 [Hres _].
    eapply obind_rel; [apply h_arr_rel; exact Ht|]. intros ea1 ea2 _.
    split; [|exact I]. apply with_nodes_rel; assumption.
  Qed.

  Lemma model_params_rel : forall s1 s2, state_rel s1 s2 -> model_params s1 = model_params s2.
  Proof. intros s1 s2 Hs. unfold model_params. rewrite (st_layers_eq _ _ Hs). reflexivity. Qed.

  Lemma model_update_rel : forall s1 s2,
      state_rel s1 s2 -> orel state_rel (model_update O1 s1) (model_update O2 s2).
  Proof.
    intros s1 s2 Hs. unfold model_update. rewrite (model_params_rel _ _ Hs).
    eapply obind_rel_fst; [apply gd_update_rel; exact Hs|]. intros t1 t2 hs Ht.
    rewrite (st_layers_eq _ _ Ht). apply with_layers_rel, Ht.
  Qed.

  Inductive layer_spec_rel : @layer_spec F1 -> @layer_spec F2 -> Prop :=
  | LR_Dense : forall nin nout a w1 w2 b1 b2,
      leq w1 w2 -> leq b1 b2 ->
      layer_spec_rel (LDense nin nout a w1 b1) (LDense nin nout a w2 b2)
  | LR_Conv : forall count depth fr fc sr sc a f1 f2 b1 b2,
      leq f1 f2 -> leq b1 b2 ->
      layer_spec_rel (LConv count depth fr fc sr sc a f1 b1) (LConv count depth fr fc sr sc a f2 b2).

  (** both kinds of layer check the weights and the bias and allocate them in this order *)
  Lemma make_layer_rel : forall s1 s2 l1 l2,
      state_rel s1 s2 -> layer_spec_rel l1 l2 ->
      orel (prel state_rel eq) (make_layer s1 l1) (make_layer s2 l2).
  Proof.
    intros s1 s2 l1 l2 Hs Hl.
    destruct Hl as [nin nout a w1 w2 b1 b2 Hw Hb | count depth fr fc sr sc a w1 w2 b1 b2 Hw Hb];
      cbn [make_layer].
    all: eapply obind_rel; [apply mk_relF; [reflexivity|apply F2_TT, Hw]|]; intros wa1 wa2 Hwa.
    all: eapply obind_rel; [apply mk_relF; [reflexivity|apply F2_TT, Hb]|]; intros ba1 ba2 Hba.
    all: apply alloc_let_rel; [exact Hs|exact Hwa|exact I|]; intros t1 t2 hw Ht.
    all: apply alloc_let_rel; [exact Ht|exact Hba|exact I|]; intros u1 u2 hb Hu.
    all: split; [exact Hu|reflexivity].
  Qed.

  (** ** Instructions and observations *)

  Definition seed_rel (p : list nat * list F1) (q : list nat * list F2) : Prop :=
    fst p = fst q /\ leq (snd p) (snd q).

  (** the same instruction: equal naturals, booleans and variable indices, related
      operation kinds, scalar lists of equal lengths, scalars unconstrained *)
  Inductive instr_rel : @instr F1 -> @instr F2 -> Prop :=
  | IR_Leaf : forall d v1 v2 t, leq v1 v2 -> instr_rel (ILeaf d v1 t) (ILeaf d v2 t)
  | IR_Zeros : forall d, instr_rel (IZeros d) (IZeros d)
  | IR_FromFlat : forall v1 v2, leq v1 v2 -> instr_rel (IFromFlat v1) (IFromFlat v2)
  | IR_FromArrays : forall hs, instr_rel (IFromArrays hs) (IFromArrays hs)
  | IR_Op : forall k1 k2 args, opk_rel k1 k2 -> instr_rel (IOp k1 args) (IOp k2 args)
  | IR_Clone : forall h, instr_rel (IClone h) (IClone h)
  | IR_Drop : forall h, instr_rel (IDrop h) (IDrop h)
  | IR_Tracked : forall h, instr_rel (ITracked h) (ITracked h)
  | IR_Untracked : forall h, instr_rel (IUntracked h) (IUntracked h)
  | IR_Start : forall h, instr_rel (IStart h) (IStart h)
  | IR_Stop : forall h, instr_rel (IStop h) (IStop h)
  | IR_Backward : forall h sd1 sd2, orel seed_rel sd1 sd2 -> instr_rel (IBackward h sd1) (IBackward h sd2)
  | IR_Grad : forall h, instr_rel (IGrad h) (IGrad h)
  | IR_ClearGrad : forall h, instr_rel (IClearGrad h) (IClearGrad h)
  | IR_FetchGrad : forall h, instr_rel (IFetchGrad h) (IFetchGrad h)
  | IR_TakeVec : forall h, instr_rel (ITakeVec h) (ITakeVec h)
  | IR_Index : forall h idx, instr_rel (IIndex h idx) (IIndex h idx)
  | IR_IndexFlat : forall h i, instr_rel (IIndexFlat h i) (IIndexFlat h i)
  | IR_Eq : forall h1 h2, instr_rel (IEq h1 h2) (IEq h1 h2)
  | IR_Obs : forall h, instr_rel (IObs h) (IObs h)
  | IR_SumAll : forall h, instr_rel (ISumAll h) (ISumAll h)
  | IR_Update : forall lr1 lr2 hs, instr_rel (IUpdate lr1 hs) (IUpdate lr2 hs)
  | IR_Model : forall ls1 ls2 c lr1 lr2,
      Forall2 layer_spec_rel ls1 ls2 -> instr_rel (IModel ls1 c lr1) (IModel ls2 c lr2)
  | IR_Forward : forall h, instr_rel (IForward h) (IForward h)
  | IR_ModelBackward : forall h, instr_rel (IModelBackward h) (IModelBackward h)
  | IR_ModelUpdate : instr_rel IModelUpdate IModelUpdate
  | IR_Params : instr_rel IParams IParams.

  (** items: same kind and same naturals, scalar lists of equal length *)
  Definition item_rel (i1 : @item F1) (i2 : @item F2) : Prop :=
    fst i1 = fst i2 /\ leq (snd i1) (snd i2).

  (** the weaker relation claimed for [IEq], whose boolean compares scalar values *)
  Definition item_weak (i1 : @item F1) (i2 : @item F2) : Prop :=
    fst (fst i1) = fst (fst i2) /\ leq (snd (fst i1)) (snd (fst i2)) /\ leq (snd i1) (snd i2).

  Definition obs_rel : @obs F1 -> @obs F2 -> Prop := Forall2 item_rel.
  Definition obs_weak : @obs F1 -> @obs F2 -> Prop := Forall2 item_weak.

  Definition is_eq_instr (i : @instr F1) : bool := match i with IEq _ _ => true | _ => false end.

  Definition obs_rel_for (i : @instr F1) : @obs F1 -> @obs F2 -> Prop :=
    if is_eq_instr i then obs_weak else obs_rel.

  Lemma item_rel_weak : forall i1 i2, item_rel i1 i2 -> item_weak i1 i2.
  Proof.
    intros [[k1 n1] v1] [[k2 n2] v2] [H1 H2]. simpl in *. inversion H1; subst.
    repeat split; simpl; try reflexivity. exact H2.
  Qed.

  Lemma o_unit_rel : obs_rel (@o_unit F1) (@o_unit F2).
  Proof. constructor. Qed.

  Lemma o_arr_rel : forall a1 a2 t, ar a1 a2 -> obs_rel (o_arr a1 t) (o_arr a2 t).
  Proof.
    intros a1 a2 t [Hd Hv]. unfold o_arr. constructor; [|constructor].
    split; simpl; [rewrite Hd; reflexivity|exact (F2_length _ _ _ Hv)].
  Qed.

  Lemma o_bool_rel : forall b, obs_rel (@o_bool F1 b) (@o_bool F2 b).
  Proof. intros b. constructor; [|constructor]. split; simpl; reflexivity. Qed.

  Lemma o_bool_weak : forall b1 b2, obs_weak (@o_bool F1 b1) (@o_bool F2 b2).
  Proof. intros b1 b2. constructor; [|constructor]. repeat split; simpl; reflexivity. Qed.

  Lemma o_grad_rel : forall g1 g2, orel ss g1 g2 -> obs_rel (o_grad g1) (o_grad g2).
  Proof.
    intros [a1|] [a2|] H; simpl in H; try contradiction; unfold o_grad; (constructor; [|constructor]).
    - destruct H as [Hd Hv]. split; simpl; [rewrite Hd; reflexivity|exact Hv].
    - split; simpl; reflexivity.
  Qed.

  Lemma o_val_rel : forall x1 x2, obs_rel (@o_val F1 x1) (@o_val F2 x2).
  Proof. intros. constructor; [|constructor]. split; simpl; reflexivity. Qed.

  Lemma o_arr_grad_rel : forall s1 s2 x a1 a2,
      state_rel s1 s2 -> ar a1 a2 ->
      obs_rel (o_arr a1 (e_tracked x) ++ o_grad (grad_of s1 x)) (o_arr a2 (e_tracked x) ++ o_grad (grad_of s2 x)).
  Proof.
    intros s1 s2 x a1 a2 Hs Ha.
    apply Forall2_app; [apply o_arr_rel, Ha|apply o_grad_rel, grad_of_rel, Hs].
  Qed.

  Lemma is_custom_rel : forall s1 s2 id, state_rel s1 s2 -> is_custom s1 id = is_custom s2 id.
  Proof.
    intros s1 s2 id Hs. unfold is_custom. apply node_match_eq; [apply st_nodes_rel, Hs|].
    intros n1 n2 Hn. apply bop_match_eq; [exact (pay_bop_rel _ _ (node_rel_pay _ _ _ _ Hn))|].
    intros c1 c2 Hc. destruct Hc; reflexivity.
  Qed.

  Lemma tag_of_rel : forall s1 s2 id, state_rel s1 s2 -> tag_of s1 id = tag_of s2 id.
  Proof.
    intros s1 s2 id Hs. unfold tag_of. apply node_match_eq; [apply st_nodes_rel, Hs|].
    intros n1 n2 Hn. apply (node_rel_pay _ _ _ _ Hn).
  Qed.

  Lemma o_log_rel : forall s1 s2 lg1 lg2,
      state_rel s1 s2 -> trace_rel ss lg1 lg2 -> obs_rel (o_log s1 lg1) (o_log s2 lg2).
  Proof.
    intros s1 s2 lg1 lg2 Hs Hlg. unfold o_log.
    apply (F2_map (fun p q => fst p = fst q /\ ss (snd p) (snd q))).
    - intros [id1 d1] [id2 d2] [Hid [Hd Hv]]. simpl in Hid, Hd, Hv. subst id2.
      split; simpl; [|exact Hv]. rewrite (tag_of_rel _ _ id1 Hs), Hd. reflexivity.
    - apply filter_F2; [|exact Hlg].
      intros [id1 d1] [id2 d2] [Hid _]. simpl in Hid. subst id2. simpl.
      apply is_custom_rel. exact Hs.
  Qed.

  Lemma o_params_rel : forall s1 s2, state_rel s1 s2 -> obs_rel (o_params s1) (o_params s2).
  Proof.
    intros s1 s2 Hs. unfold o_params. rewrite (model_params_rel _ _ Hs).
    induction (model_params s2) as [|h l IH]; simpl; [constructor|].
    apply Forall2_app; [|exact IH].
    pose proof (h_arr_rel _ _ h Hs) as Ha.
    destruct (h_arr s1 h), (h_arr s2 h); simpl in Ha; try contradiction; [|constructor].
    apply o_arr_grad_rel; assumption.
  Qed.

  Lemma var_rel : forall s1 s2 i, state_rel s1 s2 -> var s1 i = var s2 i.
  Proof. intros s1 s2 i Hs. unfold var. rewrite (st_pool_eq _ _ Hs). reflexivity. Qed.

  Lemma obind_var_rel : forall {B1 B2} (S : B1 -> B2 -> Prop) s1 s2 i f g,
      state_rel s1 s2 -> (forall x, orel S (f x) (g x)) ->
      orel S (obind (var s1 i) f) (obind (var s2 i) g).
  Proof. intros B1 B2 S s1 s2 i f g Hs H. rewrite (var_rel _ _ i Hs). apply obind_rel_same, H. Qed.

  Lemma mapM_var_rel : forall s1 s2 l, state_rel s1 s2 -> mapM (var s1) l = mapM (var s2) l.
  Proof. intros s1 s2 l Hs. apply mapM_ext. intros i _. apply var_rel, Hs. Qed.

  Lemma push_rel : forall s1 s2 h, state_rel s1 s2 -> state_rel (push s1 h) (push s2 h).
  Proof. intros s1 s2 h Hs. unfold push. rewrite (st_pool_eq _ _ Hs). apply with_pool_rel. exact Hs. Qed.

  Lemma set_var_rel : forall s1 s2 i h,
      state_rel s1 s2 -> orel state_rel (set_var s1 i h) (set_var s2 i h).
  Proof.
    intros s1 s2 i h Hs. unfold set_var. rewrite (st_pool_eq _ _ Hs).
    apply obind_rel_same. intros p. apply with_pool_rel. exact Hs.
  Qed.

  Definition step_res_rel (i : @instr F1) (r1 : @state F1 * @obs F1) (r2 : @state F2 * @obs F2) : Prop :=
    state_rel (fst r1) (fst r2) /\ obs_rel_for i (snd r1) (snd r2).

  (** the last line of every instruction: one slot is pushed and the observation returned *)
  Lemma push_res_rel : forall i s1 s2 x o1 o2,
      state_rel s1 s2 -> obs_rel_for i o1 o2 ->
      orel (step_res_rel i) (Some (push s1 x, o1)) (Some (push s2 x, o2)).
  Proof. intros i s1 s2 x o1 o2 Hs Ho. split; [apply push_rel, Hs|exact Ho]. Qed.

  (** an instruction that allocates one leaf for an array built without the store *)
  Lemma leaf_res_rel : forall i s1 s2 a1 a2 (f : handle -> option handle) o1 o2,
      state_rel s1 s2 -> ar a1 a2 -> obs_rel_for i o1 o2 ->
      orel (step_res_rel i)
           (let '(t, h) := alloc s1 a1 [] None None in Some (push t (f h), o1))
           (let '(t, h) := alloc s2 a2 [] None None in Some (push t (f h), o2)).
  Proof.
    intros i s1 s2 a1 a2 f o1 o2 Hs Ha Ho.
    apply alloc_let_rel; [exact Hs|exact Ha|exact I|]. intros t1 t2 h Ht.
    apply push_res_rel; assumption.
  Qed.

  (** an instruction that rebinds the pool slot it names *)
  Lemma rebind_res_rel : forall i s1 s2 h (nh : handle -> option handle) o1 o2,
      state_rel s1 s2 -> (forall x, obs_rel_for i (o1 x) (o2 x)) ->
      orel (step_res_rel i)
           (x <- var s1 h ;; t <- set_var s1 h (nh x) ;; Some (push t None, o1 x))
           (x <- var s2 h ;; t <- set_var s2 h (nh x) ;; Some (push t None, o2 x)).
  Proof.
    intros i s1 s2 h nh o1 o2 Hs Ho. apply obind_var_rel; [exact Hs|]. intros x.
    eapply obind_rel; [apply set_var_rel; exact Hs|]. intros t1 t2 Ht.
    apply push_res_rel; [exact Ht|apply Ho].
  Qed.

  Theorem step_rel : forall s1 s2 i1 i2,
      state_rel s1 s2 -> instr_rel i1 i2 ->
      orel (step_res_rel i1) (step O1 s1 i1) (step O2 s2 i2).
  Proof.
    intros s1 s2 i1 i2 Hs0 Hi. unfold step. rewrite (st_pool_eq _ _ Hs0).
    assert (Hs : state_rel (with_tag s1 (length (st_pool s2))) (with_tag s2 (length (st_pool s2))))
      by (apply with_tag_rel; exact Hs0).
    generalize dependent (with_tag s1 (length (st_pool s2))).
    generalize dependent (with_tag s2 (length (st_pool s2))).
    clear s1 s2 Hs0. intros s2 s1 Hs. cbv zeta.
    destruct Hi.
    - (* ILeaf *)
      eapply obind_rel; [apply mk_relF; [reflexivity|apply F2_TT; eassumption]|]. intros a1 a2 Ha.
      apply (leaf_res_rel _ s1 s2 a1 a2 (fun h => Some (mkh (e_node h) t t))); [exact Hs|exact Ha|].
      apply o_arr_rel, Ha.
    - (* IZeros *)
      eapply obind_rel; [apply zeros_relF, ring_TT|]. intros a1 a2 Ha.
      apply (leaf_res_rel _ s1 s2 a1 a2 Some); [exact Hs|exact Ha|apply o_arr_rel, Ha].
    - (* IFromFlat *)
      eapply obind_rel; [apply from_flat_relF, F2_TT; eassumption|]. intros a1 a2 Ha.
      apply (leaf_res_rel _ s1 s2 a1 a2 Some); [exact Hs|exact Ha|apply o_arr_rel, Ha].
    - (* IFromArrays *)
      eapply obind_rel with (R := Forall2 ar).
      { apply mapM_same. intros i. apply obind_var_rel; [exact Hs|]. intros h. apply h_arr_rel, Hs. }
      intros l1 l2 Hl.
      eapply obind_rel; [apply from_arrays_relF; exact Hl|]. intros a1 a2 Ha.
      apply (leaf_res_rel _ s1 s2 a1 a2 Some); [exact Hs|exact Ha|apply o_arr_rel, Ha].
    - (* IOp *)
      rewrite (mapM_var_rel _ _ args Hs). apply obind_rel_same. intros hs.
      eapply obind_rel_fst; [apply apply_op_rel; eassumption|]. intros t1 t2 h Ht.
      eapply obind_rel; [apply h_arr_rel; exact Ht|]. intros a1 a2 Ha.
      apply push_res_rel; [exact Ht|apply o_arr_rel, Ha].
    - (* IClone *)
      apply obind_var_rel; [exact Hs|]. intros x. apply push_res_rel; [exact Hs|exact o_unit_rel].
    - (* IDrop *)
      apply (rebind_res_rel _ s1 s2 h (fun _ => None)); [exact Hs|intros; exact o_unit_rel].
    - (* ITracked *)
      apply rebind_res_rel; [exact Hs|intros; exact o_unit_rel].
    - (* IUntracked *)
      apply rebind_res_rel; [exact Hs|intros; exact o_unit_rel].
    - (* IStart *)
      apply rebind_res_rel; [exact Hs|intros; apply o_bool_rel].
    - (* IStop *)
      apply rebind_res_rel; [exact Hs|intros; apply o_bool_rel].
    - (* IBackward *)
      apply obind_var_rel; [exact Hs|]. intros x.
      eapply obind_rel with (R := orel ss).
      { destruct sd1 as [[d1 v1]|], sd2 as [[d2 v2]|]; simpl in H; try contradiction; [|exact I].
        destruct H as [Hd Hv]. cbn [fst snd] in Hd, Hv. subst d2.
        eapply obind_rel; [apply mk_relF; [reflexivity|apply F2_TT, Hv]|]. intros a1 a2 Ha. apply ss_ar, Ha. }
      intros sd1' sd2' Hsd.
      eapply obind_rel.
      { apply (run_backward_rel pay_rel ss (E O1) (E O2) E_rel); [apply st_nodes_rel; exact Hs|exact Hsd]. }
      intros r1 r2 [Hr1 Hr2].
      assert (Ht : state_rel (with_nodes s1 (fst r1)) (with_nodes s2 (fst r2)))
        by (apply with_nodes_rel; assumption).
      apply push_res_rel; [exact Ht|apply o_log_rel; assumption].
    - (* IGrad *)
      apply obind_var_rel; [exact Hs|]. intros x.
      apply push_res_rel; [exact Hs|apply o_grad_rel, grad_of_rel, Hs].
    - (* IClearGrad *)
      apply obind_var_rel; [exact Hs|]. intros x.
      eapply obind_rel; [apply clear_grad_rel; exact Hs|]. intros t1 t2 Ht.
      apply push_res_rel; [exact Ht|apply o_grad_rel, grad_of_rel, Hs].
    - (* IFetchGrad *)
      apply obind_var_rel; [exact Hs|]. intros x.
      pose proof (grad_of_rel _ _ x Hs) as Hg.
      destruct (grad_of s1 x) as [g1|], (grad_of s2 x) as [g2|]; simpl in Hg; try contradiction.
      + apply (leaf_res_rel _ s1 s2 g1 g2 Some); [exact Hs|apply ss_ar, Hg|apply o_grad_rel, Hg].
      + apply push_res_rel; [exact Hs|apply o_grad_rel; exact I].
    - (* ITakeVec *)
      apply obind_var_rel; [exact Hs|]. intros x.
      eapply obind_rel; [apply h_arr_rel; exact Hs|]. intros a1 a2 Ha.
      apply check_rel.
      { rewrite (buf_of_rel _ _ _ (st_nodes_rel _ _ Hs)), (strong_count_rel _ _ _ Hs). reflexivity. }
      eapply obind_rel; [apply set_var_rel; exact Hs|]. intros t1 t2 Ht.
      apply push_res_rel; [exact Ht|]. constructor; [|constructor].
      split; [reflexivity|apply ar_leq, Ha].
    - (* IIndex *)
      apply obind_var_rel; [exact Hs|]. intros x.
      eapply obind_rel; [apply h_arr_rel; exact Hs|]. intros a1 a2 Ha.
      eapply obind_rel; [apply index_multi_relF, Ha|]. intros v1 v2 _.
      apply push_res_rel; [exact Hs|apply o_val_rel].
    - (* IIndexFlat *)
      apply obind_var_rel; [exact Hs|]. intros x.
      eapply obind_rel; [apply h_arr_rel; exact Hs|]. intros a1 a2 Ha.
      eapply obind_rel; [apply index_flat_relF, Ha|]. intros v1 v2 _.
      apply push_res_rel; [exact Hs|apply o_val_rel].
    - (* IEq: the boolean compares scalars *)
      apply obind_var_rel; [exact Hs|]. intros x. apply obind_var_rel; [exact Hs|]. intros y.
      eapply obind_rel; [apply h_arr_rel; exact Hs|]. intros a1 a2 Ha.
      eapply obind_rel; [apply h_arr_rel; exact Hs|]. intros b1 b2 Hb.
      apply push_res_rel; [exact Hs|apply o_bool_weak].
    - (* IObs *)
      apply obind_var_rel; [exact Hs|]. intros x.
      eapply obind_rel; [apply h_arr_rel; exact Hs|]. intros a1 a2 Ha.
      apply push_res_rel; [exact Hs|apply o_arr_grad_rel; assumption].
    - (* ISumAll *)
      apply obind_var_rel; [exact Hs|]. intros x.
      eapply obind_rel; [apply h_arr_rel; exact Hs|]. intros a1 a2 Ha.
      apply push_res_rel; [exact Hs|apply o_val_rel].
    - (* IUpdate *)
      rewrite (mapM_var_rel _ _ hs Hs). apply obind_rel_same. intros params.
      eapply obind_rel_fst; [apply gd_update_rel; exact Hs|]. intros t1 t2 out Ht.
      eapply obind_rel with (R := state_rel).
      { apply (fold_left_rel_same (orel state_rel)); [|exact Ht].
        intros acc1 acc2 p Hacc.
        eapply obind_rel; [exact Hacc|]. intros u1 u2 Hu. apply set_var_rel. exact Hu. }
      intros u1 u2 Hu. apply push_res_rel; [exact Hu|exact o_unit_rel].
    - (* IModel *)
      eapply obind_rel_fst.
      { apply (fold_left_rel (orel (prel state_rel eq)) layer_spec_rel); [|eassumption|].
        - intros acc1 acc2 l1 l2 Hacc Hl.
          eapply obind_rel_fst; [exact Hacc|]. intros t1 t2 out Ht.
          eapply obind_rel_fst; [apply make_layer_rel; eassumption|]. intros u1 u2 ly Hu.
          split; [exact Hu|reflexivity].
        - split; [exact Hs|reflexivity]. }
      intros t1 t2 layers Ht.
      apply push_res_rel; [|exact o_unit_rel]. apply with_config_rel, with_layers_rel, Ht.
    - (* IForward *)
      apply obind_var_rel; [exact Hs|]. intros x.
      eapply obind_rel_fst; [apply model_forward_rel; exact Hs|]. intros t1 t2 out Ht.
      eapply obind_rel; [apply h_arr_rel; exact Ht|]. intros a1 a2 Ha.
      apply push_res_rel; [exact Ht|apply o_arr_rel, Ha].
    - (* IModelBackward *)
      apply obind_var_rel; [exact Hs|]. intros x.
      eapply obind_rel; [apply model_backward_rel; exact Hs|].
      intros [t1 l1] [t2 l2] [Ht _]. apply push_res_rel; [exact Ht|apply o_val_rel].
    - (* IModelUpdate *)
      eapply obind_rel; [apply model_update_rel; exact Hs|]. intros t1 t2 Ht.
      apply push_res_rel; [exact Ht|exact o_unit_rel].
    - (* IParams *)
      apply push_res_rel; [exact Hs|apply o_params_rel, Hs].
  Qed.

  (** ** Whole programs *)

  (** observation lists related instruction by instruction *)
  Inductive runs_rel : list (@instr F1) -> list (@obs F1) -> list (@obs F2) -> Prop :=
  | RR_nil : forall p, runs_rel p [] []
  | RR_cons : forall i p o1 o2 os1 os2,
      obs_rel_for i o1 o2 -> runs_rel p os1 os2 -> runs_rel (i :: p) (o1 :: os1) (o2 :: os2).

  Theorem run_from_rel : forall p1 p2 s1 s2,
      Forall2 instr_rel p1 p2 -> state_rel s1 s2 ->
      runs_rel p1 (fst (run_from O1 s1 p1)) (fst (run_from O2 s2 p2)) /\
      snd (run_from O1 s1 p1) = snd (run_from O2 s2 p2).
  Proof.
    intros p1 p2 s1 s2 Hp. revert s1 s2.
    induction Hp as [|i1 i2 p1 p2 Hi Hp IH]; intros s1 s2 Hs; simpl.
    - split; [constructor|reflexivity].
    - pose proof (step_rel s1 s2 i1 i2 Hs Hi) as Hst.
      destruct (step O1 s1 i1) as [[t1 o1]|], (step O2 s2 i2) as [[t2 o2]|];
        simpl in Hst; try contradiction.
      + destruct Hst as [Ht Ho]. simpl in Ht, Ho.
        specialize (IH t1 t2 Ht).
        destruct (run_from O1 t1 p1) as [os1 b1], (run_from O2 t2 p2) as [os2 b2].
        simpl in IH. destruct IH as [IH1 IH2]. simpl. split; [constructor; assumption|exact IH2].
      + simpl. split; [constructor|reflexivity].
  Qed.

  Theorem run_rel : forall p1 p2,
      Forall2 instr_rel p1 p2 ->
      runs_rel p1 (fst (run O1 p1)) (fst (run O2 p2)) /\ snd (run O1 p1) = snd (run O2 p2).
  Proof. intros p1 p2 Hp. unfold run. apply run_from_rel; [exact Hp|apply init_state_rel]. Qed.

  Lemma runs_rel_length : forall p os1 os2, runs_rel p os1 os2 -> length os1 = length os2.
  Proof. intros p os1 os2 H. induction H; simpl; congruence. Qed.

  (** both runs stop after the same number of instructions *)
  Corollary run_same_panic : forall p1 p2,
      Forall2 instr_rel p1 p2 ->
      length (fst (run O1 p1)) = length (fst (run O2 p2)) /\ snd (run O1 p1) = snd (run O2 p2).
  Proof.
    intros p1 p2 Hp. destruct (run_rel p1 p2 Hp) as [H1 H2].
    split; [eapply runs_rel_length; exact H1|exact H2].
  Qed.

  Lemma runs_rel_no_eq : forall p os1 os2,
      forallb (fun i => negb (is_eq_instr i)) p = true ->
      runs_rel p os1 os2 -> Forall2 obs_rel os1 os2.
  Proof.
    intros p os1 os2 Hne H. induction H as [|i p o1 o2 os1 os2 Ho H IH]; [constructor|].
    simpl in Hne. apply andb_true_iff in Hne. destruct Hne as [Hi Hne].
    constructor; [|apply IH; exact Hne].
    unfold obs_rel_for in Ho. destruct (is_eq_instr i); [discriminate Hi|exact Ho].
  Qed.

  (** for programs without [IEq], all observations agree in kinds, naturals and
      lengths of scalar lists *)
  Corollary run_rel_no_eq : forall p1 p2,
      Forall2 instr_rel p1 p2 ->
      forallb (fun i => negb (is_eq_instr i)) p1 = true ->
      Forall2 obs_rel (fst (run O1 p1)) (fst (run O2 p2)) /\ snd (run O1 p1) = snd (run O2 p2).
  Proof.
    intros p1 p2 Hp Hne. destruct (run_rel p1 p2 Hp) as [H1 H2].
    split; [eapply runs_rel_no_eq; eassumption|exact H2].
  Qed.

  (** in general (with [IEq]), kinds, numbers of naturals and of scalars still agree *)
  Lemma runs_rel_weak : forall p os1 os2, runs_rel p os1 os2 -> Forall2 obs_weak os1 os2.
  Proof.
    intros p os1 os2 H. induction H as [|i p o1 o2 os1 os2 Ho H IH]; constructor; [|exact IH].
    unfold obs_rel_for in Ho. destruct (is_eq_instr i); [exact Ho|].
    eapply F2_mono; [|exact Ho]. apply item_rel_weak.
  Qed.
End ProgramRel.

(** * Part 6: converting the scalar constants of a program *)

(** The harness runs the same program text under both float widths; its scalar
    constants are then converted by some function [cast] (for f64 -> f32, rounding).
    Whatever [cast] is, the converted program is related to the original one. *)
Section Cast.
  Context {F1 F2 : Type} (cast : F1 -> F2).

  Definition cast_opk (k : @opk F1) : @opk F2 :=
    match k with
    | OAdd => OAdd | OSub => OSub | OMul => OMul | ODiv => ODiv | ONeg => ONeg
    | OScale c => OScale (cast c) | ORecip => ORecip | OPowf e => OPowf (cast e)
    | OLn => OLn | OExp => OExp | OSum k => OSum k | OReshape d => OReshape d
    | OMatmul ta tb => OMatmul ta tb | OConv sr sc => OConv sr sc
    | ORelu => ORelu | OSigmoid => OSigmoid | OSoftmax => OSoftmax
    | OAxpy alpha => OAxpy (cast alpha) | OCustom c => OCustom c
    end.

  Definition cast_layer (l : @layer_spec F1) : @layer_spec F2 :=
    match l with
    | LDense nin nout a w b => LDense nin nout a (map cast w) (map cast b)
    | LConv count depth fr fc sr sc a f b =>
      LConv count depth fr fc sr sc a (map cast f) (map cast b)
    end.

  Definition cast_instr (i : @instr F1) : @instr F2 :=
    match i with
    | ILeaf d v t => ILeaf d (map cast v) t
    | IZeros d => IZeros d
    | IFromFlat v => IFromFlat (map cast v)
    | IFromArrays hs => IFromArrays hs
    | IOp k args => IOp (cast_opk k) args
    | IClone h => IClone h
    | IDrop h => IDrop h
    | ITracked h => ITracked h
    | IUntracked h => IUntracked h
    | IStart h => IStart h
    | IStop h => IStop h
    | IBackward h seed =>
      IBackward h (match seed with Some (d, v) => Some (d, map cast v) | None => None end)
    | IGrad h => IGrad h
    | IClearGrad h => IClearGrad h
    | IFetchGrad h => IFetchGrad h
    | ITakeVec h => ITakeVec h
    | IIndex h idx => IIndex h idx
    | IIndexFlat h i => IIndexFlat h i
    | IEq h1 h2 => IEq h1 h2
    | IObs h => IObs h
    | ISumAll h => ISumAll h
    | IUpdate lr hs => IUpdate (cast lr) hs
    | IModel ls c lr => IModel (map cast_layer ls) c (cast lr)
    | IForward h => IForward h
    | IModelBackward h => IModelBackward h
    | IModelUpdate => IModelUpdate
    | IParams => IParams
    end.

  Lemma map_cast_leq : forall l : list F1, leq l (map cast l).
  Proof. intros l. unfold leq. rewrite map_length. reflexivity. Qed.

  Lemma cast_opk_rel : forall k, opk_rel k (cast_opk k).
  Proof. intros k. destruct k; simpl; constructor. Qed.

  Lemma cast_layer_rel : forall l, layer_spec_rel l (cast_layer l).
  Proof. intros l. destruct l; simpl; constructor; apply map_cast_leq. Qed.

  Lemma cast_instr_rel : forall i, instr_rel i (cast_instr i).
  Proof.
    intros i. destruct i; simpl; try (constructor; try apply map_cast_leq).
    - apply cast_opk_rel.
    - destruct seed as [[d v]|]; simpl; [|exact I]. split; simpl; [reflexivity|apply map_cast_leq].
    - induction ls as [|l ls IH]; simpl; constructor; [apply cast_layer_rel|exact IH].
  Qed.

  Lemma cast_program_rel : forall p, Forall2 instr_rel p (map cast_instr p).
  Proof. intros p. induction p as [|i p IH]; simpl; constructor; [apply cast_instr_rel|exact IH]. Qed.

  (** C19: for any two scalar instances and any conversion of the constants, the two
      runs panic at the same instruction (or not at all) and their observations agree
      instruction by instruction ([obs_rel_for]: same kinds, same naturals --
      dimensions, tracking flags, creating instructions -- and scalar lists of equal
      lengths; for [IEq] only the kind and the lengths). *)
  Theorem run_cast : forall (O1 : ScalarOps F1) (O2 : ScalarOps F2) (p : list (@instr F1)),
      runs_rel p (fst (run O1 p)) (fst (run O2 (map cast_instr p))) /\
      snd (run O1 p) = snd (run O2 (map cast_instr p)).
  Proof. intros O1 O2 p. apply run_rel. apply cast_program_rel. Qed.
End Cast.

(** * Non-vacuity: the integer instance against the one-point instance *)

Definition unit_ops : ScalarOps unit := {|
  f0 := tt; f1 := tt;
  fadd := fun _ _ => tt; fmul := fun _ _ => tt; fsub := fun _ _ => tt; fdiv := fun _ _ => tt;
  fneg := fun _ => tt; fexp := fun _ => tt; fln := fun _ => tt; fpow := fun _ _ => tt;
  fgt0 := fun _ => false; feqb := fun _ _ => true; fofnat := fun _ => tt
|}.

(** every integer program has the panics, shapes and tracking flags of its scalar-free shadow *)
Corollary run_Z_unit : forall p : list (@instr BinNums.Z),
    runs_rel p (fst (run Z_ops p)) (fst (run unit_ops (map (cast_instr (fun _ => tt)) p))) /\
    snd (run Z_ops p) = snd (run unit_ops (map (cast_instr (fun _ => tt)) p)).
Proof. intros p. apply run_cast. Qed.

Print Assumptions sliced_op_rel.
Print Assumptions a_matmul_rel.
Print Assumptions conv_rel.
Print Assumptions run_bop_rel.
Print Assumptions backward_rel.
Print Assumptions step_rel.
Print Assumptions run_rel.
Print Assumptions run_rel_no_eq.
Print Assumptions run_cast.
Print Assumptions run_Z_unit.
