(** C14: each training iteration steps the parameters along the gradient of the current
    loss; no gradient, graph or other state of a previous iteration leaks into the next.

    The loop is [model_forward] / [model_backward] / [model_update] of [Model/Program.v]
    (Rust: [Model::forward], [Model::backward], [Model::update]).

    - [armed s]: the state invariant [HistoryInv.good], every layer parameter handle is
      tracked and keeps gradients and points to a LEAF node (no children, no closure), and
      the parameter nodes are pairwise distinct.
    - [ready s]: [armed s] and every parameter's gradient slot is empty.

    [ready] holds after model construction ([model_construction_ready]); [model_forward]
    preserves [armed] and [ready]; [model_backward] preserves [armed]; [model_update]
    turns [armed] into [ready] ([model_update_ready]) -- whatever happened before, after an
    update all parameters are fresh or untouched leaves with empty slots.  The iteration
    theorem [train_iteration] states what one iteration computes; [train_ready] is the
    induction over any number of batches. *)

From Coq Require Import List Arith Bool Lia PeanoNat.
From Corgi Require Import Lib.OptionMonad Model.Scalar Model.Arr Model.SlicedOp Model.Elementwise
     Model.Linalg Model.Image Model.Ops
     Model.Engine Model.Program
     Proofs.ArrFacts Proofs.EngineDefs Proofs.EngineBase Proofs.EngineInv Proofs.AdjointSpec
     Proofs.EngineValue Proofs.OpsWf Proofs.OptimSpec Proofs.HistoryInv Proofs.ValueConcrete
     Proofs.ProgramFacts Proofs.ProgramValues Proofs.ConcretePasses.
From Corgi Require Proofs.PassTheorems Proofs.Ownership.
Import ListNotations.

Section TrainLoop.
  Context {F : Type} (O : ScalarOps F).

  Local Notation state := (@Program.state F).
  Local Notation gnode := (@Program.gnode F).
  Local Notation pay := (@Program.pay F).
  Local Notation E := (Program.E O).

  Lemma NoDup_map_filter : forall {A B} (f : A -> B) (p : A -> bool) (l : list A),
      NoDup (map f l) -> NoDup (map f (filter p l)).
  Proof.
    intros A B f p l. induction l as [|x l IH]; intros H; simpl; [constructor |].
    inversion H as [|? ? Hnin Hnd]; subst. destruct (p x); simpl.
    - constructor; [| apply IH; exact Hnd].
      intro Hin. apply Hnin. apply in_map_iff in Hin. destruct Hin as (y & Hy & Hin).
      apply filter_In in Hin. rewrite <- Hy. apply in_map. apply Hin.
    - apply IH. exact Hnd.
  Qed.

  Definition leaf_node (nd : gnode) : Prop := n_children nd = [] /\ p_bop (n_pay nd) = None.

  Definition param_leaf (s : state) (h : handle) : Prop :=
    e_tracked h = true /\ e_keep h = true /\
    exists nd, h_node s h = Some nd /\ leaf_node nd.

  Definition armed (s : state) : Prop :=
    good s /\
    (forall h, In h (model_params s) -> param_leaf s h) /\
    NoDup (map e_node (model_params s)).

  Definition grads_empty (s : state) : Prop :=
    forall h, In h (model_params s) -> grad_of s h = None.

  Definition ready (s : state) : Prop := armed s /\ grads_empty s.

  Lemma ready_spelled : forall s,
      ready s <->
      (good s /\
       (forall h, In h (model_params s) ->
          e_tracked h = true /\ e_keep h = true /\
          exists nd, h_node s h = Some nd /\ n_children nd = [] /\ p_bop (n_pay nd) = None /\
                     n_grad nd = None) /\
       NoDup (map e_node (model_params s))).
  Proof.
    intro s. unfold ready, armed, grads_empty, param_leaf, leaf_node. split.
    - intros ((Hg & Hp & Hnd) & He). split; [exact Hg |]. split; [| exact Hnd].
      intros h Hh. destruct (Hp h Hh) as (Ht & Hk & nd & Hn & Hc & Hb).
      split; [exact Ht |]. split; [exact Hk |]. exists nd. repeat (split; [assumption |]).
      specialize (He h Hh). unfold grad_of in He. rewrite Hn in He. exact He.
    - intros (Hg & Hp & Hnd). split; [split; [exact Hg | split; [| exact Hnd]] |].
      + intros h Hh. destruct (Hp h Hh) as (Ht & Hk & nd & Hn & Hc & Hb & _).
        split; [exact Ht |]. split; [exact Hk |]. exists nd. tauto.
      + intros h Hh. destruct (Hp h Hh) as (_ & _ & nd & Hn & _ & _ & Hgr).
        unfold grad_of. rewrite Hn. exact Hgr.
  Qed.

  Definition keeps_skel (s s' : state) : Prop :=
    forall h nd, In h (model_params s) -> h_node s h = Some nd ->
                 exists nd', h_node s' h = Some nd' /\ n_pay nd' = n_pay nd /\
                             n_children nd' = n_children nd.

  Definition keeps_nodes (s s' : state) : Prop :=
    forall h, In h (model_params s) -> h_node s' h = h_node s h.

  Lemma keeps_nodes_skel : forall s s', keeps_nodes s s' -> keeps_skel s s'.
  Proof.
    intros s s' H h nd Hh Hn. exists nd. rewrite (H h Hh). auto.
  Qed.

  Lemma model_params_layers : forall s s' : state,
      st_layers s' = st_layers s -> model_params s' = model_params s.
  Proof. intros s s' H. unfold model_params. rewrite H. reflexivity. Qed.

  Lemma armed_transfer : forall s s',
      armed s -> good s' -> st_layers s' = st_layers s -> keeps_skel s s' -> armed s'.
  Proof.
    intros s s' (_ & Hp & Hnd) Hg' Hl Hk.
    rewrite <- (model_params_layers s s' Hl) in Hp, Hnd.
    split; [exact Hg' |]. split; [| exact Hnd].
    intros h Hh. destruct (Hp h Hh) as (Ht & Hkp & nd & Hn & Hc & Hb).
    rewrite (model_params_layers s s' Hl) in Hh.
    destruct (Hk h nd Hh Hn) as (nd' & Hn' & Hpay & Hch).
    split; [exact Ht |]. split; [exact Hkp |]. exists nd'. split; [exact Hn' |].
    split; [rewrite Hch; exact Hc | rewrite Hpay; exact Hb].
  Qed.

  Lemma ready_transfer : forall s s',
      ready s -> good s' -> st_layers s' = st_layers s -> keeps_nodes s s' -> ready s'.
  Proof.
    intros s s' (Ha & He) Hg' Hl Hk. split.
    - apply (armed_transfer s s' Ha Hg' Hl). apply keeps_nodes_skel. exact Hk.
    - intros h Hh. rewrite (model_params_layers s s' Hl) in Hh.
      unfold grad_of. rewrite (Hk h Hh). apply (He h Hh).
  Qed.

  Lemma ext_keeps_nodes : forall s s', rvalid s -> ext s s' -> keeps_nodes s s'.
  Proof.
    intros s s' Hr Hx h Hh. unfold h_node. apply ext_old; [exact Hx |].
    apply (model_params_valid s Hr h Hh).
  Qed.

  Lemma model_forward_inv : forall s x s1 out,
      good s -> hvalid (st_nodes s) x ->
      model_forward O s x = Some (s1, out) ->
      exists s1', ext s s1' /\ s1 = with_output s1' (Some out) /\
                  store_good (st_nodes s1') /\ hvalid (st_nodes s1') out /\ good s1.
  Proof.
    intros s x s1 out Hgd Hx H.
    destruct (model_forward_kept O (fun _ _ _ => True) (fun _ _ _ _ _ => I) s x s1 out Hgd Hx
                (layers_cond_all O _ (op_fok_all O _ (fun _ _ _ _ => I)) _ s x) H)
      as (s1' & H1 & H2 & H3 & H4 & H5 & _).
    exists s1'. repeat (split; [assumption |]). assumption.
  Qed.

  Theorem model_forward_armed : forall s x s1 out,
      armed s -> hvalid (st_nodes s) x ->
      model_forward O s x = Some (s1, out) ->
      armed s1 /\ (ready s -> ready s1) /\
      st_output s1 = Some out /\ hvalid (st_nodes s1) out /\
      st_layers s1 = st_layers s /\ st_cost s1 = st_cost s /\ st_lr s1 = st_lr s /\
      st_pool s1 = st_pool s /\
      length (st_nodes s) <= length (st_nodes s1) /\
      (forall id, id < length (st_nodes s) ->
                  nth_error (st_nodes s1) id = nth_error (st_nodes s) id).
  Proof.
    intros s x s1 out Ha Hx H. pose proof Ha as (Hgd & _).
    destruct (model_forward_inv s x s1 out Hgd Hx H) as (s1' & Hxx & Hs1 & Hg1 & Ho & Hgd1).
    destruct (ext_fields s s1' Hxx) as (Hpool & Hlay & Hcost & Hlr & _ & _).
    assert (Hl : st_layers s1 = st_layers s) by (subst s1; exact Hlay).
    assert (Hk : keeps_nodes s s1).
    { subst s1. intros h Hh. unfold h_node. cbn [with_output st_nodes].
      apply (ext_keeps_nodes s s1' (proj2 Hgd) Hxx h Hh). }
    split; [apply (armed_transfer s s1 Ha Hgd1 Hl); apply keeps_nodes_skel; exact Hk |].
    split; [intro Hr; apply (ready_transfer s s1 Hr Hgd1 Hl Hk) |].
    subst s1. cbn [with_output st_nodes st_pool st_layers st_output st_cost st_lr].
    split; [reflexivity |]. split; [exact Ho |]. split; [exact Hlay |].
    split; [exact Hcost |]. split; [exact Hlr |]. split; [exact Hpool |].
    split; [apply ext_len; exact Hxx |].
    intros id Hid. apply ext_old; assumption.
  Qed.

  (** the pieces of a successful [model_backward]: the cost node is built from the current
      output and the target, ONE pass is run on it with the default (all-ones) seed, the
      returned loss is the sum of the cost array *)
  Record backward_run (s1 : state) (t : handle) (s2 : state) (loss : F) (out : handle)
         (sc : state) (err : handle) (ndr : gnode) (g' : list gnode) (log : @trace (arr F))
    : Prop := {
    br_out : st_output s1 = Some out;
    br_cost : cost_apply O s1 (st_cost s1) out t = Some (sc, err);
    br_ext : ext s1 sc;
    br_good : store_good (st_nodes sc);
    br_root : nth_error (st_nodes sc) (e_node err) = Some ndr;
    br_loss : loss = a_sum_all O (pay_arr (n_pay ndr));
    br_pass : run_backward E (st_nodes sc) (e_node err) (e_keep err) None = Some (g', log);
    br_state : s2 = with_nodes sc g';
    br_len : length g' = length (st_nodes sc);
    br_good' : store_good g';
    br_good2 : good s2;
    br_skel : forall id nd nd', nth_error (st_nodes sc) id = Some nd -> nth_error g' id = Some nd' ->
                                n_pay nd' = n_pay nd /\ n_children nd' = n_children nd }.

  Lemma model_backward_run : forall s1 t s2 loss,
      good s1 -> hvalid (st_nodes s1) t ->
      model_backward O s1 t = Some (s2, loss) ->
      exists out sc err ndr g' log, backward_run s1 t s2 loss out sc err ndr g' log.
  Proof.
    intros s1 t s2 loss Hgd Ht H. pose proof Hgd as [Hg Hr]. unfold model_backward in H.
    revert H. apply obind_elim. intros out Hout H.
    revert H. apply obind_elim. intros [sc err] Hcost H.
    revert H. apply obind_elim. intros [g' log] Hrun H.
    revert H. apply obind_elim. intros ea Hea H.
    injection H as <- <-. cbn [fst] in *.
    pose proof (cost_apply_post O s1 (st_cost s1) out t _ Hg (rvalid_output s1 out Hr Hout) Ht Hcost)
      as (Hxx & Hgc & Hherr). cbn [fst snd] in *.
    apply h_arr_inv in Hea. destruct Hea as (ndr & Hndr & ->).
    destruct (pass_good O (st_nodes sc) (e_node err) (e_keep err) None g' log Hgc Hherr) as [Hg' Hl'];
      [intros sd nd Hsd; discriminate Hsd | exact Hrun |].
    destruct (pass_skel O (st_nodes sc) _ _ _ g' log Hgc Hherr Hrun) as [_ Hskel].
    exists out, sc, err, ndr, g', log. split; try assumption; try reflexivity.
    apply good_with_nodes; [| exact Hg' | exact Hl'].
    split; [exact Hgc | eapply rvalid_ext; eassumption].
  Qed.

  Lemma model_backward_inv : forall s1 t s2 loss,
      good s1 -> hvalid (st_nodes s1) t ->
      model_backward O s1 t = Some (s2, loss) ->
      exists out sc err ndr g' log,
        st_output s1 = Some out /\
        cost_apply O s1 (st_cost s1) out t = Some (sc, err) /\
        ext s1 sc /\ store_good (st_nodes sc) /\
        nth_error (st_nodes sc) (e_node err) = Some ndr /\
        loss = a_sum_all O (pay_arr (n_pay ndr)) /\
        run_backward E (st_nodes sc) (e_node err) (e_keep err) None = Some (g', log) /\
        s2 = with_nodes sc g' /\
        length g' = length (st_nodes sc) /\ store_good g' /\ good s2 /\
        (forall id nd nd', nth_error (st_nodes sc) id = Some nd -> nth_error g' id = Some nd' ->
                           n_pay nd' = n_pay nd /\ n_children nd' = n_children nd).
  Proof.
    intros s1 t s2 loss Hgd Ht H.
    destruct (model_backward_run s1 t s2 loss Hgd Ht H) as (out & sc & err & ndr & g' & log & []).
    exists out, sc, err, ndr, g', log. repeat (split; [assumption |]). assumption.
  Qed.

  Lemma backward_run_param : forall s1 t s2 loss out sc err ndr g' log h nd,
      backward_run s1 t s2 loss out sc err ndr g' log -> rvalid s1 ->
      In h (model_params s1) -> h_node s1 h = Some nd ->
      nth_error (st_nodes sc) (e_node h) = Some nd /\
      exists nd', nth_error g' (e_node h) = Some nd' /\ h_node s2 h = Some nd' /\
                  n_pay nd' = n_pay nd /\ n_children nd' = n_children nd.
  Proof.
    intros s1 t s2 loss out sc err ndr g' log h nd [] Hrv Hh Hn.
    assert (Hn1 : nth_error (st_nodes sc) (e_node h) = Some nd).
    { rewrite <- Hn. apply (ext_keeps_nodes s1 sc Hrv br_ext0 h Hh). }
    split; [exact Hn1 |].
    destruct (nth_error g' (e_node h)) as [nd'|] eqn:Hn'.
    - exists nd'. split; [reflexivity |]. split; [subst s2; exact Hn' | exact (br_skel0 _ nd nd' Hn1 Hn')].
    - apply nth_error_None in Hn'. assert (e_node h < length (st_nodes sc))
        by (apply nth_error_Some; rewrite Hn1; discriminate). nlia.
  Qed.

  Theorem model_backward_armed : forall s1 t s2 loss,
      armed s1 -> hvalid (st_nodes s1) t ->
      model_backward O s1 t = Some (s2, loss) ->
      armed s2 /\ st_layers s2 = st_layers s1 /\ st_output s2 = st_output s1 /\
      st_cost s2 = st_cost s1 /\ st_lr s2 = st_lr s1 /\ st_pool s2 = st_pool s1 /\
      length (st_nodes s1) <= length (st_nodes s2).
  Proof.
    intros s1 t s2 loss Ha Ht H. pose proof Ha as (Hgd & _).
    destruct (model_backward_run s1 t s2 loss Hgd Ht H) as (out & sc & err & ndr & g' & log & Hbr).
    assert (Hk : keeps_skel s1 s2).
    { intros h nd Hh Hn.
      destruct (backward_run_param _ _ _ _ _ _ _ _ _ _ h nd Hbr (proj2 Hgd) Hh Hn)
        as (_ & nd' & _ & Hn' & Hsk). exists nd'. split; assumption. }
    destruct Hbr as [_ _ Hxx _ _ _ _ -> Hl' _ Hgd2 _].
    destruct (ext_fields s1 sc Hxx) as (Hpool & Hlay & Hco & Hlr & Hoo & _).
    pose proof (ext_len s1 sc Hxx) as Hle.
    split; [exact (armed_transfer s1 _ Ha Hgd2 Hlay Hk) |].
    cbn [with_nodes st_nodes st_layers st_output st_cost st_lr st_pool].
    repeat (split; [assumption |]). nlia.
  Qed.

  Lemma model_update_good : forall s s', good s -> model_update O s = Some s' -> good s'.
  Proof.
    intros s s' Hgd H. exact (proj1 (model_update_kept O (fun _ _ _ => True) s s' Hgd H)).
  Qed.

  Lemma armed_gd_pre : forall s,
      armed s ->
      NoDup (map e_node (unfrozen s (model_params s))) /\ gd_pre s (model_params s).
  Proof.
    intros s ((Hg & Hr) & Hp & Hnd). split.
    - apply unfrozen_nodup.
    - intros h p g Hh Hparr Hgr. destruct (param_node s h p g Hparr Hgr) as (nd & Hn & -> & Hgr').
      destruct (Hg _ nd Hn) as (_ & _ & _ & _ & Hw & Hgok).
      destruct (Hgok g Hgr') as [[_ Hwg] Hdg]. split; [exact Hw |].
      destruct Hw as [_ Hwp]. cbn [pay_arr dims vals] in *. rewrite <- Hwg, <- Hwp, Hdg. reflexivity.
  Qed.

  Lemma model_update_armed : forall s2,
      armed s2 ->
      model_update O s2
      = Some (with_layers (gd_result O s2 (st_lr s2) (model_params s2))
                          (rebuild_layers (st_layers s2)
                                          (gd_out s2 (length (st_nodes s2)) (model_params s2)))).
  Proof.
    intros s2 Ha. destruct (armed_gd_pre s2 Ha) as [_ Hpre]. unfold model_update.
    rewrite (gd_update_closed O s2 (st_lr s2) (model_params s2) (gd_pre_ok s2 _ Hpre)). reflexivity.
  Qed.

  Lemma model_update_closed : forall s2 s3,
      armed s2 -> model_update O s2 = Some s3 ->
      let out := gd_out s2 (length (st_nodes s2)) (model_params s2) in
      s3 = with_layers (gd_result O s2 (st_lr s2) (model_params s2))
                       (rebuild_layers (st_layers s2) out) /\
      model_params s3 = out.
  Proof.
    intros s2 s3 Ha Hmu out. rewrite (model_update_armed s2 Ha) in Hmu.
    injection Hmu as <-. split; [reflexivity |].
    apply rebuild_layers_params. unfold out. rewrite gd_out_length. apply model_params_length.
  Qed.

  (** what [model_update] does to one parameter: position [i] of the layers' parameter list *)
  Definition updated_param (s2 s3 : state) (i : nat) (h : handle) (nd2 : gnode) : Prop :=
    match n_grad nd2 with
    | None =>
      (* not reached by the pass: the handle and its node are unchanged *)
      nth_error (model_params s3) i = Some h /\ h_node s3 h = Some nd2
    | Some g =>
      (* one step along [g], in a fresh tracked leaf; the old node only loses its slot *)
      exists h3,
        nth_error (model_params s3) i = Some h3 /\
        length (st_nodes s2) <= e_node h3 /\ e_tracked h3 = true /\ e_keep h3 = true /\
        h_node s3 h3 =
        Some {| n_pay := {| p_dims := p_dims (n_pay nd2);
                            p_vals := map2 (fun x gx => fsub O x (fmul O (st_lr s2) gx))
                                           (p_vals (n_pay nd2)) (vals g);
                            p_bop := None; p_buf := e_node h3; p_tag := st_tag s2 |};
                n_children := []; n_count := 0; n_delta := None; n_grad := None |} /\
        h_node s3 h = Some (set_grad nd2 None)
    end.

  (** after the update a layer handle is an old parameter, a leaf whose slot is empty by then,
      or the tracked handle of a fresh leaf *)
  Lemma model_update_to_ready : forall s2 s3, armed s2 -> model_update O s2 = Some s3 -> ready s3.
  Proof.
    intros s2 s3 Ha Hmu. pose proof Ha as (Hgd & Hp & Hnd).
    destruct (model_update_closed s2 s3 Ha Hmu) as [Hs3 Hpar3]. cbv zeta in Hs3, Hpar3.
    assert (Hall : forall h3, In h3 (model_params s3) -> param_leaf s3 h3 /\ grad_of s3 h3 = None).
    { intros h3 Hin. rewrite Hpar3 in Hin. unfold param_leaf, grad_of. subst s3.
      change (h_node (with_layers ?s _) h3) with (h_node s h3).
      destruct (gd_result_out O s2 (st_lr s2) _ h3 Hin) as [Hf | (nd & g & _ & Ht & Hk & Hn)].
      - apply in_combine_l in Hf. destruct (Hp h3 Hf) as (Ht & Hk & nd & Hn & Hl).
        rewrite (gd_result_listed O s2 (st_lr s2) _ h3 nd Hf Hn).
        split; [| reflexivity]. split; [exact Ht |]. split; [exact Hk |].
        exists (set_grad nd None). split; [reflexivity | exact Hl].
      - rewrite Hn. split; [| reflexivity]. split; [exact Ht |]. split; [exact Hk |].
        eexists. split; [reflexivity |]. split; reflexivity. }
    split; [split; [apply (model_update_good s2 s3 Hgd Hmu) | split] |].
    - intros h3 Hin. apply (Hall h3 Hin).
    - rewrite Hpar3. apply gd_out_nodup; [| exact Hnd].
      intros h Hh. apply (model_params_valid s2 (proj2 Hgd) h Hh).
    - intros h3 Hin. apply (Hall h3 Hin).
  Qed.

  Lemma model_update_param : forall s2 s3 i h nd2,
      armed s2 -> model_update O s2 = Some s3 ->
      nth_error (model_params s2) i = Some h -> h_node s2 h = Some nd2 ->
      updated_param s2 s3 i h nd2.
  Proof.
    intros s2 s3 i h nd2 Ha Hmu Hi Hn. pose proof Ha as (_ & _ & Hnd).
    destruct (model_update_closed s2 s3 Ha Hmu) as [-> Hpar3]. cbv zeta in Hpar3.
    pose proof (gd_result_listed O s2 (st_lr s2) _ h nd2 (nth_error_In _ _ Hi) Hn) as Hold.
    unfold updated_param. rewrite Hpar3.
    change (h_node (with_layers ?s _)) with (h_node s).
    destruct (n_grad nd2) as [g|] eqn:Hg.
    - destruct (gd_unfrozen_nth O s2 (st_lr s2) _ (length (st_nodes s2)) i h nd2 g Hi Hn Hg
                                (nodup_first_occ e_node _ i h Hnd Hi)) as [Ho Hnew].
      eexists. split; [exact Ho |]. cbn [e_node e_tracked e_keep mkh].
      split; [apply Nat.le_add_r |]. split; [reflexivity |]. split; [reflexivity |].
      split; [| exact Hold]. unfold h_node. cbn [e_node mkh]. rewrite gd_result_new. exact Hnew.
    - split; [| rewrite Hold, (set_grad_none_id nd2 Hg); reflexivity].
      apply gd_out_kept; [exact Hi | left; unfold grad_of; rewrite Hn; exact Hg].
  Qed.

  Theorem model_update_ready : forall s2 s3,
      armed s2 -> model_update O s2 = Some s3 ->
      ready s3 /\
      st_pool s3 = st_pool s2 /\ st_cost s3 = st_cost s2 /\ st_lr s3 = st_lr s2 /\
      st_output s3 = st_output s2 /\
      length (model_params s3) = length (model_params s2) /\
      length (st_layers s3) = length (st_layers s2) /\
      (forall i h nd2, nth_error (model_params s2) i = Some h -> h_node s2 h = Some nd2 ->
                       updated_param s2 s3 i h nd2) /\
      (* every old node keeps everything but, for the stepped parameters, its gradient *)
      (forall j nd, nth_error (st_nodes s2) j = Some nd ->
                    exists nd', nth_error (st_nodes s3) j = Some nd' /\
                                n_pay nd' = n_pay nd /\ n_children nd' = n_children nd /\
                                (n_grad nd' = n_grad nd \/ n_grad nd' = None)).
  Proof.
    intros s2 s3 Ha Hmu.
    split; [exact (model_update_to_ready s2 s3 Ha Hmu) |].
    pose proof (fun i h nd2 => model_update_param s2 s3 i h nd2 Ha Hmu) as Hpos.
    destruct (model_update_closed s2 s3 Ha Hmu) as [-> Hpar3]. cbv zeta in Hpar3.
    split; [reflexivity |]. split; [reflexivity |]. split; [reflexivity |]. split; [reflexivity |].
    split; [rewrite Hpar3; apply gd_out_length |]. split; [apply rebuild_layers_length |].
    split; [exact Hpos |].
    intros j nd Hj. cbn [with_layers st_nodes].
    rewrite (gd_result_old O s2 (st_lr s2) _ j nd Hj). eexists. split; [reflexivity |].
    unfold clear_if. destruct (existsb _ _); cbn [set_grad n_pay n_children n_grad]; auto.
  Qed.

  (** * What the pass deposits in the parameter slots (needs the ring laws: the adjoint
      table is order independent) *)

  Section Slots.
    Hypothesis R : Sums.is_cring O.
    Local Notation E' := (ValueConcrete.E' O).

    (** the pass of [model_backward], as a pass of the concrete engine on the store [g]
        that contains the cost node [r]: each leaf slot receives exactly the entry of the
        adjoint table of THIS pass (root = the cost node, seed = all ones), accumulated
        onto what the slot held before *)
    Lemma pass_leaf_slots : forall (g : list gnode) r keep ndr g' log,
        store_good g -> nth_error g r = Some ndr ->
        run_backward E g r keep None = Some (g', log) ->
        exists tab,
          adjoints E' g r (eo_ones E (n_pay ndr)) = Some tab /\ length tab = length g /\
          forall id nd nd', nth_error g id = Some nd -> nth_error g' id = Some nd' ->
                            n_children nd = [] ->
                            PassTheorems.stored_opt E' (n_grad nd) (nth id tab None) (n_grad nd').
    Proof.
      intros g r keep ndr g' log Hg Hndr Hrun.
      assert (Hr : r < length g) by (apply nth_error_Some; rewrite Hndr; discriminate).
      assert (Hseed : seed_of E g r None = Some (eo_ones E (n_pay ndr))).
      { pose proof Hndr as Hndr'. unfold Program.gnode in Hndr'. unfold seed_of. rewrite Hndr'. reflexivity. }
      destruct (pass_value_table O R g r keep None _ ndr g' log Hg Hr Hndr Hseed)
        as (_ & _ & tab & [Htab Hlen _ _ _ _ Hany Hleaf _ _ _ _]).
      - intros sd Hsd. discriminate Hsd.
      - exact Hrun.
      - exists tab. split; [exact Htab |]. split; [exact Hlen |].
        intros id nd nd' Hn Hn' Hch. unfold PassTheorems.stored_opt.
        assert (Hid : id < length tab).
        { rewrite Hlen. apply nth_error_Some. rewrite Hn. discriminate. }
        destruct (nth_error tab id) as [x|] eqn:Hx; [| apply nth_error_None in Hx; lia].
        rewrite (nth_error_nth tab id None Hx).
        destruct x as [delta|].
        + apply (Hleaf id nd nd' delta Hn Hn' Hx Hch).
        + destruct (Hany id nd nd' Hn Hn') as [Hsame | (delta & Hd & _)]; [exact Hsame |].
          rewrite Hx in Hd. discriminate Hd.
    Qed.

    Record slots_run (s1 s2 sc : state) (err : handle) (ndr : gnode) (tab : table) : Prop := {
      sl_tab : adjoints E' (st_nodes sc) (e_node err) (eo_ones E (n_pay ndr)) = Some tab;
      sl_len : length tab = length (st_nodes sc);
      sl_slots : forall h nd1, In h (model_params s1) -> h_node s1 h = Some nd1 ->
          exists nd2, h_node s2 h = Some nd2 /\ n_pay nd2 = n_pay nd1 /\ n_children nd2 = [] /\
                      PassTheorems.stored_opt E' (n_grad nd1) (nth (e_node h) tab None)
                                              (n_grad nd2) }.

    Lemma model_backward_slots_run : forall s1 t s2 loss,
        armed s1 -> hvalid (st_nodes s1) t ->
        model_backward O s1 t = Some (s2, loss) ->
        exists out sc err ndr g' log tab,
          backward_run s1 t s2 loss out sc err ndr g' log /\ slots_run s1 s2 sc err ndr tab.
    Proof.
      intros s1 t s2 loss Ha Ht H. pose proof Ha as (Hgd & Hp & _).
      destruct (model_backward_run s1 t s2 loss Hgd Ht H) as (out & sc & err & ndr & g' & log & Hbr).
      pose proof Hbr as [_ _ _ Hgc Hndr _ Hrun _ _ _ _ _].
      destruct (pass_leaf_slots (st_nodes sc) (e_node err) (e_keep err) ndr g' log Hgc Hndr Hrun)
        as (tab & Htab & Hlen & Hleaf).
      exists out, sc, err, ndr, g', log, tab. split; [exact Hbr |].
      split; [exact Htab | exact Hlen |]. intros h nd1 Hh Hn1.
      destruct (Hp h Hh) as (_ & _ & nd & Hn & Hc & _).
      assert (nd = nd1) by congruence. subst nd.
      destruct (backward_run_param _ _ _ _ _ _ _ _ _ _ h nd1 Hbr (proj2 Hgd) Hh Hn1)
        as (Hnc & nd2 & Hn2 & Hn2' & Hpay & Hch).
      exists nd2. split; [exact Hn2' |]. split; [exact Hpay |]. split; [rewrite Hch; exact Hc |].
      apply (Hleaf _ nd1 nd2 Hnc Hn2 Hc).
    Qed.

    Theorem model_backward_slots : forall s1 t s2 loss,
        armed s1 -> hvalid (st_nodes s1) t ->
        model_backward O s1 t = Some (s2, loss) ->
        exists out sc err ndr g' log tab,
          (* the cost node is built from the current output and the target *)
          st_output s1 = Some out /\
          cost_apply O s1 (st_cost s1) out t = Some (sc, err) /\
          ext s1 sc /\ store_good (st_nodes sc) /\
          nth_error (st_nodes sc) (e_node err) = Some ndr /\
          (* the returned loss is the sum of the cost array *)
          loss = a_sum_all O (pay_arr (n_pay ndr)) /\
          (* one pass, default seed *)
          run_backward E (st_nodes sc) (e_node err) (e_keep err) None = Some (g', log) /\
          s2 = with_nodes sc g' /\
          (* its adjoint table *)
          adjoints E' (st_nodes sc) (e_node err) (eo_ones E (n_pay ndr)) = Some tab /\
          length tab = length (st_nodes sc) /\
          (* every parameter slot accumulates its entry of that table *)
          forall h nd1, In h (model_params s1) -> h_node s1 h = Some nd1 ->
            exists nd2, h_node s2 h = Some nd2 /\ n_pay nd2 = n_pay nd1 /\ n_children nd2 = [] /\
                        PassTheorems.stored_opt E' (n_grad nd1) (nth (e_node h) tab None)
                                                (n_grad nd2).
    Proof.
      intros s1 t s2 loss Ha Ht H.
      destruct (model_backward_slots_run s1 t s2 loss Ha Ht H)
        as (out & sc & err & ndr & g' & log & tab & [] & []).
      exists out, sc, err, ndr, g', log, tab. repeat (split; [assumption |]). assumption.
    Qed.

    (** From a [ready] state: forward on a batch, one backward against a target, one update.
        (a) the returned loss is the sum of the cost array built from the CURRENT output;
        (b) every parameter is stepped, element-wise, by [theta - lr * g] where [g] is exactly
            the entry of the adjoint table of this iteration's single pass on the cost node
            (the slot was empty before the pass), or is left alone if the pass did not reach it;
        (c) the resulting state is [ready] again. *)
    Record iteration_run (s : state) (s1 : state) (out t : handle) (s2 : state) (loss : F)
           (s3 sc : state) (err : handle) (ndr : gnode) (g' : list gnode) (log : @trace (arr F))
           (tab : table) : Prop := {
      it_out : st_output s1 = Some out;
      it_cost : cost_apply O s1 (st_cost s) out t = Some (sc, err);
      it_root : nth_error (st_nodes sc) (e_node err) = Some ndr;
      it_loss : loss = a_sum_all O (pay_arr (n_pay ndr));
      it_good : store_good (st_nodes sc);
      it_same : forall h, In h (model_params s) -> h_node sc h = h_node s h;
      it_pass : run_backward E (st_nodes sc) (e_node err) (e_keep err) None = Some (g', log);
      it_state : s2 = with_nodes sc g';
      it_tab : adjoints E' (st_nodes sc) (e_node err) (eo_ones E (n_pay ndr)) = Some tab;
      it_len : length (model_params s3) = length (model_params s);
      it_params : forall i h nd, nth_error (model_params s) i = Some h -> h_node s h = Some nd ->
          exists nd2, h_node s2 h = Some nd2 /\ n_pay nd2 = n_pay nd /\
                      n_grad nd2 = nth (e_node h) tab None /\
                      updated_param s2 s3 i h nd2;
      it_lr : st_lr s2 = st_lr s;
      it_ready : ready s3 }.

    Lemma train_iteration_run : forall s x s1 out t s2 loss s3,
        ready s -> hvalid (st_nodes s) x ->
        model_forward O s x = Some (s1, out) ->
        hvalid (st_nodes s1) t ->
        model_backward O s1 t = Some (s2, loss) ->
        model_update O s2 = Some s3 ->
        exists sc err ndr g' log tab, iteration_run s s1 out t s2 loss s3 sc err ndr g' log tab.
    Proof.
      intros s x s1 out t s2 loss s3 Hr Hx Hf Ht Hb Hu. pose proof Hr as (Ha & He).
      destruct (model_forward_armed s x s1 out Ha Hx Hf)
        as (Ha1 & Hr1 & Hout1 & Hvout & Hlay1 & Hcost1 & Hlr1 & Hpool1 & Hlen1 & Hold1).
      destruct (model_backward_slots_run s1 t s2 loss Ha1 Ht Hb)
        as (out' & sc & err & ndr & g' & log & tab & Hbr & [Htab Hlen Hslots]).
      destruct (model_backward_armed s1 t s2 loss Ha1 Ht Hb)
        as (Ha2 & Hlay2 & Hout2 & Hcost2 & Hlr2 & Hpool2 & Hlen2).
      destruct (model_update_ready s2 s3 Ha2 Hu)
        as (Hr3 & Hpool3 & Hcost3 & Hlr3 & Hout3 & Hlenp & Hlenl & Hupd & Hold3).
      assert (Hpar1 : model_params s1 = model_params s) by (apply model_params_layers; exact Hlay1).
      assert (Hpar2 : model_params s2 = model_params s1) by (apply model_params_layers; exact Hlay2).
      pose proof Ha as ((_ & Hrv) & _).
      assert (Hsame1 : forall h, In h (model_params s) -> h_node s1 h = h_node s h).
      { intros h Hh. unfold h_node. apply Hold1. apply (model_params_valid s Hrv h Hh). }
      destruct Hbr as [Hout Hcost Hxx Hgc Hndr Hloss Hrun Hs2 _ _ _ _].
      assert (out' = out) by congruence. subst out'.
      exists sc, err, ndr, g', log, tab. split; try assumption.
      - rewrite <- Hcost1. exact Hcost.
      - intros h Hh. rewrite <- (Hsame1 h Hh). rewrite <- Hpar1 in Hh.
        apply (ext_keeps_nodes s1 sc (proj2 (proj1 Ha1)) Hxx h Hh).
      - rewrite Hlenp, Hpar2, Hpar1. reflexivity.
      - intros i h nd Hi Hn.
        assert (Hh : In h (model_params s)) by (eapply nth_error_In; exact Hi).
        assert (Hn1 : h_node s1 h = Some nd) by (rewrite (Hsame1 h Hh); exact Hn).
        assert (Hh1 : In h (model_params s1)) by (rewrite Hpar1; exact Hh).
        destruct (Hslots h nd Hh1 Hn1) as (nd2 & Hn2 & Hpay & Hch & Hst).
        exists nd2. split; [exact Hn2 |]. split; [exact Hpay |].
        assert (Hg0 : n_grad nd = None).
        { specialize (He h Hh). unfold grad_of in He. rewrite Hn in He. exact He. }
        rewrite Hg0 in Hst. split; [| apply Hupd; [rewrite Hpar2, Hpar1; exact Hi | exact Hn2]].
        unfold PassTheorems.stored_opt in Hst.
        destruct (nth (e_node h) tab None) as [d|]; simpl in Hst; exact Hst.
      - congruence.
    Qed.

    Theorem train_iteration : forall s x s1 out t s2 loss s3,
        ready s -> hvalid (st_nodes s) x ->
        model_forward O s x = Some (s1, out) ->
        hvalid (st_nodes s1) t ->
        model_backward O s1 t = Some (s2, loss) ->
        model_update O s2 = Some s3 ->
        exists sc err ndr g' log tab,
          (* (a) *)
          st_output s1 = Some out /\
          cost_apply O s1 (st_cost s) out t = Some (sc, err) /\
          nth_error (st_nodes sc) (e_node err) = Some ndr /\
          loss = a_sum_all O (pay_arr (n_pay ndr)) /\
          (* the single pass and its table *)
          store_good (st_nodes sc) /\
          (forall h, In h (model_params s) -> h_node sc h = h_node s h) /\
          run_backward E (st_nodes sc) (e_node err) (e_keep err) None = Some (g', log) /\
          s2 = with_nodes sc g' /\
          adjoints E' (st_nodes sc) (e_node err) (eo_ones E (n_pay ndr)) = Some tab /\
          (* (b) *)
          length (model_params s3) = length (model_params s) /\
          (forall i h nd, nth_error (model_params s) i = Some h -> h_node s h = Some nd ->
             exists nd2, h_node s2 h = Some nd2 /\ n_pay nd2 = n_pay nd /\
                         n_grad nd2 = nth (e_node h) tab None /\
                         updated_param s2 s3 i h nd2) /\
          st_lr s2 = st_lr s /\
          (* (c) *)
          ready s3.
    Proof.
      intros s x s1 out t s2 loss s3 Hr Hx Hf Ht Hb Hu.
      destruct (train_iteration_run s x s1 out t s2 loss s3 Hr Hx Hf Ht Hb Hu)
        as (sc & err & ndr & g' & log & tab & []).
      exists sc, err, ndr, g', log, tab. repeat (split; [assumption |]). assumption.
    Qed.
  End Slots.
  (** * (L1) Model construction establishes [ready] *)

  Definition fresh_leaf (g : list gnode) (h : handle) : Prop :=
    e_tracked h = true /\ e_keep h = true /\
    exists nd, nth_error g (e_node h) = Some nd /\ leaf_node nd /\ n_grad nd = None.

  Definition wb (l : layer) : list handle := [l_w l; l_b l].

  Lemma fresh_leaf_app : forall g extra h, fresh_leaf g h -> fresh_leaf (g ++ extra) h.
  Proof.
    intros g extra h (Ht & Hk & nd & Hn & Hl & Hg). split; [exact Ht |]. split; [exact Hk |].
    exists nd. split; [| tauto]. rewrite nth_error_app1; [exact Hn |].
    apply nth_error_Some. rewrite Hn. discriminate.
  Qed.

  Lemma fresh_leaf_lt : forall g h, fresh_leaf g h -> e_node h < length g.
  Proof.
    intros g h (_ & _ & nd & Hn & _). apply nth_error_Some. rewrite Hn. discriminate.
  Qed.

  Lemma NoDup_app_two : forall (l : list nat) n,
      NoDup l -> (forall x, In x l -> x < n) -> NoDup (l ++ [n; S n]).
  Proof.
    intros l n Hnd Hlt. induction l as [|x l IH]; simpl.
    - constructor; [simpl; lia |]. constructor; [simpl; tauto | constructor].
    - inversion Hnd as [|? ? Hnin Hnd']; subst. constructor.
      + intro Hin. apply in_app_or in Hin. destruct Hin as [Hin | Hin]; [contradiction |].
        assert (x < n) by (apply Hlt; left; reflexivity). simpl in Hin. lia.
      + apply IH; [exact Hnd' |]. intros y Hy. apply Hlt. right. exact Hy.
  Qed.

  Lemma make_layer_fresh : forall (s : state) l s' ly,
      make_layer s l = Some (s', ly) ->
      exists nw nb,
        s' = with_nodes s (st_nodes s ++ [nw; nb]) /\
        leaf_node nw /\ n_grad nw = None /\ leaf_node nb /\ n_grad nb = None /\
        l_w ly = mkh (length (st_nodes s)) true true /\
        l_b ly = mkh (S (length (st_nodes s))) true true.
  Proof.
    intros s l s' ly H.
    assert (Hgen : forall (wa ba : arr F) conv a,
               (let '(s1, hw) := alloc s wa [] None None in
                let '(s2, hb) := alloc s1 ba [] None None in
                Some (s2, {| l_conv := conv; l_act := a;
                             l_w := mkh (e_node hw) true true; l_b := mkh (e_node hb) true true |}))
               = Some (s', ly) ->
               exists nw nb,
                 s' = with_nodes s (st_nodes s ++ [nw; nb]) /\
                 leaf_node nw /\ n_grad nw = None /\ leaf_node nb /\ n_grad nb = None /\
                 l_w ly = mkh (length (st_nodes s)) true true /\
                 l_b ly = mkh (S (length (st_nodes s))) true true).
    { intros wa ba conv a H0. unfold alloc in H0. cbn [st_nodes with_nodes e_node mkh] in H0.
      injection H0 as H1 H2. subst s' ly. eexists. eexists.
      split; [unfold with_nodes; cbn [st_nodes st_pool st_layers st_cost st_lr st_output st_tag];
              rewrite <- app_assoc; reflexivity |].
      cbn [l_w l_b]. rewrite app_length. cbn [length]. rewrite Nat.add_1_r.
      unfold leaf_node. cbn [n_children n_pay p_bop n_grad]. repeat split. }
    destruct l as [nin nout a w b | count depth fr fc sr sc a f b]; cbn [make_layer] in H.
    - revert H. apply obind_elim. intros wa _ H.
      revert H. apply obind_elim. intros ba _ H. eapply Hgen. exact H.
    - revert H. apply obind_elim. intros fa _ H.
      revert H. apply obind_elim. intros ba _ H. eapply Hgen. exact H.
  Qed.

  Theorem model_construction_ready : forall s0 ls c lr s' o,
      good s0 -> step O s0 (IModel ls c lr) = Some (s', o) -> ready s'.
  Proof.
    intros s0 ls c lr s' o Hgd H.
    assert (Hgd' : good s') by (apply (step_good O s0 (IModel ls c lr) s' o Hgd I H)).
    unfold step in H. cbv zeta in H.
    revert H. apply obind_elim. intros [s1 layers] Hfold H. injection H as H _.
    (* along the fold, the layer handles built so far are distinct fresh leaves *)
    assert (Hfresh : (forall h, In h (flat_map wb layers) -> fresh_leaf (st_nodes s1) h) /\
                     NoDup (map e_node (flat_map wb layers))).
    { refine (ofold_inv (fun (st : state * list layer) (l : layer_spec) =>
                           let '(s, out) := st in
                           r <- make_layer s l ;; let '(s2, ly) := r in Some (s2, out ++ [ly]))
                        (fun st => (forall h, In h (flat_map wb (snd st)) ->
                                              fresh_leaf (st_nodes (fst st)) h) /\
                                   NoDup (map e_node (flat_map wb (snd st))))
                        ls _ (s1, layers) Hfold _ _).
      - split; [intros h [] | constructor].
      - intros [s out] l st1 [Hf Hnd] _ Hstep. cbn [fst snd] in Hf, Hnd.
        revert Hstep. apply obind_elim. intros [s2 ly] Hm Hstep. injection Hstep as <-.
        destruct (make_layer_fresh s l s2 ly Hm)
          as (nw & nb & -> & Hlw & Hgw & Hlb & Hgb & Hw & Hb).
        cbn [fst snd st_nodes with_nodes]. rewrite flat_map_app. split.
        + intros h Hh. apply in_app_or in Hh. destruct Hh as [Hh | Hh].
          * apply fresh_leaf_app. apply Hf. exact Hh.
          * simpl in Hh. destruct Hh as [Hh | [Hh | []]]; subst h.
            -- rewrite Hw. split; [reflexivity |]. split; [reflexivity |]. exists nw.
               cbn [e_node mkh]. split; [| tauto].
               rewrite nth_error_app2 by apply le_n. rewrite Nat.sub_diag. reflexivity.
            -- rewrite Hb. split; [reflexivity |]. split; [reflexivity |]. exists nb.
               cbn [e_node mkh]. split; [| tauto].
               rewrite nth_error_app2 by lia.
               replace (S (length (st_nodes s)) - length (st_nodes s)) with 1 by lia. reflexivity.
        + rewrite map_app. simpl. rewrite Hw, Hb. cbn [e_node mkh].
          apply NoDup_app_two; [exact Hnd |].
          intros x Hx. apply in_map_iff in Hx. destruct Hx as (h & He & Hh). subst x.
          apply fresh_leaf_lt. apply Hf. exact Hh. }
    destruct Hfresh as [Hf Hnd].
    assert (Hpar : model_params s' = flat_map wb layers) by (subst s'; reflexivity).
    assert (Hnodes : st_nodes s' = st_nodes s1) by (subst s'; reflexivity).
    apply ready_spelled. split; [exact Hgd' |]. rewrite Hpar. split; [| exact Hnd].
    intros h Hh. destruct (Hf h Hh) as (Ht & Hk & nd & Hn & (Hc & Hb) & Hg).
    split; [exact Ht |]. split; [exact Hk |]. exists nd. unfold h_node. rewrite Hnodes. tauto.
  Qed.

  Lemma armed_push : forall s o,
      armed s -> (forall h, o = Some h -> hvalid (st_nodes s) h) -> armed (push s o).
  Proof.
    intros s o (Hg & Hp & Hnd) Ho. split; [apply good_push; assumption |]. split; assumption.
  Qed.

  Lemma ready_push : forall s o,
      ready s -> (forall h, o = Some h -> hvalid (st_nodes s) h) -> ready (push s o).
  Proof. intros s o (Ha & He) Ho. split; [apply armed_push; assumption | exact He]. Qed.

  Lemma armed_with_tag : forall s t, armed s -> armed (with_tag s t).
  Proof. intros s t H. exact H. Qed.

  Lemma ready_with_tag : forall s t, ready s -> ready (with_tag s t).
  Proof. intros s t H. exact H. Qed.

  Lemma ready_alloc_leaf : forall (s : state) (a : arr F) buf,
      ready s -> wf a ->
      ready (fst (alloc s a [] None buf)) /\
      hvalid (st_nodes (fst (alloc s a [] None buf))) (snd (alloc s a [] None buf)) /\
      ext s (fst (alloc s a [] None buf)).
  Proof.
    intros s a buf Hr Hw. pose proof Hr as (((Hg & Hrv) & _) & _).
    destruct (alloc_leaf_post s a buf Hg Hw) as (Hx & Hg' & Hh).
    split; [| split; assumption].
    apply (ready_transfer s _ Hr).
    - split; [exact Hg' | eapply rvalid_ext; eassumption].
    - apply (ext_fields _ _ Hx).
    - apply ext_keeps_nodes; assumption.
  Qed.

  (** what [model_update] reads is kept: the layers, the learning rate, the parameters' nodes *)
  Definition params_kept (s s' : state) : Prop :=
    st_layers s' = st_layers s /\ st_lr s' = st_lr s /\ keeps_nodes s s'.

  Lemma params_kept_refl : forall s, params_kept s s.
  Proof. intro s. repeat split. Qed.

  Lemma params_kept_trans : forall s1 s2 s3, params_kept s1 s2 -> params_kept s2 s3 -> params_kept s1 s3.
  Proof.
    intros s1 s2 s3 (A1 & A2 & A3) (B1 & B2 & B3).
    split; [congruence |]. split; [congruence |].
    intros h Hh. rewrite <- (A3 h Hh). apply B3.
    rewrite (model_params_layers s1 s2 A1). exact Hh.
  Qed.

  Lemma params_kept_armed : forall s s', armed s -> good s' -> params_kept s s' -> armed s' /\ (ready s -> ready s').
  Proof.
    intros s s' Ha Hg' (Hl & _ & Hk). split.
    - apply (armed_transfer s s' Ha Hg' Hl). apply keeps_nodes_skel. exact Hk.
    - intro Hr. apply (ready_transfer s s' Hr Hg' Hl Hk).
  Qed.

  (** the instructions that neither touch the cells of existing nodes nor rebind the layers:
      they only append nodes ([step_other_appends]) *)
  Definition appending (i : @instr F) : bool := negb (cell_instr i || changes_layers i).

  Theorem step_appending : forall s0 i s' o,
      armed s0 -> appending i = true -> step O s0 i = Some (s', o) ->
      armed s' /\ (ready s0 -> ready s') /\ params_kept s0 s'.
  Proof.
    intros s0 i s' o Ha Hi H. pose proof Ha as (Hgd & _).
    apply negb_true_iff, orb_false_iff in Hi. destruct Hi as [Hci Hcl].
    assert (Hgd' : good s').
    { apply (step_good O s0 i s' o Hgd); [| exact H]. destruct i; try exact I. discriminate Hci. }
    destruct (step_frame O s0 i s' o H) as (_ & _ & _ & _ & _ & Hlay & Hcfg & _).
    destruct (step_other_appends O s0 s' i o Hgd Hci H) as (extra & Hn).
    assert (Hk : params_kept s0 s').
    { split; [exact (Hlay Hcl) |]. split; [apply Hcfg; destruct i; try reflexivity; discriminate Hcl |].
      intros h Hh. unfold h_node. rewrite Hn. apply nth_error_app1.
      apply (model_params_valid s0 (proj2 Hgd) h Hh). }
    destruct (params_kept_armed s0 s' Ha Hgd' Hk) as [Ha' Hr']. auto.
  Qed.

  Theorem step_leaf_ready : forall s0 d v t s' o,
      ready s0 -> step O s0 (ILeaf d v t) = Some (s', o) -> ready s'.
  Proof.
    intros s0 d v t s' o Hr H.
    destruct (step_appending s0 (ILeaf d v t) s' o (proj1 Hr) eq_refl H) as (_ & Hr' & _).
    exact (Hr' Hr).
  Qed.

  Theorem step_leaf_armed : forall s0 d v t s' o,
      armed s0 -> step O s0 (ILeaf d v t) = Some (s', o) -> armed s'.
  Proof. intros s0 d v t s' o Ha H. exact (proj1 (step_appending s0 (ILeaf d v t) s' o Ha eq_refl H)). Qed.

  Theorem step_forward_armed : forall s0 h s' o,
      armed s0 -> step O s0 (IForward h) = Some (s', o) ->
      armed s' /\ (ready s0 -> ready s').
  Proof.
    intros s0 h s' o Ha H.
    destruct (step_appending s0 (IForward h) s' o Ha eq_refl H) as (Ha' & Hr' & _).
    split; assumption.
  Qed.

  Theorem step_backward_armed : forall s0 h s' o,
      armed s0 -> step O s0 (IModelBackward h) = Some (s', o) -> armed s'.
  Proof.
    intros s0 h s' o Ha H. unfold step in H. cbv zeta in H.
    set (s := with_tag s0 (length (st_pool s0))) in *.
    assert (Has : armed s) by (apply armed_with_tag; exact Ha).
    revert H. apply obind_elim. intros x Hx H.
    revert H. apply obind_elim. intros [s1 loss] Hmb H. injection H as H _. subst s'.
    assert (Hvx : hvalid (st_nodes s) x) by (eapply var_valid; [apply Has | exact Hx]).
    destruct (model_backward_armed s x s1 loss Has Hvx Hmb) as (Ha1 & _).
    apply armed_push; [exact Ha1 |]. intros h0 Hh0. discriminate Hh0.
  Qed.

  Theorem step_update_ready : forall s0 s' o,
      armed s0 -> step O s0 IModelUpdate = Some (s', o) -> ready s'.
  Proof.
    intros s0 s' o Ha H. unfold step in H. cbv zeta in H.
    set (s := with_tag s0 (length (st_pool s0))) in *.
    assert (Has : armed s) by (apply armed_with_tag; exact Ha).
    revert H. apply obind_elim. intros s1 Hmu H. injection H as H _. subst s'.
    pose proof (model_update_to_ready s s1 Has Hmu) as Hr1.
    apply ready_push; [exact Hr1 |]. intros h0 Hh0. discriminate Hh0.
  Qed.

  (** programs: a batch is [(dims, values)] of the input and of the target *)
  Definition batch : Type := ((list nat * list F) * (list nat * list F))%type.

  Definition batch_prog (n : nat) (b : batch) : list (@instr F) :=
    [ILeaf (fst (fst b)) (snd (fst b)) false; ILeaf (fst (snd b)) (snd (snd b)) false;
     IForward n; IModelBackward (S n); IModelUpdate].

  Fixpoint exec (s : state) (p : list (@instr F)) : option state :=
    match p with
    | [] => Some s
    | i :: p' => r <- step O s i ;; exec (fst r) p'
    end.

  (** the training program: the iteration for each batch, one after the other; [n] is the
      number of pool slots before the iteration (every instruction adds one slot) *)
  Fixpoint train_prog (n : nat) (bs : list batch) : list (@instr F) :=
    match bs with
    | [] => []
    | b :: bs' => batch_prog n b ++ train_prog (5 + n) bs'
    end.

  Lemma exec_app : forall p q s,
      exec s (p ++ q) = (s' <- exec s p ;; exec s' q).
  Proof.
    intro p. induction p as [|i p IH]; intros q s; simpl; [reflexivity |].
    destruct (step O s i) as [[s1 o]|]; simpl; [apply IH | reflexivity].
  Qed.

  Lemma exec_cons : forall s i p s',
      exec s (i :: p) = Some s' -> exists s1 o, step O s i = Some (s1, o) /\ exec s1 p = Some s'.
  Proof.
    intros s i p s' H. cbn [exec] in H. revert H. apply obind_elim. intros [s1 o] H1 H. eauto.
  Qed.

  Theorem exec_appending : forall p s s',
      armed s -> forallb appending p = true -> exec s p = Some s' ->
      armed s' /\ (ready s -> ready s') /\ params_kept s s'.
  Proof.
    intro p. induction p as [|i p IH]; intros s s' Ha Hp H.
    - injection H as <-. split; [exact Ha |]. split; [auto | apply params_kept_refl].
    - cbn [forallb] in Hp. apply andb_true_iff in Hp. destruct Hp as [Hi Hp].
      apply exec_cons in H. destruct H as (s1 & o1 & H1 & H).
      destruct (step_appending s i s1 o1 Ha Hi H1) as (Ha1 & Hr1 & Hk1).
      destruct (IH s1 s' Ha1 Hp H) as (Ha' & Hr' & Hk').
      split; [exact Ha' |]. split; [auto | eapply params_kept_trans; eassumption].
  Qed.

  Theorem batch_prog_ready : forall s n b s',
      ready s -> exec s (batch_prog n b) = Some s' -> ready s'.
  Proof.
    intros s n b s' Hr H.
    change (batch_prog n b)
      with ([ILeaf (fst (fst b)) (snd (fst b)) false; ILeaf (fst (snd b)) (snd (snd b)) false;
             IForward n] ++ [IModelBackward (S n); IModelUpdate]) in H.
    rewrite exec_app in H. revert H. apply obind_elim. intros s3 H3 H.
    apply exec_appending in H3; [| exact (proj1 Hr) | reflexivity]. destruct H3 as (Ha3 & _).
    apply exec_cons in H. destruct H as (s4 & o4 & H4 & H).
    apply exec_cons in H. destruct H as (s5 & o5 & H5 & H). injection H as <-.
    apply (step_update_ready _ _ _ (step_backward_armed _ _ _ _ Ha3 H4) H5).
  Qed.

  Theorem train_prog_ready : forall bs n s s',
      ready s -> exec s (train_prog n bs) = Some s' -> ready s'.
  Proof.
    intro bs. induction bs as [|b bs IH]; intros n s s' Hr H.
    - injection H as H. subst s'. exact Hr.
    - cbn [train_prog] in H. rewrite exec_app in H.
      revert H. apply obind_elim. intros s1 H1 H.
      apply (IH (5 + n) s1 s'); [| exact H].
      apply (batch_prog_ready s n b s1 Hr H1).
  Qed.

  Lemma train_prog_app : forall bs1 bs2 n,
      train_prog n (bs1 ++ bs2) = train_prog n bs1 ++ train_prog (5 * length bs1 + n) bs2.
  Proof.
    intro bs1. induction bs1 as [|b bs1 IH]; intros bs2 n; [reflexivity |].
    cbn [app train_prog length]. rewrite IH, <- app_assoc.
    replace (5 * length bs1 + (5 + n)) with (5 * S (length bs1) + n) by lia. reflexivity.
  Qed.

  Theorem train_prog_iterations_ready : forall bs1 b bs2 n s s',
      ready s -> exec s (train_prog n (bs1 ++ b :: bs2)) = Some s' ->
      exists sk sk',
        exec s (train_prog n bs1) = Some sk /\ ready sk /\
        exec sk (batch_prog (5 * length bs1 + n) b) = Some sk' /\ ready sk' /\
        exec sk' (train_prog (5 * S (length bs1) + n) bs2) = Some s' /\ ready s'.
  Proof.
    intros bs1 b bs2 n s s' Hr H. rewrite train_prog_app in H. cbn [train_prog] in H.
    rewrite exec_app in H. revert H. apply obind_elim. intros sk Hk H.
    rewrite exec_app in H. revert H. apply obind_elim. intros sk' Hk' H.
    replace (5 + (5 * length bs1 + n)) with (5 * S (length bs1) + n) in H by lia.
    pose proof (train_prog_ready bs1 n s sk Hr Hk) as Hrk.
    pose proof (batch_prog_ready sk _ b sk' Hrk Hk') as Hrk'.
    exists sk, sk'. repeat (split; [assumption |]). apply (train_prog_ready bs2 _ sk' s' Hrk' H).
  Qed.

  (** the same loop, as direct calls (batches given as arrays) *)
  Definition train_batch (s : state) (b : arr F * arr F) : option (state * F) :=
    let '(sa, hx) := alloc s (fst b) [] None None in
    let '(sb, ht) := alloc sa (snd b) [] None None in
    r1 <- model_forward O sb hx ;;
    let '(s1, _) := r1 in
    r2 <- model_backward O s1 ht ;;
    let '(s2, loss) := r2 in
    s3 <- model_update O s2 ;;
    Some (s3, loss).

  Fixpoint train (s : state) (bs : list (arr F * arr F)) : option (state * list F) :=
    match bs with
    | [] => Some (s, [])
    | b :: bs' =>
      r <- train_batch s b ;;
      let '(s', l) := r in
      r' <- train s' bs' ;;
      let '(s'', ls) := r' in Some (s'', l :: ls)
    end.

  Theorem train_batch_ready : forall s b s' loss,
      ready s -> wf (fst b) -> wf (snd b) -> train_batch s b = Some (s', loss) -> ready s'.
  Proof.
    intros s b s' loss Hr Hwx Hwt H. unfold train_batch in H.
    pose proof (ready_alloc_leaf s (fst b) None Hr Hwx) as (Hra & Hvx & Hxa).
    destruct (alloc s (fst b) [] None None) as [sa hx]. cbn [fst snd] in Hra, Hvx, Hxa.
    pose proof (ready_alloc_leaf sa (snd b) None Hra Hwt) as (Hrb & Hvt & Hxb).
    destruct (alloc sa (snd b) [] None None) as [sb ht]. cbn [fst snd] in Hrb, Hvt, Hxb.
    revert H. apply obind_elim. intros [s1 out] Hf H.
    revert H. apply obind_elim. intros [s2 l] Hb H.
    revert H. apply obind_elim. intros s3 Hu H. injection H as H1 H2. subst s' loss.
    assert (Hvx' : hvalid (st_nodes sb) hx) by (eapply hvalid_ext; eassumption).
    destruct (model_forward_armed sb hx s1 out (proj1 Hrb) Hvx' Hf)
      as (Ha1 & _ & _ & _ & _ & _ & _ & _ & Hlen1 & _).
    assert (Hvt1 : hvalid (st_nodes s1) ht) by (unfold hvalid in *; nlia).
    destruct (model_backward_armed s1 ht s2 l Ha1 Hvt1 Hb) as (Ha2 & _).
    apply (model_update_to_ready s2 s3 Ha2 Hu).
  Qed.

  Theorem train_ready : forall bs s s' ls,
      ready s -> Forall (fun b => wf (fst b) /\ wf (snd b)) bs ->
      train s bs = Some (s', ls) -> ready s' /\ length ls = length bs.
  Proof.
    intro bs. induction bs as [|b bs IH]; intros s s' ls Hr Hw H.
    - injection H as H1 H2. subst s' ls. split; [exact Hr | reflexivity].
    - inversion Hw as [|? ? [Hwx Hwt] Hw']; subst. cbn [train] in H.
      revert H. apply obind_elim. intros [s1 l] H1 H.
      revert H. apply obind_elim. intros [s2 ls'] H2 H. injection H as Ha Hb. subst s' ls.
      pose proof (train_batch_ready s b s1 l Hr Hwx Hwt H1) as Hr1.
      destruct (IH s1 s2 ls' Hr1 Hw' H2) as [Hr2 Hl]. split; [exact Hr2 | simpl; rewrite Hl; reflexivity].
  Qed.

  Lemma train_app : forall bs1 bs2 s,
      train s (bs1 ++ bs2)
      = (r <- train s bs1 ;; let '(s1, ls1) := r in
         r' <- train s1 bs2 ;; let '(s2, ls2) := r' in Some (s2, ls1 ++ ls2)).
  Proof.
    intro bs1. induction bs1 as [|b bs1 IH]; intros bs2 s; cbn [app train obind].
    - destruct (train s bs2) as [[s2 ls2]|]; reflexivity.
    - destruct (train_batch s b) as [[s1 l]|]; cbn [obind]; [| reflexivity]. rewrite IH.
      destruct (train s1 bs1) as [[s1' ls1]|]; cbn [obind]; [| reflexivity].
      destruct (train s1' bs2) as [[s2 ls2]|]; reflexivity.
  Qed.

  Theorem train_iterations_ready : forall bs1 b bs2 s s' ls,
      ready s -> Forall (fun b => wf (fst b) /\ wf (snd b)) (bs1 ++ b :: bs2) ->
      train s (bs1 ++ b :: bs2) = Some (s', ls) ->
      exists sk ls1 sk' l ls2,
        train s bs1 = Some (sk, ls1) /\ ready sk /\
        train_batch sk b = Some (sk', l) /\ ready sk' /\
        train sk' bs2 = Some (s', ls2) /\ ls = ls1 ++ l :: ls2.
  Proof.
    intros bs1 b bs2 s s' ls Hr Hw H. rewrite train_app in H.
    apply Forall_app in Hw. destruct Hw as [Hw1 Hw2]. inversion Hw2 as [|? ? [Hwx Hwt] _]; subst.
    revert H. apply obind_elim. intros [sk ls1] Hk H. cbn [train] in H.
    revert H. apply obind_elim. intros [s2 lrest] H2 H. injection H as <- <-.
    revert H2. apply obind_elim. intros [sk' l] Hb H2.
    revert H2. apply obind_elim. intros [s2' ls2] Hrest H2. injection H2 as <- <-.
    destruct (train_ready bs1 s sk ls1 Hr Hw1 Hk) as [Hrk _].
    exists sk, ls1, sk', l, ls2. split; [exact Hk |]. split; [exact Hrk |]. split; [exact Hb |].
    split; [apply (train_batch_ready sk b sk' l Hrk Hwx Hwt Hb) |]. split; [exact Hrest | reflexivity].
  Qed.

  (** * (L2a) The loss is a function of the current parameter values and the batch

      A pure mirror of the forward computation over arrays.  It uses the model's own pure
      functions ([a_matmul], [conv], [a_softmax], [a_sub], ...).  The theorems below need
      NO invariant: whatever else the state contains (stale gradients, old graphs, pool
      variables), the output and the loss are these functions of the parameter arrays,
      the input array and the target array. *)

  Definition act_val (a : Program.act) (x : arr F) : option (arr F) :=
    match a with
    | ANone => Some x
    | ARelu => a_relu O x
    | ASigmoid => a_sigmoid O x
    | ASoftmax => a_softmax O x
    end.

  Definition layer_val (cv : option (nat * nat)) (a : Program.act) (w b x : arr F) : option (arr F) :=
    match cv with
    | None => r <- a_matmul O x false w true (Some b) ;; act_val a r
    | Some (sr, sc) => c <- Image.conv O x w sr sc ;; r <- a_add O c b ;; act_val a r
    end.

  Definition lvals : Type := (option (nat * nat) * Program.act * arr F * arr F)%type.

  Definition layer_arrs (s : state) (l : layer) : option lvals :=
    w <- h_arr s (l_w l) ;; b <- h_arr s (l_b l) ;; Some (l_conv l, l_act l, w, b).

  Definition model_val (ps : list lvals) (x : arr F) : option (arr F) :=
    fold_left (fun (acc : option (arr F)) (p : lvals) =>
                 x <- acc ;; let '(cv, a, w, b) := p in layer_val cv a w b x)
              ps (Some x).

  Definition cost_val (c : Program.cost) (o t : arr F) : option (arr F) :=
    match c with
    | CMse =>
      d <- a_sub O t o ;; p <- a_powf O (two O) d ;;
      a_scale O (fdiv O (f1 O) (fofnat O (prod (dims o)))) p
    | CCrossEntropy =>
      batch <- nth_error (dims o) 0 ;;
      nt <- a_neg O t ;; lo <- a_ln O o ;; m <- a_mul O nt lo ;;
      a_scale O (fdiv O (f1 O) (fofnat O batch)) m
    end.

  Definition loss_val (c : Program.cost) (ps : list lvals) (x t : arr F) : option F :=
    o <- model_val ps x ;; ca <- cost_val c o t ;; Some (a_sum_all O ca).

  (** what an operation that [agrees] with an array computation returned *)
  Lemma agrees_value : forall (s : state) res v,
      agrees s (Some res) v ->
      exists r, v = Some r /\ sframe s (fst res) /\ h_arr (fst res) (snd res) = Some r.
  Proof. intros s res [r|] H; [exists r; split; [reflexivity | exact H] | destruct H]. Qed.

  Lemma hvalid_h_arr : forall (s : state) h, hvalid (st_nodes s) h -> exists a, h_arr s h = Some a.
  Proof.
    intros s h Hv. destruct (nth_error (st_nodes s) (e_node h)) as [nd|] eqn:Hn;
      [| apply nth_error_None in Hn; unfold hvalid in Hv; lia].
    exists (pay_arr (n_pay nd)). apply h_arr_node. exact Hn.
  Qed.

  Lemma layer_forward_agrees : forall (s : state) l input (x w b : arr F),
      h_arr s input = Some x -> h_arr s (l_w l) = Some w -> h_arr s (l_b l) = Some b ->
      agrees s (layer_forward O s l input) (layer_val (l_conv l) (l_act l) w b x).
  Proof.
    intros s l input x w b Hx Hw Hb. unfold layer_forward, layer_val.
    destruct (l_conv l) as [[sr sc]|].
    - refine (agrees_bind s _ _ (fun r1 => let '(s1, hc) := r1 in _) _
                          (conv_agrees O s sr sc input (l_w l) x w Hx Hw) _).
      intros s1 hc c F1 Hc.
      refine (agrees_bind s1 _ _ (fun r2 => let '(s2, h) := r2 in _) _
                          (binary_agrees s1 hc (l_b l) _ _ c b Hc (sframe_h_arr s s1 _ b F1 Hb)) _).
      intros s2 h r _ Hr. exact (apply_act_agrees O s2 (l_act l) h r Hr).
    - refine (agrees_bind s _ _ (fun r1 => let '(s1, h) := r1 in _) _ _ _).
      + apply matmul_agrees; [exact Hx | exact Hw |]. cbn [opt_arr]. rewrite Hb. reflexivity.
      + intros s1 h r _ Hr. exact (apply_act_agrees O s1 (l_act l) h r Hr).
  Qed.

  Lemma mapM_cons_some : forall {A B} (f : A -> option B) x xs y ys,
      f x = Some y -> mapM f xs = Some ys -> mapM f (x :: xs) = Some (y :: ys).
  Proof. intros A B f x xs y ys H1 H2. simpl. rewrite H1. simpl. rewrite H2. reflexivity. Qed.

  Lemma model_val_cons : forall cv a (w b x r : arr F) ps,
      layer_val cv a w b x = Some r -> model_val ((cv, a, w, b) :: ps) x = model_val ps r.
  Proof. intros cv a w b x r ps H. unfold model_val. cbn [fold_left obind]. rewrite H. reflexivity. Qed.

  Lemma fold_layers_val : forall ls (s0 s : state) h (x : arr F) s1 out,
      sframe s0 s -> (forall l, In l ls -> lvalid (st_nodes s0) l) ->
      h_arr s h = Some x ->
      fold_left (fun (acc : option (state * handle)) (l : layer) =>
                   st <- acc ;; let '(s', h') := st in layer_forward O s' l h')
                ls (Some (s, h)) = Some (s1, out) ->
      sframe s s1 /\
      exists ps r, mapM (layer_arrs s0) ls = Some ps /\ model_val ps x = Some r /\
                   h_arr s1 out = Some r.
  Proof.
    intro ls. induction ls as [|l ls IH]; intros s0 s h x s1 out Hx0 Hval Hx H.
    - injection H as H1 H2. subst s1 out. split; [apply sframe_refl |].
      exists [], x. split; [reflexivity |]. split; [reflexivity | exact Hx].
    - cbn [fold_left obind] in H.
      destruct (layer_forward O s l h) as [[s2 h2]|] eqn:Hl;
        [| rewrite fold_left_none in H by (intro b; reflexivity); discriminate H].
      destruct (Hval l (or_introl eq_refl)) as [Hvw Hvb].
      destruct (hvalid_h_arr s0 _ Hvw) as (w & Hw). destruct (hvalid_h_arr s0 _ Hvb) as (b & Hb).
      pose proof (layer_forward_agrees s l h x w b Hx (sframe_h_arr s0 s _ w Hx0 Hw)
                                       (sframe_h_arr s0 s _ b Hx0 Hb)) as Hag.
      rewrite Hl in Hag. destruct (agrees_value s _ _ Hag) as (r & Hr & Hx2 & Hv2). cbn [fst snd] in *.
      destruct (IH s0 s2 h2 r s1 out) as (Hx1 & ps & r' & Hps & Hmv & Hout).
      + eapply sframe_trans; eassumption.
      + intros l0 Hl0. apply Hval. right. exact Hl0.
      + exact Hv2.
      + exact H.
      + split; [eapply sframe_trans; eassumption |].
        exists ((l_conv l, l_act l, w, b) :: ps), r'. split; [| split; [| exact Hout]].
        * apply mapM_cons_some; [| exact Hps]. unfold layer_arrs. rewrite Hw, Hb. reflexivity.
        * rewrite (model_val_cons _ _ _ _ _ r _ Hr). exact Hmv.
  Qed.

  (** the output of [Model::forward] is [model_val] of the current parameter arrays *)
  Theorem model_forward_value : forall (s : state) x (xa : arr F) s1 out,
      rvalid s -> h_arr s x = Some xa ->
      model_forward O s x = Some (s1, out) ->
      exists ps oa, mapM (layer_arrs s) (st_layers s) = Some ps /\
                    model_val ps xa = Some oa /\ h_arr s1 out = Some oa /\
                    st_output s1 = Some out /\ st_cost s1 = st_cost s.
  Proof.
    intros s x xa s1 out Hr Hx H. unfold model_forward in H.
    revert H. apply obind_elim. intros [s2 out2] Hfold H.
    injection H as H1 H2. subst s1 out2.
    destruct (fold_layers_val (st_layers s) s s x xa s2 out (sframe_refl s)
                              (fun l Hl => rvalid_layers s l Hr Hl) Hx Hfold)
      as (Hxx & ps & oa & Hps & Hmv & Hout).
    exists ps, oa. split; [exact Hps |]. split; [exact Hmv |]. split; [exact Hout |].
    split; [reflexivity |]. apply Hxx.
  Qed.

  Lemma cost_apply_agrees : forall (s : state) c output target (oa ta : arr F),
      h_arr s output = Some oa -> h_arr s target = Some ta ->
      agrees s (cost_apply O s c output target) (cost_val c oa ta).
  Proof.
    intros s c output target oa ta Ho Ht. unfold cost_apply, cost_val. rewrite Ho. cbn [obind].
    destruct c.
    - cbv zeta.
      refine (agrees_bind s _ _ (fun r1 => let '(s1, d) := r1 in _) _
                          (sub_agrees O s target output ta oa Ht Ho) _).
      intros s1 d dd _ Hd.
      refine (agrees_bind s1 _ _ (fun r2 => let '(s2, p) := r2 in _) _ (unary_agrees s1 d _ _ dd Hd) _).
      intros s2 p pp _ Hp. exact (unary_agrees s2 p _ _ pp Hp).
    - destruct (nth_error (dims oa) 0) as [batch|]; [| exact I]. cbn [obind].
      refine (agrees_bind s _ _ (fun r1 => let '(s1, nt) := r1 in _) _ (unary_agrees s target _ _ ta Ht) _).
      intros s1 nt ntv F1 Hnt.
      refine (agrees_bind s1 _ _ (fun r2 => let '(s2, lo) := r2 in _) _
                          (unary_agrees s1 output _ _ oa (sframe_h_arr s s1 _ oa F1 Ho)) _).
      intros s2 lo lov F2 Hlo.
      refine (agrees_bind s2 _ _ (fun r3 => let '(s3, m) := r3 in _) _
                          (binary_agrees s2 nt lo _ _ ntv lov (sframe_h_arr s1 s2 _ ntv F2 Hnt) Hlo) _).
      intros s3 m mv _ Hm. exact (unary_agrees s3 m _ _ mv Hm).
  Qed.

  (** the loss returned by [Model::backward] is the sum of [cost_val] of the current output *)
  Theorem model_backward_loss : forall (s1 : state) t s2 loss out (oa ta : arr F),
      st_output s1 = Some out -> h_arr s1 out = Some oa -> h_arr s1 t = Some ta ->
      model_backward O s1 t = Some (s2, loss) ->
      exists ca, cost_val (st_cost s1) oa ta = Some ca /\ loss = a_sum_all O ca.
  Proof.
    intros s1 t s2 loss out oa ta Hout Hoa Hta H. unfold model_backward in H.
    revert H. apply obind_elim. intros out' Hout' H.
    assert (out' = out) by congruence. subst out'.
    revert H. apply obind_elim. intros [sc err] Hcost H.
    revert H. apply obind_elim. intros res _ H.
    revert H. apply obind_elim. intros ea Hea H. injection H as _ Hl.
    pose proof (cost_apply_agrees s1 (st_cost s1) out t oa ta Hoa Hta) as Hag. rewrite Hcost in Hag.
    destruct (agrees_value s1 _ _ Hag) as (ca & Hca & _ & Hv).
    cbn [fst snd] in Hv. exists ca. split; [exact Hca |]. congruence.
  Qed.

  (** (a) the loss an iteration returns is [loss_val] of the CURRENT parameter arrays, the
      batch and the target: nothing else of the state enters *)
  Theorem iteration_loss_value : forall (s : state) x (xa : arr F) s1 out t (ta : arr F) s2 loss,
      rvalid s -> h_arr s x = Some xa ->
      model_forward O s x = Some (s1, out) ->
      h_arr s1 t = Some ta ->
      model_backward O s1 t = Some (s2, loss) ->
      exists ps, mapM (layer_arrs s) (st_layers s) = Some ps /\
                 loss_val (st_cost s) ps xa ta = Some loss.
  Proof.
    intros s x xa s1 out t ta s2 loss Hr Hx Hf Ht Hb.
    destruct (model_forward_value s x xa s1 out Hr Hx Hf) as (ps & oa & Hps & Hmv & Hoa & Hout & Hc).
    destruct (model_backward_loss s1 t s2 loss out oa ta Hout Hoa Ht Hb) as (ca & Hca & Hl).
    exists ps. split; [exact Hps |]. unfold loss_val. rewrite Hmv. cbn [obind].
    rewrite <- Hc, Hca. cbn [obind]. rewrite Hl. reflexivity.
  Qed.
  (** * (L2d) Two backward calls before one update: the slots hold the sum *)

  Section Doubled.
    Hypothesis R : Sums.is_cring O.
    Local Notation E' := (ValueConcrete.E' O).

    (** each call builds its own cost node from the same output and runs its own pass; a
        parameter slot accumulates the entries of the two tables, in order.  With [ready s1]
        the first accumulation starts from the empty slot. *)
    Theorem double_backward_slots : forall s1 t1 s2 l1 t2 s2' l2,
        armed s1 -> hvalid (st_nodes s1) t1 ->
        model_backward O s1 t1 = Some (s2, l1) ->
        hvalid (st_nodes s2) t2 ->
        model_backward O s2 t2 = Some (s2', l2) ->
        exists out sc1 err1 ndr1 tab1 sc2 err2 ndr2 tab2,
          st_output s1 = Some out /\
          cost_apply O s1 (st_cost s1) out t1 = Some (sc1, err1) /\
          nth_error (st_nodes sc1) (e_node err1) = Some ndr1 /\
          adjoints E' (st_nodes sc1) (e_node err1) (eo_ones E (n_pay ndr1)) = Some tab1 /\
          cost_apply O s2 (st_cost s1) out t2 = Some (sc2, err2) /\
          nth_error (st_nodes sc2) (e_node err2) = Some ndr2 /\
          adjoints E' (st_nodes sc2) (e_node err2) (eo_ones E (n_pay ndr2)) = Some tab2 /\
          armed s2' /\
          forall h nd1, In h (model_params s1) -> h_node s1 h = Some nd1 ->
            exists nd2 o1,
              h_node s2' h = Some nd2 /\ n_pay nd2 = n_pay nd1 /\
              PassTheorems.stored_opt E' (n_grad nd1) (nth (e_node h) tab1 None) o1 /\
              PassTheorems.stored_opt E' o1 (nth (e_node h) tab2 None) (n_grad nd2).
    Proof.
      intros s1 t1 s2 l1 t2 s2' l2 Ha1 Ht1 Hb1 Ht2 Hb2.
      destruct (model_backward_slots_run R s1 t1 s2 l1 Ha1 Ht1 Hb1)
        as (out & sc1 & err1 & ndr1 & g1 & log1 & tab1 & Hbr1 & [Htab1 _ Hslots1]).
      destruct (model_backward_armed s1 t1 s2 l1 Ha1 Ht1 Hb1)
        as (Ha2 & Hlay2 & Hout2 & Hcost2 & _).
      destruct (model_backward_slots_run R s2 t2 s2' l2 Ha2 Ht2 Hb2)
        as (out' & sc2 & err2 & ndr2 & g2 & log2 & tab2 & Hbr2 & [Htab2 _ Hslots2]).
      destruct Hbr1 as [Hout Hcost1 _ _ Hndr1 _ _ _ _ _ _ _].
      destruct Hbr2 as [Hout' Hcostb _ _ Hndr2 _ _ _ _ _ _ _].
      assert (out' = out) by congruence. subst out'.
      destruct (model_backward_armed s2 t2 s2' l2 Ha2 Ht2 Hb2) as (Ha2' & _).
      assert (Hpar2 : model_params s2 = model_params s1) by (apply model_params_layers; exact Hlay2).
      exists out, sc1, err1, ndr1, tab1, sc2, err2, ndr2, tab2.
      split; [exact Hout |]. split; [exact Hcost1 |]. split; [exact Hndr1 |]. split; [exact Htab1 |].
      split; [rewrite <- Hcost2; exact Hcostb |]. split; [exact Hndr2 |]. split; [exact Htab2 |].
      split; [exact Ha2' |].
      intros h nd1 Hh Hn1.
      destruct (Hslots1 h nd1 Hh Hn1) as (ndm & Hnm & Hpm & _ & Hst1).
      assert (Hh2 : In h (model_params s2)) by (rewrite Hpar2; exact Hh).
      destruct (Hslots2 h ndm Hh2 Hnm) as (nd2 & Hn2 & Hp2 & _ & Hst2).
      exists nd2, (n_grad ndm). split; [exact Hn2 |]. split; [congruence |].
      split; assumption.
    Qed.
  End Doubled.

  (** * (L3) Nothing leaks into the next iteration *)

  (** after the update: the gradient slot of every old parameter node is empty; a layer
      handle is either an untouched parameter whose slot was already empty or a node
      created by this update; every layer handle points to a childless node without
      closure and without gradient, so the graph built by the iteration is not reachable
      from the parameters *)
  Theorem update_no_leak : forall s2 s3,
      armed s2 -> model_update O s2 = Some s3 ->
      (forall h, In h (model_params s2) -> grad_of s3 h = None) /\
      (forall h3, In h3 (model_params s3) ->
         (In h3 (model_params s2) /\ grad_of s2 h3 = None) \/ length (st_nodes s2) <= e_node h3) /\
      (forall h3, In h3 (model_params s3) ->
         exists nd, h_node s3 h3 = Some nd /\ n_children nd = [] /\ p_bop (n_pay nd) = None /\
                    n_grad nd = None).
  Proof.
    intros s2 s3 Ha Hu. pose proof Ha as (_ & _ & Hnd).
    destruct (model_update_closed s2 s3 Ha Hu) as [Hs3 Hpar3]. cbv zeta in Hs3, Hpar3.
    split; [| split].
    - intros h Hh. subst s3. apply (gd_result_no_grad O s2 (st_lr s2) _ h Hh).
    - intros h3 Hin. rewrite Hpar3 in Hin.
      destruct (gd_result_out O s2 (st_lr s2) _ h3 Hin) as [Hf | (nd & g & Hge & _)];
        [left | right; exact Hge].
      split; [apply in_combine_l in Hf; exact Hf | apply (flagged_true_nodup s2 _ h3 Hnd Hf)].
    - pose proof (model_update_to_ready s2 s3 Ha Hu) as Hr3. apply ready_spelled in Hr3. destruct Hr3 as (_ & Hp3 & _).
      intros h3 Hin. destruct (Hp3 h3 Hin) as (_ & _ & nd & H). exists nd. exact H.
  Qed.

  (** the handles the program holds after a forward call: the pool, the layer parameters and
      the output ([Ownership.model_forward_roots]); with the previous theorem, the graph of
      an iteration is reachable from the output and from user handles only *)
  Theorem iteration_roots : forall (s s1 : state) x out,
      model_forward O s x = Some (s1, out) ->
      st_output s1 = Some out /\
      roots s1 = Ownership.pool_handles (st_pool s1) ++ model_params s1 ++ [out].
  Proof. intros s s1 x out H. exact (Ownership.model_forward_roots O s s1 x out H). Qed.
End TrainLoop.

(** * Example over exact integers: one dense layer 2 -> 1, mean squared error *)

From Coq Require Import ZArith.

Module TrainExamples.
  Open Scope Z_scope.

  Definition net : @instr Z := IModel [LDense 2 1 ANone [3; 4] [5]] CMse 1.

  Definition batches : list (@batch Z) :=
    [ (([1%nat; 2%nat], [1; 2]), ([1%nat; 1%nat], [10]));
      (([1%nat; 2%nat], [1; 1]), ([1%nat; 1%nat], [0])) ].

  (** the result of a computation that succeeds.  In the examples the states are named
      through it and left unevaluated; only the equations between them are computed. *)
  Definition the {A} (d : A) (o : option A) : A := match o with Some a => a | None => d end.

  (** the program runs; the state after construction and the state after both iterations
      are [ready] (by the theorems); the parameters went [3;4],[5] -> [-9;-20],[-7] ->
      [135;124],[65] and hold no gradient *)
  Example train_example :
    exists s1 o1 s',
      step Z_ops (init_state Z_ops) net = Some (s1, o1) /\
      exec Z_ops s1 (train_prog 1 batches) = Some s' /\
      ready s1 /\ ready s' /\
      o_params s' = [ (1%nat, [1%nat; 1%nat; 2%nat], [63; 52]); (3%nat, [], []);
                      (1%nat, [1%nat; 1%nat], [65]); (3%nat, [], []) ].
  Proof.
    pose (r := the (init_state Z_ops, []) (step Z_ops (init_state Z_ops) net)).
    pose (s' := the (fst r) (exec Z_ops (fst r) (train_prog 1 batches))).
    assert (H1 : step Z_ops (init_state Z_ops) net = Some (fst r, snd r)) by (vm_compute; reflexivity).
    assert (H2 : exec Z_ops (fst r) (train_prog 1 batches) = Some s') by (vm_compute; reflexivity).
    pose proof (model_construction_ready Z_ops _ _ _ _ _ _ (good_init Z_ops) H1) as Hr1.
    exists (fst r), (snd r), s'. split; [exact H1 |]. split; [exact H2 |]. split; [exact Hr1 |].
    split; [apply (train_prog_ready Z_ops batches 1 _ s' Hr1 H2) | vm_compute; reflexivity].
  Qed.
  (** the hypotheses of [train_iteration] are satisfiable: the first iteration above, as
      direct calls *)
  Lemma Z_cring : Sums.is_cring Z_ops.
  Proof. exact InitialRing.Zth. Qed.

  Example train_iteration_instance :
    exists s x s1 out t s2 loss s3,
      ready s /\ hvalid (st_nodes s) x /\
      model_forward Z_ops s x = Some (s1, out) /\
      hvalid (st_nodes s1) t /\
      model_backward Z_ops s1 t = Some (s2, loss) /\
      model_update Z_ops s2 = Some s3 /\
      loss = 36 /\ ready s3.
  Proof.
    pose (p := [net; ILeaf [1%nat; 2%nat] [1; 2] false; ILeaf [1%nat; 1%nat] [10] false]).
    pose (s := the (init_state Z_ops) (exec Z_ops (init_state Z_ops) p)).
    pose (x := mkh 2 false false). pose (t := mkh 3 false false).
    pose (r1 := the (s, x) (model_forward Z_ops s x)).
    pose (r2 := the (s, 0) (model_backward Z_ops (fst r1) t)).
    pose (s3 := the s (model_update Z_ops (fst r2))).
    assert (H : exec Z_ops (init_state Z_ops) p = Some s) by (vm_compute; reflexivity).
    assert (Hr : ready s).
    { apply exec_cons in H. destruct H as (s1 & o1 & H1 & H).
      pose proof (model_construction_ready Z_ops _ _ _ _ _ _ (good_init Z_ops) H1) as Hr1.
      apply exec_appending in H; [| exact (proj1 Hr1) | reflexivity]. apply H. exact Hr1. }
    assert (Hx : hvalid (st_nodes s) x) by (vm_compute; lia).
    assert (Hf : model_forward Z_ops s x = Some (fst r1, snd r1)) by (vm_compute; reflexivity).
    assert (Ht : hvalid (st_nodes (fst r1)) t) by (vm_compute; lia).
    assert (Hb : model_backward Z_ops (fst r1) t = Some (fst r2, snd r2)) by (vm_compute; reflexivity).
    assert (Hu : model_update Z_ops (fst r2) = Some s3) by (vm_compute; reflexivity).
    destruct (train_iteration_run Z_ops Z_cring s x _ _ t _ _ s3 Hr Hx Hf Ht Hb Hu)
      as (sc & err & ndr & g' & log & tab & []).
    exists s, x, (fst r1), (snd r1), t, (fst r2), (snd r2), s3.
    repeat (split; [assumption |]). split; [vm_compute; reflexivity | assumption].
  Qed.
End TrainExamples.

Print Assumptions ready_spelled.
Print Assumptions model_construction_ready.
Print Assumptions model_forward_armed.
Print Assumptions model_backward_armed.
Print Assumptions model_update_ready.
Print Assumptions model_backward_slots.
Print Assumptions train_iteration.
Print Assumptions iteration_loss_value.
Print Assumptions batch_prog_ready.
Print Assumptions train_prog_ready.
Print Assumptions train_prog_iterations_ready.
Print Assumptions train_ready.
Print Assumptions train_iterations_ready.
Print Assumptions double_backward_slots.
Print Assumptions update_no_leak.
Print Assumptions iteration_roots.
Print Assumptions TrainExamples.train_example.
Print Assumptions TrainExamples.train_iteration_instance.
