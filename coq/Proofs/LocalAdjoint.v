(** C02, local part: for every backward closure, the deltas it delivers (after the
    engine's [flatten_to] to the child's dimensions) are the transpose of the Jacobian of
    the forward operation applied to the received adjoint, the Jacobian being the one of
    the dual-number run of the same forward operation:

      <delta, tangent (fwd_dual (children lifted with tangents t_i))>
        = sum over the children i of <flatten_to d_i (dims child_i), t_i>

    (children whose flag is off carry the zero tangent: stop-gradient). *)

From Coq Require Import List Arith Bool Lia PeanoNat ZArith Ring_theory Ring.
From Corgi Require Import Lib.OptionMonad Lib.IdxDefs Lib.Idx Model.Scalar Model.Arr
     Model.SlicedOp Model.Elementwise Model.Linalg Model.Image Model.Ops Lib.Sums
     Proofs.ArrFacts Proofs.BroadcastDims Proofs.SpecDefs Proofs.SlicedOpSpec Proofs.EwSpec
     Proofs.ReduceSpec Proofs.FlattenSpec Proofs.ConvSpec Proofs.DualLift.
Import ListNotations.

Section Formulation.
  Context {F : Type} (O : ScalarOps F).

  (** the children, lifted with their (masked) tangents; [i] is the position of the head *)
  Fixpoint lift_children (i : nat) (flags : list bool) (cs ts : list (arr F))
    : list (arr (@dual F)) :=
    match cs, ts with
    | c :: cs', t :: ts' => lift c (mask O (flag flags i) t) :: lift_children (S i) flags cs' ts'
    | _, _ => []
    end.

  (** the contribution [x] of one child: the delivered delta is flattened to the child's
      dimensions and paired with the child's (masked) tangent; an absent delta is only
      allowed for an unflagged child and contributes nothing *)
  Definition child_term (c t : arr F) (b : bool) (od : option (arr F)) (x : F) : Prop :=
    match od with
    | Some d => exists fd, flatten_to O d (dims c) = Some fd /\
                           x = dot O (vals fd) (vals (mask O b t))
    | None => b = false /\ x = f0 O
    end.

  Fixpoint child_terms (i : nat) (flags : list bool) (cs ts : list (arr F))
           (ds : list (option (arr F))) (xs : list F) : Prop :=
    match cs, ts, ds, xs with
    | [], [], [], [] => True
    | c :: cs', t :: ts', od :: ds', x :: xs' =>
      child_term c t (flag flags i) od x /\ child_terms (S i) flags cs' ts' ds' xs'
    | _, _, _, _ => False
    end.

  Definition no_pre (cs : list (arr F)) : Prop := True.

  (** [fwdD]: the forward operation at the dual instance; [code cs r]: the closure attached
      to the result [r] of the forward operation on [cs]; [pre]: side condition on the
      children under which the operation is used ([no_pre] for most) *)
  Definition local_identity (arity : nat) (pre : list (arr F) -> Prop)
             (fwdD : list (arr (@dual F)) -> option (arr (@dual F)))
             (code : list (arr F) -> arr F -> bop_code F) : Prop :=
    forall (cs ts : list (arr F)) (flags : list bool) (delta : arr F)
           (RD : arr (@dual F)) (ds : list (option (arr F))),
      length cs = arity -> pre cs -> Forall wf cs -> Forall2 tangent_for cs ts ->
      fwdD (lift_children 0 flags cs ts) = Some RD ->
      wf delta -> dims delta = dims RD ->
      run_bop O (code cs (primal RD)) cs flags delta = Some ds ->
      exists xs, child_terms 0 flags cs ts ds xs /\
                 dot O (vals delta) (vals (tangent RD)) = vsum O xs.

  (** executable version, for sanity checks *)
  Fixpoint eval_terms (i : nat) (flags : list bool) (cs ts : list (arr F))
           (ds : list (option (arr F))) : option (list F) :=
    match cs, ts, ds with
    | [], [], [] => Some []
    | c :: cs', t :: ts', od :: ds' =>
      x <- match od with
           | Some d => fd <- flatten_to O d (dims c) ;;
                       Some (dot O (vals fd) (vals (mask O (flag flags i) t)))
           | None => if flag flags i then None else Some (f0 O)
           end ;;
      xs <- eval_terms (S i) flags cs' ts' ds' ;;
      Some (x :: xs)
    | _, _, _ => None
    end.

  Definition eval_identity (fwdD : list (arr (@dual F)) -> option (arr (@dual F)))
             (code : list (arr F) -> arr F -> bop_code F)
             (cs ts : list (arr F)) (flags : list bool) (delta : arr F) : option (F * F) :=
    RD <- fwdD (lift_children 0 flags cs ts) ;;
    ds <- run_bop O (code cs (primal RD)) cs flags delta ;;
    xs <- eval_terms 0 flags cs ts ds ;;
    Some (dot O (vals delta) (vals (tangent RD)), vsum O xs).

  Definition fwd1 {G} (f : arr G -> option (arr G)) (l : list (arr G)) : option (arr G) :=
    match l with [a] => f a | _ => None end.
  Definition fwd2 {G} (f : arr G -> arr G -> option (arr G)) (l : list (arr G)) : option (arr G) :=
    match l with [a; b] => f a b | _ => None end.
End Formulation.

Section Delivered.
  Context {F : Type} (O : ScalarOps F).
  Local Notation "l '@' j" := (nth j l (f0 O)) (at level 9, j at level 9).

  (** what a closure delivers to one child: an array of dimensions [D] (those of the result)
      with values [G], or nothing when the flag is off *)
  Definition deliv (D : list nat) (b : bool) (od : option (arr F)) (G : nat -> F) : Prop :=
    match od with
    | Some d => wf d /\ dims d = D /\ forall j, j < prod D -> (vals d) @ j = G j
    | None => b = false
    end.
End Delivered.

Section Identities.
  Context {F : Type} (O : ScalarOps F) (R : is_cring O).
  Local Notation D2 := (dual_ops O).

  Let Rth : ring_theory (f0 O) (f1 O) (fadd O) (fmul O) (fsub O) (fneg O) (@eq F) := R.
  Add Ring local_adjoint_ring : Rth.

  Local Notation "l '@' j" := (nth j l (f0 O)) (at level 9, j at level 9).

Section Tools.

  (** The list bookkeeping of [local_identity], once per arity: what remains to be shown is
      stated about the children themselves, with their masked tangents. *)

  Lemma local_identity_1 : forall (pre : list (arr F) -> Prop) fwdD code,
      (forall c t flags delta RD ds,
          pre [c] -> wf c -> tangent_for c t -> tangent_for c (mask O (flag flags 0) t) ->
          fwdD [lift c (mask O (flag flags 0) t)] = Some RD ->
          wf delta -> dims delta = dims RD ->
          run_bop O (code [c] (primal RD)) [c] flags delta = Some ds ->
          exists od x, ds = [od] /\ child_term O c t (flag flags 0) od x /\
                       dot O (vals delta) (vals (tangent RD)) = x) ->
      local_identity O 1 pre fwdD code.
  Proof.
    intros pre fwdD code H cs ts flags delta RD ds Hlen Hpre Hwf Hts Hfwd Hwd Hdd Hrun.
    destruct cs as [|c [|? ?]]; try discriminate Hlen.
    inversion Hts as [|? t ? ts1 Ht Hts1]; subst. inversion Hts1; subst.
    inversion Hwf as [|? ? Hwc _]; subst.
    destruct (H c t flags delta RD ds Hpre Hwc Ht (mask_tangent_for O _ c t Ht) Hfwd Hwd Hdd Hrun)
      as (od & x & -> & Hx & E).
    exists [x]. split; [cbn [child_terms]; auto|]. rewrite (vsum_single O R). exact E.
  Qed.

  Lemma local_identity_2 : forall (pre : list (arr F) -> Prop) fwdD code,
      (forall a b ta tb flags delta RD ds,
          pre [a; b] -> wf a -> wf b -> tangent_for a ta -> tangent_for b tb ->
          tangent_for a (mask O (flag flags 0) ta) -> tangent_for b (mask O (flag flags 1) tb) ->
          fwdD [lift a (mask O (flag flags 0) ta); lift b (mask O (flag flags 1) tb)] = Some RD ->
          wf delta -> dims delta = dims RD ->
          run_bop O (code [a; b] (primal RD)) [a; b] flags delta = Some ds ->
          exists od0 od1 x0 x1,
            ds = [od0; od1] /\ child_term O a ta (flag flags 0) od0 x0 /\
            child_term O b tb (flag flags 1) od1 x1 /\
            dot O (vals delta) (vals (tangent RD)) = fadd O x0 x1) ->
      local_identity O 2 pre fwdD code.
  Proof.
    intros pre fwdD code H cs ts flags delta RD ds Hlen Hpre Hwf Hts Hfwd Hwd Hdd Hrun.
    destruct cs as [|a [|b [|? ?]]]; try discriminate Hlen.
    inversion Hts as [|? ta ? ts1 Hta Hts1]; subst.
    inversion Hts1 as [|? tb ? ts2 Htb Hts2]; subst. inversion Hts2; subst.
    inversion Hwf as [|? ? Hwa Hwf1]; subst. inversion Hwf1 as [|? ? Hwb _]; subst.
    destruct (H a b ta tb flags delta RD ds Hpre Hwa Hwb Hta Htb (mask_tangent_for O _ a ta Hta)
                (mask_tangent_for O _ b tb Htb) Hfwd Hwd Hdd Hrun)
      as (od0 & od1 & x0 & x1 & -> & Hx0 & Hx1 & E).
    exists [x0; x1]. split; [cbn [child_terms]; auto|].
    rewrite !(vsum_cons O R), (vsum_nil O), E. ring.
  Qed.

  Lemma local_identity_3 : forall (pre : list (arr F) -> Prop) fwdD code,
      (forall a b c ta tb tc flags delta RD ds,
          pre [a; b; c] -> wf a -> wf b -> wf c ->
          tangent_for a ta -> tangent_for b tb -> tangent_for c tc ->
          tangent_for a (mask O (flag flags 0) ta) -> tangent_for b (mask O (flag flags 1) tb) ->
          tangent_for c (mask O (flag flags 2) tc) ->
          fwdD [lift a (mask O (flag flags 0) ta); lift b (mask O (flag flags 1) tb);
                lift c (mask O (flag flags 2) tc)] = Some RD ->
          wf delta -> dims delta = dims RD ->
          run_bop O (code [a; b; c] (primal RD)) [a; b; c] flags delta = Some ds ->
          exists od0 od1 od2 x0 x1 x2,
            ds = [od0; od1; od2] /\ child_term O a ta (flag flags 0) od0 x0 /\
            child_term O b tb (flag flags 1) od1 x1 /\ child_term O c tc (flag flags 2) od2 x2 /\
            dot O (vals delta) (vals (tangent RD)) = fadd O (fadd O x0 x1) x2) ->
      local_identity O 3 pre fwdD code.
  Proof.
    intros pre fwdD code H cs ts flags delta RD ds Hlen Hpre Hwf Hts Hfwd Hwd Hdd Hrun.
    destruct cs as [|a [|b [|c [|? ?]]]]; try discriminate Hlen.
    inversion Hts as [|? ta ? ts1 Hta Hts1]; subst.
    inversion Hts1 as [|? tb ? ts2 Htb Hts2]; subst.
    inversion Hts2 as [|? tc ? ts3 Htc Hts3]; subst. inversion Hts3; subst.
    inversion Hwf as [|? ? Hwa Hwf1]; subst. inversion Hwf1 as [|? ? Hwb Hwf2]; subst.
    inversion Hwf2 as [|? ? Hwc _]; subst.
    destruct (H a b c ta tb tc flags delta RD ds Hpre Hwa Hwb Hwc Hta Htb Htc
                (mask_tangent_for O _ a ta Hta) (mask_tangent_for O _ b tb Htb)
                (mask_tangent_for O _ c tc Htc) Hfwd Hwd Hdd Hrun)
      as (od0 & od1 & od2 & x0 & x1 & x2 & -> & Hx0 & Hx1 & Hx2 & E).
    exists [x0; x1; x2]. split; [cbn [child_terms]; auto|].
    rewrite !(vsum_cons O R), (vsum_nil O), E. ring.
  Qed.

  Lemma dot_tangent : forall (x : list F) (RD : arr (@dual F)) n,
      length x = n -> length (vals RD) = n ->
      dot O x (vals (tangent RD))
      = vsum O (map (fun j => fmul O (x @ j) (snd (nth j (vals RD) (f0 D2)))) (seq 0 n)).
  Proof.
    intros x RD n Hx HR. rewrite (dot_seq O x _ n Hx) by (cbn [tangent vals]; rewrite map_length; exact HR).
    f_equal. apply map_ext. intros j. rewrite tangent_nth. reflexivity.
  Qed.

  Lemma vsum_mul_zero_tangent : forall (G : nat -> F) (p : nat -> nat) (t : arr F) l,
      vsum O (map (fun j => fmul O (G j) ((vals (mask O false t)) @ (p j))) l) = f0 O.
  Proof.
    intros G p t l. apply (vsum_zeros O R). intros y Hy. apply in_map_iff in Hy.
    destruct Hy as (j & <- & _). cbn [mask]. rewrite zeros_like_nth. ring.
  Qed.

  Lemma child_term_own_dims : forall (c t d : arr F) b,
      wf c -> tangent_for c t -> wf d -> dims d = dims c ->
      child_term O c t b (Some d)
        (vsum O (map (fun j => fmul O ((vals d) @ j) ((vals (mask O b t)) @ j))
                     (seq 0 (length (vals c))))).
  Proof.
    intros c t d b Hwc Ht Hwd Hd. exists d. split.
    - rewrite <- Hd. apply flatten_to_same.
    - symmetry. apply dot_seq.
      + apply wf_same_length; assumption.
      + apply tangent_for_length; [exact Hwc|apply mask_tangent_for; exact Ht].
  Qed.

  Lemma child_term_flattened : forall (c t d : arr F) b,
      wf c -> dims c <> [] -> tangent_for c t -> wf d -> sub_target (dims c) (dims d) ->
      child_term O c t b (Some d)
        (vsum O (map (fun j => fmul O ((vals d) @ j)
                                      ((vals (mask O b t)) @ (bpos (dims d) (dims c) j)))
                     (seq 0 (prod (dims d))))).
  Proof.
    intros c t d b Hwc Hnc Ht Hwd Hsub.
    destruct (mask_tangent_for O b c t Ht) as [Hwt' Hdt']. set (t' := mask O b t) in *.
    pose proof Hwc as [Hpc _]. pose proof Hwd as [Hpd Hld].
    assert (Hnd : dims d <> []).
    { destruct Hsub as [Hl _]. intros E. rewrite E in Hl. destruct (dims c); [congruence|simpl in Hl; lia]. }
    destruct (flatten_to_spec O R d (dims c) Hwd Hnd Hnc Hpc Hsub) as (fd & Hfd & _).
    exists fd. split; [exact Hfd|]. fold t'.
    rewrite (flatten_to_adjoint O R d fd t' (dims c) Hwd Hnd Hnc Hpc Hsub Hfd Hwt' Hdt').
    rewrite (dot_seq O _ _ (prod (dims d)));
      [|symmetry; exact Hld|cbn [bcast_to vals]; rewrite map_length; apply all_indices_length].
    f_equal. apply map_ext_in. intros j Hj. apply in_seq in Hj.
    rewrite bcast_to_nth by lia. rewrite Hdt'. reflexivity.
  Qed.

  Lemma deliv_term : forall (c t : arr F) D b od G,
      wf c -> dims c <> [] -> tangent_for c t -> sub_target (dims c) D -> deliv O D b od G ->
      exists x, child_term O c t b od x /\
                x = vsum O (map (fun j => fmul O (G j) ((vals (mask O b t)) @ (bpos D (dims c) j)))
                                (seq 0 (prod D))).
  Proof.
    intros c t D b [d|] G Hwc Hnc Ht Hsub Hd; cbn [deliv] in Hd.
    - destruct Hd as (Hwd & Hdd & Hv). eexists. split.
      + apply child_term_flattened; try assumption. rewrite Hdd. exact Hsub.
      + rewrite Hdd. f_equal. apply map_ext_in. intros j Hj. apply in_seq in Hj.
        rewrite Hv by lia. reflexivity.
    - subst b. exists (f0 O). split; [split; reflexivity|].
      symmetry. apply vsum_mul_zero_tangent.
  Qed.

  (** [d] has the dimensions of [c] and the values [G]: what [deliv] says of a delivered array *)
  Definition pw (c d : arr F) (G : nat -> F) : Prop := deliv O (dims c) true (Some d) G.

  (** a delivery of the child's own dimensions *)
  Lemma deliv_own_term : forall (c t : arr F) b od G,
      wf c -> tangent_for c t -> deliv O (dims c) b od G ->
      exists x, child_term O c t b od x /\
                x = vsum O (map (fun j => fmul O (G j) ((vals (mask O b t)) @ j))
                                (seq 0 (length (vals c)))).
  Proof.
    intros c t b [d|] G Hwc Ht Hd; cbn [deliv] in Hd.
    - destruct Hd as (Hwd & Hdd & Hv). eexists. split.
      + apply child_term_own_dims; assumption.
      + f_equal. apply map_ext_in. intros j Hj. apply in_seq in Hj.
        rewrite Hv by (rewrite (proj2 Hwc); lia). reflexivity.
    - subst b. exists (f0 O). split; [split; reflexivity|].
      symmetry. apply (vsum_mul_zero_tangent G (fun j => j)).
  Qed.

  Lemma flag_deliv : forall D (x : arr F) (b : bool),
      wf x -> dims x = D -> deliv O D b (if b then Some x else None) (fun j => (vals x) @ j).
  Proof. intros D x [|] Hw Hd; cbn [deliv]; [|reflexivity]. split; [exact Hw|]. split; [exact Hd|]. reflexivity. Qed.

  Lemma when_some : forall b (x : option (arr F)) od,
      when b x = Some od ->
      (b = true /\ exists r, x = Some r /\ od = Some r) \/ (b = false /\ od = None).
  Proof.
    intros [|] x od H; unfold when in H.
    - left. split; [reflexivity|]. destruct x as [r|]; [|discriminate].
      inversion H. exists r. auto.
    - right. inversion H. auto.
  Qed.

  Lemma when_deliv : forall D b x od G,
      when b x = Some od -> (forall r, x = Some r -> deliv O D true (Some r) G) -> deliv O D b od G.
  Proof.
    intros D b x od G H Hx. apply when_some in H.
    destruct H as [(_ & r & Hr & ->)|(Hf & ->)]; [exact (Hx r Hr)|exact Hf].
  Qed.

  Lemma nth_map_in : forall (g : F -> F) (l : list F) k,
      k < length l -> (map g l) @ k = g (l @ k).
  Proof.
    intros g l k Hk. rewrite (nth_indep _ (f0 O) (g (f0 O))) by (rewrite map_length; exact Hk).
    apply map_nth.
  Qed.

  Lemma nth_zip : forall {A B C} (f : A -> B -> C) (x : list A) (y : list B) j d dx dy,
      j < length x -> j < length y ->
      nth j (map (fun p => f (fst p) (snd p)) (combine x y)) d = f (nth j x dx) (nth j y dy).
  Proof.
    intros A B C f x. induction x as [|a x IH]; intros [|b y] [|j] d dx dy Hx Hy;
      simpl in *; try lia; [reflexivity|]. apply IH; lia.
  Qed.

  Lemma map_result_wf : forall (g : F -> F) (a : arr F), wf a -> wf (map_result g a).
  Proof. intros. apply map_arr_result_wf. assumption. Qed.

  Lemma pw_self : forall c x : arr F, wf x -> dims x = dims c -> pw c x (fun j => (vals x) @ j).
  Proof. intros c x Hw Hd. split; [exact Hw|]. split; [exact Hd|]. reflexivity. Qed.

  Lemma pw_length : forall c d G, wf c -> pw c d G -> length (vals d) = length (vals c).
  Proof. intros c d G Hwc (Hw & Hd & _). apply wf_same_length; assumption. Qed.

  Lemma pw_map : forall (c a r : arr F) v (g : F -> F),
      wf c -> pw c a v -> map_arr g a = Some r -> pw c r (fun j => g (v j)).
  Proof.
    intros c a r v g Hwc Ha Hr. pose proof (pw_length c a v Hwc Ha) as Hl. pose proof Hwc as [_ Hlc].
    destruct Ha as (Hwa & Hda & Hv). apply map_arr_some in Hr. destruct Hr as [_ ->].
    split; [apply map_result_wf; exact Hwa|]. split; [exact Hda|].
    intros j Hj. cbn [map_result vals]. rewrite nth_map_in, Hv by lia. reflexivity.
  Qed.

  Lemma ew_left_below : forall f (c x r : arr F),
      wf c -> wf x -> sub_lead (dims c) (dims x) ->
      element_wise_op O f c x = Some r ->
      wf r /\ dims r = dims x /\
      forall j, j < prod (dims x) ->
        (vals r) @ j = f ((vals c) @ (bpos (dims x) (dims c) j)) ((vals x) @ j).
  Proof.
    intros f c x r Hwc Hwx Hsub H. pose proof Hwx as [Hpx _].
    apply (element_wise_op_some O f c x r Hwc Hwx) in H. subst r.
    destruct (sub_lead_bmax (dims c) (dims x) Hpx Hsub) as [_ Hb].
    split; [apply ew_arr_wf; assumption|]. split; [exact Hb|].
    intros j Hj. cbn [ew_arr vals]. rewrite ew_vals_nth by (rewrite Hb; exact Hj).
    rewrite Hb, (bpos_id (dims x) j Hpx Hj). reflexivity.
  Qed.

  Lemma ew_right_below : forall f (c x r : arr F),
      wf c -> wf x -> sub_lead (dims c) (dims x) ->
      element_wise_op O f x c = Some r ->
      wf r /\ dims r = dims x /\
      forall j, j < prod (dims x) ->
        (vals r) @ j = f ((vals x) @ j) ((vals c) @ (bpos (dims x) (dims c) j)).
  Proof.
    intros f c x r Hwc Hwx Hsub H. pose proof Hwx as [Hpx _].
    apply (element_wise_op_some O f x c r Hwx Hwc) in H. subst r.
    destruct (sub_lead_bmax (dims c) (dims x) Hpx Hsub) as [_ Hb]. rewrite bmax_sym in Hb.
    split; [apply ew_arr_wf; assumption|]. split; [exact Hb|].
    intros j Hj. cbn [ew_arr vals]. rewrite ew_vals_nth by (rewrite Hb; exact Hj).
    rewrite Hb, (bpos_id (dims x) j Hpx Hj). reflexivity.
  Qed.

  Lemma pw_ew : forall (c a b r : arr F) v w f,
      wf c -> pw c a v -> pw c b w -> element_wise_op O f a b = Some r ->
      pw c r (fun j => f (v j) (w j)).
  Proof.
    intros c a b r v w f Hwc Ha Hb Hr. pose proof (pw_length c b w Hwc Hb) as Hl.
    destruct Ha as (Hwa & Hda & Hv). destruct Hb as (Hwb & Hdb & Hw). pose proof Hwb as [Hpb Hlb].
    assert (Hsub : sub_lead (dims a) (dims b)) by (rewrite Hda, Hdb; apply sub_lead_refl).
    destruct (ew_left_below f a b r Hwa Hwb Hsub Hr) as (Hwr & Hdr & Hval).
    split; [exact Hwr|]. split; [congruence|]. intros j Hj.
    assert (Hj' : j < prod (dims b)) by (rewrite Hdb; exact Hj).
    rewrite (Hval j Hj'), Hda, <- Hdb, (bpos_id (dims b) j Hpb Hj'), Hv, Hw by exact Hj. reflexivity.
  Qed.

  Lemma pw_zip : forall (c a b r : arr F) v w f,
      wf c -> pw c a v -> pw c b w -> zip_vals f a b = Some r -> pw c r (fun j => f (v j) (w j)).
  Proof.
    intros c a b r v w f Hwc Ha Hb Hr.
    pose proof (pw_length c a v Hwc Ha) as Hla. pose proof (pw_length c b w Hwc Hb) as Hlb.
    pose proof Hwc as [_ Hlc]. destruct Ha as (_ & Hda & Hv). destruct Hb as (_ & _ & Hw).
    unfold zip_vals in Hr. apply mk_some in Hr. destruct Hr as (Hp & Hl & ->).
    split; [split; assumption|]. split; [exact Hda|]. intros j Hj. cbn [vals].
    rewrite (nth_zip f _ _ j _ (f0 O) (f0 O)), Hv, Hw by lia. reflexivity.
  Qed.

  Lemma pw_mul_values : forall (c d : arr F) (x y : list F),
      length x = length (vals c) -> length y = length (vals c) ->
      mk (dims c) (mul_values O x y) = Some d -> pw c d (fun j => fmul O (x @ j) (y @ j)).
  Proof.
    intros c d x y Hx Hy Hd. apply mk_some in Hd. destruct Hd as (Hp & Hl & ->).
    split; [split; assumption|]. split; [reflexivity|]. intros j Hj. cbn [vals dims] in Hj |- *.
    unfold mul_values in Hl |- *. rewrite Hl, map_length, combine_length in Hj.
    apply (nth_zip (fmul O)); lia.
  Qed.
End Tools.

Section Binary.

  (** what has to be shown about a closure: it delivers, per flagged child, an array of
      the result's dimensions whose values [G0], [G1] are the partial derivatives of the
      dual rule [fD], multiplied by the adjoint *)
  Definition binary_closure_spec (fD : @dual F -> @dual F -> @dual F) (code : bop_code F) : Prop :=
    forall (a b delta : arr F) flags ds,
      wf a -> wf b -> dims a <> [] -> dims b <> [] -> bcompat (dims a) (dims b) ->
      wf delta -> dims delta = bmax (dims a) (dims b) ->
      run_bop O code [a; b] flags delta = Some ds ->
      let D := bmax (dims a) (dims b) in
      exists od0 od1 G0 G1,
        ds = [od0; od1] /\ deliv O D (flag flags 0) od0 G0 /\ deliv O D (flag flags 1) od1 G1 /\
        forall j, j < prod D -> forall x' y',
          fmul O ((vals delta) @ j)
               (snd (fD ((vals a) @ (bpos D (dims a) j), x') ((vals b) @ (bpos D (dims b) j), y')))
          = fadd O (fmul O (G0 j) x') (fmul O (G1 j) y').

  Theorem binary_local : forall fD code,
      binary_closure_spec fD code ->
      local_identity O 2 no_pre (fwd2 (element_wise_op D2 fD)) (fun _ _ => code).
  Proof.
    intros fD code Hspec. apply (local_identity_2).
    intros a b ta tb flags delta RD ds _ Hwa Hwb Hta Htb Hta' Htb' Hfwd Hwd Hdd Hrun.
    cbn [fwd2] in Hfwd.
    destruct (ew_lifted O fD a _ b _ RD Hwa Hwb Hta' Htb' Hfwd) as (Hna & Hnb & Hc & HwR & HdR & Hval).
    cbv zeta in Hval. set (D := bmax (dims a) (dims b)) in *. rewrite HdR in Hdd.
    destruct (Hspec a b delta flags ds Hwa Hwb Hna Hnb Hc Hwd Hdd Hrun)
      as (od0 & od1 & G0 & G1 & -> & Hd0 & Hd1 & Hid).
    cbv zeta in Hid. fold D in Hd0, Hd1, Hid.
    pose proof Hwa as [Hpa _]. pose proof Hwb as [Hpb _].
    destruct (deliv_term a ta D _ od0 G0 Hwa Hna Hta (bmax_sub_lead_l _ _ Hc Hpa) Hd0)
      as (x0 & Hx0 & ->).
    destruct (deliv_term b tb D _ od1 G1 Hwb Hnb Htb (bmax_sub_lead_r _ _ Hc Hpb) Hd1)
      as (x1 & Hx1 & ->).
    exists od0, od1. do 2 eexists. split; [reflexivity|]. split; [exact Hx0|]. split; [exact Hx1|].
    destruct Hwd as [_ Hld]. destruct HwR as [_ HlR]. rewrite Hdd in Hld. rewrite HdR in HlR.
    rewrite (dot_tangent _ RD (prod D)) by (symmetry; assumption).
    rewrite <- (vsum_map_add O R). f_equal. apply map_ext_in. intros j Hj. apply in_seq in Hj.
    rewrite (Hval j) by lia. apply Hid. lia.
  Qed.

  Lemma add_closure : binary_closure_spec (fadd D2) BAdd.
  Proof.
    intros a b delta flags ds Hwa Hwb Hna Hnb Hc Hwd Hdd Hrun D.
    cbn [run_bop] in Hrun. inversion Hrun; subst ds. clear Hrun.
    exists (if flag flags 0 then Some delta else None), (if flag flags 1 then Some delta else None),
           (fun j => (vals delta) @ j), (fun j => (vals delta) @ j).
    split; [reflexivity|].
    split; [destruct (flag flags 0); cbn [deliv]; auto|].
    split; [destruct (flag flags 1); cbn [deliv]; auto|].
    intros j Hj x' y'. cbn [dual_ops fadd fst snd]. ring.
  Qed.

  Theorem add_local : local_identity O 2 no_pre (fwd2 (a_add D2)) (fun _ _ => BAdd).
  Proof. exact (binary_local _ _ add_closure). Qed.

  Lemma mul_closure : binary_closure_spec (fmul D2) BMul.
  Proof.
    intros a b delta flags ds Hwa Hwb Hna Hnb Hc Hwd Hdd Hrun D.
    pose proof Hwa as [Hpa _]. pose proof Hwb as [Hpb _].
    assert (Hsa : sub_lead (dims a) (dims delta)) by (rewrite Hdd; apply bmax_sub_lead_l; assumption).
    assert (Hsb : sub_lead (dims b) (dims delta)) by (rewrite Hdd; apply bmax_sub_lead_r; assumption).
    cbn [run_bop] in Hrun.
    revert Hrun. apply obind_elim. intros od0 H0 Hrun.
    revert Hrun. apply obind_elim. intros od1 H1 Hrun. inversion Hrun; subst ds.
    unfold D. rewrite <- Hdd.
    exists od0, od1,
      (fun j => fmul O ((vals b) @ (bpos (dims delta) (dims b) j)) ((vals delta) @ j)),
      (fun j => fmul O ((vals a) @ (bpos (dims delta) (dims a) j)) ((vals delta) @ j)).
    split; [reflexivity|]. split; [|split].
    - apply (when_deliv (dims delta) _ _ _ _ H0). intros r. apply ew_left_below; assumption.
    - apply (when_deliv (dims delta) _ _ _ _ H1). intros r. apply ew_left_below; assumption.
    - intros j Hj x' y'. cbn [dual_ops fmul fst snd]. ring.
  Qed.

  Theorem mul_local : local_identity O 2 no_pre (fwd2 (a_mul D2)) (fun _ _ => BMul).
  Proof. exact (binary_local _ _ mul_closure). Qed.
End Binary.

Section Unary.

  (** the closure attached to the result [map_result g c] delivers (unconditionally) an
      array of the child's dimensions with values [h c_j delta_j], and [h] is the derivative
      of the dual rule [gD] multiplied by the adjoint *)
  Definition unary_closure_spec (g : F -> F) (gD : @dual F -> @dual F)
             (code : list (arr F) -> arr F -> bop_code F) : Prop :=
    exists h : F -> F -> F,
      (forall (c delta : arr F) flags ds,
          wf c -> wf delta -> dims delta = dims c ->
          run_bop O (code [c] (map_result g c)) [c] flags delta = Some ds ->
          exists d, ds = [Some d] /\ pw c d (fun j => h ((vals c) @ j) ((vals delta) @ j))) /\
      forall cv dv x', fmul O dv (snd (gD (cv, x'))) = fmul O (h cv dv) x'.

  Theorem unary_local : forall g gD code,
      (forall X, fst (gD X) = g (fst X)) ->
      unary_closure_spec g gD code ->
      local_identity O 1 no_pre (fwd1 (map_arr gD)) code.
  Proof.
    intros g gD code Hg (h & Hspec & Hid). apply (local_identity_1).
    intros c t flags delta RD ds _ Hwc Ht Ht' Hfwd Hwd Hdd Hrun. cbn [fwd1] in Hfwd.
    destruct (map_lifted O gD c _ RD Hwc Ht' Hfwd) as (HwR & HdR & HlR & Hval).
    pose proof (map_lifted_primal O g gD c _ RD Hg Hwc Ht' Hfwd) as Hp.
    rewrite (map_arr_closed g c Hwc) in Hp.
    assert (Hp' : map_result g c = primal RD) by congruence. rewrite <- Hp' in Hrun.
    rewrite HdR in Hdd.
    destruct (Hspec c delta flags ds Hwc Hwd Hdd Hrun) as (d & -> & Hwd' & Hdd' & HG).
    exists (Some d). eexists. split; [reflexivity|].
    split; [apply (child_term_own_dims c t d _ Hwc Ht Hwd' Hdd')|].
    rewrite (dot_tangent _ RD (length (vals c)) (wf_same_length delta c Hwd Hwc Hdd) HlR).
    f_equal. apply map_ext_in. intros j Hj. apply in_seq in Hj. pose proof Hwc as [_ Hlc].
    rewrite (Hval j), (HG j) by lia. apply Hid.
  Qed.

  Lemma scale_closure : forall s,
      unary_closure_spec (fun x => fmul O x s) (fun X => fmul D2 X (s, f0 O)) (fun _ _ => BScale s).
  Proof.
    intros s. exists (fun _ dv => fmul O dv s). split.
    - intros c delta flags ds Hwc Hwd Hdd Hrun. cbn [run_bop] in Hrun.
      revert Hrun. apply obind_elim. intros r Hr Hrun. inversion Hrun; subst ds.
      exists r. split; [reflexivity|]. exact (pw_map c delta r _ _ Hwc (pw_self c delta Hwd Hdd) Hr).
    - intros cv dv x'. cbn [dual_ops fmul fst snd]. ring.
  Qed.

  Theorem scale_local : forall s,
      local_identity O 1 no_pre (fwd1 (a_scale D2 (s, f0 O))) (fun _ _ => BScale s).
  Proof.
    intros s. apply (unary_local (fun x => fmul O x s) (fun X => fmul D2 X (s, f0 O)));
      [reflexivity|apply scale_closure].
  Qed.

  Lemma neg_closure :
    unary_closure_spec (fun x => fmul O x (m1 O)) (fun X => fmul D2 X (m1 D2)) (fun _ _ => BNeg).
  Proof.
    exists (fun _ dv => fmul O dv (m1 O)). split.
    - intros c delta flags ds Hwc Hwd Hdd Hrun. cbn [run_bop] in Hrun.
      revert Hrun. apply obind_elim. intros r Hr Hrun. inversion Hrun; subst ds.
      exists r. split; [reflexivity|]. exact (pw_map c delta r _ _ Hwc (pw_self c delta Hwd Hdd) Hr).
    - intros cv dv x'. unfold m1. cbn [dual_ops fmul fneg f1 fst snd]. ring.
  Qed.

  Theorem neg_local : local_identity O 1 no_pre (fwd1 (a_neg D2)) (fun _ _ => BNeg).
  Proof.
    apply (unary_local (fun x => fmul O x (m1 O)) (fun X => fmul D2 X (m1 D2)));
      [reflexivity|apply neg_closure].
  Qed.

  Lemma powf_closure : forall e,
      unary_closure_spec (fun x => fpow O x e) (fun X => fpow D2 X (e, f0 O)) (fun _ _ => BPowf e).
  Proof.
    intros e. exists (fun cv dv => fmul O (fmul O (fpow O cv (fsub O e (f1 O))) e) dv). split.
    - intros c delta flags ds Hwc Hwd Hdd Hrun. cbn [run_bop] in Hrun.
      revert Hrun. apply obind_elim. intros p Hp Hrun.
      revert Hrun. apply obind_elim. intros s Hs Hrun.
      revert Hrun. apply obind_elim. intros d Hd Hrun. inversion Hrun; subst ds.
      exists d. split; [reflexivity|].
      pose proof (pw_map c c p _ _ Hwc (pw_self c c Hwc eq_refl) Hp) as Pp.
      exact (pw_ew c s delta d _ _ _ Hwc (pw_map c p s _ _ Hwc Pp Hs) (pw_self c delta Hwd Hdd) Hd).
    - intros cv dv x'. cbn [dual_ops fpow fst snd]. ring.
  Qed.

  Theorem powf_local : forall e,
      local_identity O 1 no_pre (fwd1 (a_powf D2 (e, f0 O))) (fun _ _ => BPowf e).
  Proof.
    intros e. apply (unary_local (fun x => fpow O x e) (fun X => fpow D2 X (e, f0 O)));
      [reflexivity|apply powf_closure].
  Qed.

  Lemma exp_closure :
    unary_closure_spec (fexp O) (fexp D2) (fun _ r => BExp (vals r)).
  Proof.
    exists (fun cv dv => fmul O dv (fexp O cv)). split.
    - intros c delta flags ds Hwc Hwd Hdd Hrun. cbn [run_bop map_result vals] in Hrun.
      revert Hrun. apply obind_elim. intros d Hd Hrun. inversion Hrun; subst ds.
      exists d. split; [reflexivity|].
      pose proof (wf_same_length delta c Hwd Hwc Hdd) as Hl.
      destruct (pw_mul_values c d _ _ Hl (map_length _ _) Hd) as (Hw & Hdd' & Hv).
      split; [exact Hw|]. split; [exact Hdd'|]. intros j Hj.
      rewrite (Hv j Hj), (nth_map_in) by (rewrite <- (proj2 Hwc); exact Hj). reflexivity.
    - intros cv dv x'. cbn [dual_ops fexp fst snd]. ring.
  Qed.

  Theorem exp_local : local_identity O 1 no_pre (fwd1 (a_exp D2)) (fun _ r => BExp (vals r)).
  Proof. apply (unary_local (fexp O) (fexp D2)); [reflexivity|apply exp_closure]. Qed.

  Lemma relu_closure :
    unary_closure_spec (fun x => if fgt0 O x then x else f0 O)
                       (fun X => if fgt0 D2 X then X else f0 D2) (fun _ _ => BRelu).
  Proof.
    exists (fun cv dv => fmul O (if fgt0 O cv then f1 O else f0 O) dv). split.
    - intros c delta flags ds Hwc Hwd Hdd Hrun. cbn [run_bop] in Hrun.
      revert Hrun. apply obind_elim. intros der Hder Hrun.
      revert Hrun. apply obind_elim. intros d Hd Hrun. inversion Hrun; subst ds.
      exists d. split; [reflexivity|].
      exact (pw_ew c der delta d _ _ _ Hwc (pw_map c c der _ _ Hwc (pw_self c c Hwc eq_refl) Hder)
                   (pw_self c delta Hwd Hdd) Hd).
    - intros cv dv x'. cbn [dual_ops fgt0 f0 fst snd].
      destruct (fgt0 O cv); cbn [snd]; ring.
  Qed.

  Theorem relu_local : local_identity O 1 no_pre (fwd1 (a_relu D2)) (fun _ _ => BRelu).
  Proof.
    apply (unary_local (fun x => if fgt0 O x then x else f0 O)
                       (fun X => if fgt0 D2 X then X else f0 D2)); [|exact relu_closure].
    intros X. cbn [dual_ops fgt0 f0]. destruct (fgt0 O (fst X)); reflexivity.
  Qed.
End Unary.

Section Structural.

  Lemma dot_zeros_like : forall (x : list F) (t : arr F), dot O x (vals (zeros_like O t)) = f0 O.
  Proof.
    intros x t. unfold dot. apply (vsum_zeros O R). intros y Hy. apply in_map_iff in Hy.
    destruct Hy as ([u v] & <- & Hin). apply in_combine_r in Hin. cbn [zeros_like vals] in Hin.
    apply in_map_iff in Hin. destruct Hin as (_ & <- & _). cbn [fst snd]. ring.
  Qed.

  Theorem reshape_local : forall d',
      local_identity O 1 no_pre (fwd1 (a_reshape d')) (fun _ _ => BReshape).
  Proof.
    intros d'. apply (local_identity_1).
    intros c t flags delta RD ds _ Hwc Ht Ht' Hfwd Hwd Hdd Hrun. cbn [fwd1] in Hfwd.
    destruct (reshape_lifted d' c _ RD Hwc Ht' Hfwd) as (_ & Hp & Htan).
    assert (HdR : dims RD = d') by (change (dims RD) with (dims (primal RD)); rewrite Hp; reflexivity).
    rewrite Htan. cbn [vals]. cbn [run_bop] in Hrun.
    revert Hrun. apply obind_elim. intros od Hod Hrun. inversion Hrun; subst ds.
    exists od. apply when_some in Hod. destruct Hod as [(Hf & r & Hr & ->)|(Hf & ->)].
    - apply a_reshape_spec in Hr. destruct Hr as (Hpc & Hl & ->).
      eexists. split; [reflexivity|]. split.
      + apply (child_term_own_dims c t _ _ Hwc Ht); [split; assumption|reflexivity].
      + cbn [vals]. apply dot_seq; [symmetry|].
        * destruct Hwc as [_ H2]. rewrite <- H2. exact Hl.
        * apply tangent_for_length; assumption.
    - exists (f0 O). split; [reflexivity|]. split; [split; [exact Hf|reflexivity]|].
      rewrite Hf. cbn [mask]. apply dot_zeros_like.
  Qed.

  Definition dummy_arr : arr F := {| dims := []; vals := [] |}.

  Definition sum_code (k : nat) (cs : list (arr F)) (_ : arr F) : bop_code F :=
    BSum k (sum_target (dims (nth 0 cs dummy_arr)) k).

  Definition sum_pre (k : nat) (cs : list (arr F)) : Prop :=
    1 <= k <= length (dims (nth 0 cs dummy_arr)).

  Lemma block_as_map : forall g i N (l : list F),
      length l = N * g -> i < N ->
      block g i l = map (fun y => l @ (g * i + y)) (seq 0 g).
  Proof.
    intros g i N l Hl Hi. rewrite (list_as_map_seq (block g i l) (f0 O)).
    rewrite (block_length g i N l Hl Hi). apply map_ext_in. intros y Hy. apply in_seq in Hy.
    apply nth_block. lia.
  Qed.

  Lemma nth_map_const : forall {A} (v : F) (l : list A) y d,
      y < length l -> nth y (map (fun _ => v) l) d = v.
  Proof.
    intros A v l. induction l as [|a l IH]; intros [|y] d Hy; simpl in *; try lia; [reflexivity|].
    apply IH. lia.
  Qed.

  (** the closure of [sum]: every element of block [i] receives [delta[i]] *)
  Lemma sum_closure : forall k (c delta d : arr F),
      wf c -> 1 <= k <= length (dims c) -> wf delta ->
      dims delta = firstn (length (dims c) - k) (dims c) ++ [1] ->
      (x' <- a_reshape (sum_target (dims c) k) delta ;;
       sliced_op O [x'] (fill_sop (F:=F)) (sum_target (dims c) k) (dims c) k 0) = Some d ->
      let lead := firstn (length (dims c) - k) (dims c) in
      let g := prod (lastn k (dims c)) in
      wf d /\ dims d = dims c /\
      forall i y, i < prod lead -> y < g -> (vals d) @ (g * i + y) = (vals delta) @ i.
  Proof.
    intros k c delta d Hwc Hk Hwd Hdd H lead g. pose proof Hwc as [Hpc _].
    revert H. apply obind_elim. intros x' Hx' H.
    apply a_reshape_spec in Hx'. destruct Hx' as (Hpt & Hlt & ->).
    set (x' := {| dims := sum_target (dims c) k; vals := vals delta |}) in *.
    assert (Ec : lead ++ lastn k (dims c) = dims c) by apply firstn_lastn.
    (* one block of [x'] is the single element [delta[i]]; [fill_sop] repeats it *)
    destruct (sliced_op_single O x' (fill_sop (F:=F))
                               (fun s => map (fun _ => nth 0 s (f0 O)) (repeat (f0 O) g))
                               lead (repeat 1 k) (lastn k (dims c)))
      as (u & Hu & Hwu & Hdu & Hblk).
    - split; assumption.
    - reflexivity.
    - apply Forall_skipn. exact Hpc.
    - intros s Hs. rewrite prod_repeat_1 in Hs.
      destruct s as [|v [|? ?]]; try discriminate Hs. cbn [fill_sop nth_error obind nth].
      split; [reflexivity|]. rewrite map_length. apply repeat_length.
    - rewrite repeat_length, Ec in Hu. change (lead ++ repeat 1 k) with (sum_target (dims c) k) in Hu.
      rewrite H in Hu. injection Hu as <-.
      split; [exact Hwu|]. split; [rewrite Hdu; exact Ec|]. intros i y Hi Hy.
      rewrite <- (nth_block g i (vals d) y (f0 O) Hy). fold g in Hblk. rewrite (Hblk i Hi).
      rewrite nth_map_const by (rewrite repeat_length; exact Hy).
      rewrite prod_repeat_1, nth_block by lia. f_equal. lia.
  Qed.

  Theorem sum_local : forall k,
      local_identity O 1 (sum_pre k) (fwd1 (a_sum D2 k)) (sum_code k).
  Proof.
    intros k. apply (local_identity_1).
    intros c t flags delta RD ds Hpre Hwc Ht Ht' Hfwd Hwd Hdd Hrun.
    unfold sum_pre in Hpre. unfold sum_code in Hrun. cbn [nth] in Hpre, Hrun. cbn [fwd1] in Hfwd.
    set (t' := mask O (flag flags 0) t) in *.
    destruct (sum_lifted O k c t' RD Hwc Ht' Hpre Hfwd) as (Hp & Htan & _).
    assert (HdR : dims RD = firstn (length (dims c) - k) (dims c) ++ [1]).
    { change (dims RD) with (dims (primal RD)). rewrite Hp. reflexivity. }
    rewrite HdR in Hdd. cbn [run_bop] in Hrun.
    destruct (a_reshape (sum_target (dims c) k) delta) as [x'|] eqn:Hx'; [|discriminate Hrun].
    cbn [obind] in Hrun.
    revert Hrun. apply obind_elim. intros d Hd Hrun. inversion Hrun; subst ds.
    destruct (sum_closure k c delta d Hwc Hpre Hwd Hdd) as (Hwd' & Hdd' & Hv).
    { rewrite Hx'. exact Hd. }
    cbv zeta in Hv.
    set (lead := firstn (length (dims c) - k) (dims c)) in *.
    set (g := prod (lastn k (dims c))) in *.
    pose proof Hwc as [_ Hlc].
    assert (Hlcg : length (vals c) = prod lead * g).
    { rewrite <- Hlc. rewrite <- (firstn_lastn k (dims c)) at 1. rewrite prod_app. reflexivity. }
    assert (Hlt : length (vals t') = prod lead * g).
    { rewrite <- Hlcg. apply tangent_for_length; assumption. }
    assert (Hld : length (vals delta) = prod lead).
    { destruct Hwd as [_ H1]. rewrite <- H1, Hdd, prod_app. change (prod [1]) with 1. lia. }
    exists (Some d). eexists. split; [reflexivity|].
    split; [apply (child_term_own_dims c t d _ Hwc Ht Hwd' Hdd')|].
    fold t'. rewrite Htan. unfold sum_result. cbn [vals]. destruct Ht' as [_ Hdt']. rewrite Hdt'.
    fold lead g.
    rewrite (dot_seq O _ _ (prod lead) Hld) by (rewrite map_length, seq_length; reflexivity).
    rewrite Hlcg, (vsum_seq_mul O R).
    f_equal. apply map_ext_in. intros i Hi. apply in_seq in Hi.
    rewrite nth_map_seq by lia. cbn [Nat.add].
    rewrite (block_as_map g i (prod lead) (vals t') Hlt) by lia.
    rewrite <- (vsum_map_scale_l O R).
    f_equal. apply map_ext_in. intros y Hy. apply in_seq in Hy.
    rewrite (Hv i y) by lia. reflexivity.
  Qed.
End Structural.

Section Division.

  (** division is multiplication by the reciprocal; the reciprocal of a product; the
      second power.  All three hold for the real numbers with Coq's total [Rdiv]/[Rinv]
      and [pow]/[Rpower] at exponent 2. *)
  Hypothesis Hdiv : forall a b, fdiv O a b = fmul O a (fdiv O (f1 O) b).
  Hypothesis Hinv_mul : forall a b,
      fdiv O (f1 O) (fmul O a b) = fmul O (fdiv O (f1 O) a) (fdiv O (f1 O) b).
  Hypothesis Hpow2 : forall x, fpow O x (two O) = fmul O x x.

  Lemma div_closure : binary_closure_spec (fdiv D2) BDiv.
  Proof.
    intros a b delta flags ds Hwa Hwb Hna Hnb Hc Hwd Hdd Hrun D.
    pose proof Hwa as [Hpa Hla]. pose proof Hwb as [Hpb Hlb].
    assert (Hsa : sub_lead (dims a) (dims delta)) by (rewrite Hdd; apply bmax_sub_lead_l; assumption).
    assert (Hsb : sub_lead (dims b) (dims delta)) by (rewrite Hdd; apply bmax_sub_lead_r; assumption).
    cbn [run_bop] in Hrun.
    revert Hrun. apply obind_elim. intros od0 H0 Hrun.
    revert Hrun. apply obind_elim. intros od1 H1 Hrun. inversion Hrun; subst ds.
    exists od0, od1,
      (fun j => fdiv O ((vals delta) @ j) ((vals b) @ (bpos D (dims b) j))),
      (fun j => fmul O (fdiv O (fmul O ((vals a) @ (bpos D (dims a) j)) (m1 O))
                              (fpow O ((vals b) @ (bpos D (dims b) j)) (two O)))
                       ((vals delta) @ j)).
    split; [reflexivity|]. unfold D. rewrite <- Hdd. split; [|split].
    - apply (when_deliv (dims delta) _ _ _ _ H0). intros r. apply ew_right_below; assumption.
    - apply (when_deliv (dims delta) _ _ _ _ H1). intros r Hr.
      revert Hr. apply obind_elim. intros n Hn Hr.
      revert Hr. apply obind_elim. intros p Hp Hr.
      revert Hr. apply obind_elim. intros q Hq Hr.
      apply (map_arr_some) in Hn. destruct Hn as [_ ->].
      apply (map_arr_some) in Hp. destruct Hp as [_ ->].
      apply (element_wise_op_some O _ _ _ _ (map_result_wf _ a Hwa) (map_result_wf _ b Hwb)) in Hq.
      subst q.
      assert (Hwq : wf (ew_arr O (fdiv O) (map_result (fun x => fmul O x (m1 O)) a)
                               (map_result (fun x => fpow O x (two O)) b)))
        by (apply ew_arr_wf; apply map_result_wf; assumption).
      destruct (ew_left_below (fmul O) _ delta r Hwq Hwd) as (Hwr & Hdr & Hv); [|exact Hr|].
      { cbn [ew_arr map_result dims]. rewrite Hdd. apply sub_lead_refl. }
      split; [exact Hwr|]. split; [exact Hdr|]. intros j Hj.
      pose proof Hwd as [Hpd _].
      rewrite (Hv j Hj). cbn [ew_arr map_result dims]. rewrite <- Hdd, (bpos_id _ j Hpd Hj).
      cbn [ew_arr vals]. rewrite ew_vals_nth by (cbn [map_result dims]; rewrite <- Hdd; exact Hj).
      cbn [map_result dims vals]. rewrite <- Hdd.
      rewrite (nth_map_in), (nth_map_in); [reflexivity| |].
      + rewrite <- Hlb. apply bpos_lt; assumption.
      + rewrite <- Hla. apply bpos_lt; assumption.
    - intros j Hj x' y'. cbn [dual_ops fdiv fst snd].
      set (av := (vals a) @ (bpos (dims delta) (dims a) j)).
      set (bv := (vals b) @ (bpos (dims delta) (dims b) j)).
      set (dv := (vals delta) @ j).
      rewrite (Hdiv x' bv), (Hdiv (fmul O av y') (fmul O bv bv)), (Hdiv dv bv),
        (Hdiv (fmul O av (m1 O)) (fpow O bv (two O))), (Hpow2 bv).
      unfold m1. ring.
  Qed.

  Theorem div_local : local_identity O 2 no_pre (fwd2 (a_div D2)) (fun _ _ => BDiv).
  Proof. exact (binary_local _ _ div_closure). Qed.

  Lemma ln_closure : unary_closure_spec (fln O) (fln D2) (fun _ _ => BLn).
  Proof.
    exists (fun cv dv => fmul O dv (fdiv O (f1 O) cv)). split.
    - intros c delta flags ds Hwc Hwd Hdd Hrun. cbn [run_bop] in Hrun.
      revert Hrun. apply obind_elim. intros r Hr Hrun.
      revert Hrun. apply obind_elim. intros d Hd Hrun. inversion Hrun; subst ds.
      exists d. split; [reflexivity|].
      exact (pw_ew c delta r d _ _ _ Hwc (pw_self c delta Hwd Hdd)
                   (pw_map c c r _ _ Hwc (pw_self c c Hwc eq_refl) Hr) Hd).
    - intros cv dv x'. cbn [dual_ops fln fst snd]. rewrite (Hdiv x'). ring.
  Qed.

  Theorem ln_local : local_identity O 1 no_pre (fwd1 (a_ln D2)) (fun _ _ => BLn).
  Proof. apply (unary_local (fln O) (fln D2)); [reflexivity|apply ln_closure]. Qed.

  Lemma recip_closure :
    unary_closure_spec (fun x => fdiv O (f1 O) x) (fun X => fdiv D2 (f1 D2) X) (fun _ _ => BRecip).
  Proof.
    exists (fun cv dv => fmul O (fmul O (fpow O (fdiv O (f1 O) cv) (two O)) (m1 O)) dv). split.
    - intros c delta flags ds Hwc Hwd Hdd Hrun. cbn [run_bop] in Hrun.
      revert Hrun. apply obind_elim. intros r Hr Hrun.
      revert Hrun. apply obind_elim. intros p Hp Hrun.
      revert Hrun. apply obind_elim. intros n Hn Hrun.
      revert Hrun. apply obind_elim. intros d Hd Hrun. inversion Hrun; subst ds.
      exists d. split; [reflexivity|].
      pose proof (pw_map c c r _ _ Hwc (pw_self c c Hwc eq_refl) Hr) as Pr.
      pose proof (pw_map c r p _ _ Hwc Pr Hp) as Pp.
      exact (pw_ew c n delta d _ _ _ Hwc (pw_map c p n _ _ Hwc Pp Hn) (pw_self c delta Hwd Hdd) Hd).
    - intros cv dv x'. cbn [dual_ops fdiv f1 fst snd].
      rewrite (Hdiv (f0 O) cv), (Hdiv (fmul O (f1 O) x') (fmul O cv cv)), (Hinv_mul cv cv),
        (Hpow2 (fdiv O (f1 O) cv)).
      unfold m1. ring.
  Qed.

  Theorem recip_local :
    local_identity O 1 no_pre (fwd1 (a_reciprocal D2)) (fun _ _ => BRecip).
  Proof.
    apply (unary_local (fun x => fdiv O (f1 O) x) (fun X => fdiv D2 (f1 D2) X));
      [reflexivity|apply recip_closure].
  Qed.
End Division.
End Identities.

Module Sanity.
  Definition Zd := dual_ops Z_ops.
  Definition mkZ (d : list nat) (v : list Z) : arr Z := {| dims := d; vals := v |}.
  Definition ok (r : option (Z * Z)) : bool :=
    match r with Some (x, y) => Z.eqb x y | None => false end.

  Definition a1 := mkZ [2;1;3] [2;-3;5;7;-11;13]%Z.
  Definition t1 := mkZ [2;1;3] [1;4;-2;3;-5;6]%Z.
  Definition b1 := mkZ [2;1] [3;-4]%Z.
  Definition u1 := mkZ [2;1] [-7;2]%Z.
  Definition dl := mkZ [2;2;3] [1;-2;3;4;5;-6;7;8;-9;10;-11;12]%Z.
  (* units only, so that integer division is exact *)
  Definition b2 := mkZ [2;1] [1;-1]%Z.
  Definition a2 := mkZ [2;1;3] [1;-1;-1;1;1;-1]%Z.
  Definition dl1 := mkZ [2;1;3] [1;-2;3;4;5;-6]%Z.
  Definition allflags := [[true;true];[true;false];[false;true];[false;false]].

  Definition chk2 fwdD code a ta b tb d :=
    forallb (fun fl => ok (eval_identity Z_ops (fwd2 fwdD) (fun _ _ => code) [a;b] [ta;tb] fl d))
            allflags.
  Definition chk1 fwdD code a ta d :=
    forallb (fun fl => ok (eval_identity Z_ops (fwd1 fwdD) code [a] [ta] fl d)) [[true];[false]].

  Example add_ok : chk2 (a_add Zd) BAdd a1 t1 b1 u1 dl = true. Proof. vm_compute. reflexivity. Qed.
  Example add_ok' : chk2 (a_add Zd) BAdd b1 u1 a1 t1 dl = true. Proof. vm_compute. reflexivity. Qed.
  Example mul_ok : chk2 (a_mul Zd) BMul a1 t1 b1 u1 dl = true. Proof. vm_compute. reflexivity. Qed.
  Example mul_ok' : chk2 (a_mul Zd) BMul b1 u1 a1 t1 dl = true. Proof. vm_compute. reflexivity. Qed.
  Example div_ok : chk2 (a_div Zd) BDiv a1 t1 b2 u1 dl = true. Proof. vm_compute. reflexivity. Qed.
  Example div_ok' : chk2 (a_div Zd) BDiv b1 u1 a2 t1 dl = true. Proof. vm_compute. reflexivity. Qed.
  Example neg_ok : chk1 (a_neg Zd) (fun _ _ => BNeg) a1 t1 dl1 = true. Proof. vm_compute. reflexivity. Qed.
  Example scale_ok : chk1 (a_scale Zd (5, 0)%Z) (fun _ _ => BScale 5%Z) a1 t1 dl1 = true.
  Proof. vm_compute. reflexivity. Qed.
  Example reshape_ok : chk1 (a_reshape [3;2]) (fun _ _ => BReshape) a1 t1 (mkZ [3;2] (vals dl1)) = true.
  Proof. vm_compute. reflexivity. Qed.
  Example sum1_ok : chk1 (a_sum Zd 1) (fun cs _ => BSum 1 (sum_target [2;1;3] 1)) a1 t1 (mkZ [2;1;1] [3;-4]%Z) = true.
  Proof. vm_compute. reflexivity. Qed.
  Example sum2_ok : chk1 (a_sum Zd 2) (fun cs _ => BSum 2 (sum_target [2;1;3] 2)) a1 t1 (mkZ [2;1] [3;-4]%Z) = true.
  Proof. vm_compute. reflexivity. Qed.
  Example sum3_ok : chk1 (a_sum Zd 3) (fun cs _ => BSum 3 (sum_target [2;1;3] 3)) a1 t1 (mkZ [1] [-4]%Z) = true.
  Proof. vm_compute. reflexivity. Qed.
  Example powf_ok : chk1 (a_powf Zd (3, 0)%Z) (fun _ _ => BPowf 3%Z) a1 t1 dl1 = true.
  Proof. vm_compute. reflexivity. Qed.
  Example exp_ok : chk1 (a_exp Zd) (fun _ r => BExp (vals r)) a1 t1 dl1 = true.
  Proof. vm_compute. reflexivity. Qed.
  Example relu_ok : chk1 (a_relu Zd) (fun _ _ => BRelu) a1 t1 dl1 = true.
  Proof. vm_compute. reflexivity. Qed.
  Example ln_ok : chk1 (a_ln Zd) (fun _ _ => BLn) a2 t1 dl1 = true.
  Proof. vm_compute. reflexivity. Qed.
  Example recip_ok : chk1 (a_reciprocal Zd) (fun _ _ => BRecip) a2 t1 dl1 = true.
  Proof. vm_compute. reflexivity. Qed.
End Sanity.

Print Assumptions add_local.
Print Assumptions mul_local.
Print Assumptions neg_local.
Print Assumptions scale_local.
Print Assumptions reshape_local.
Print Assumptions sum_local.
Print Assumptions powf_local.
Print Assumptions exp_local.
Print Assumptions relu_local.
Print Assumptions div_local.
Print Assumptions ln_local.
Print Assumptions recip_local.
