(** (S1) Linearity of the declarative backward pass in the seed (property C17), and,
    as special cases, additivity in the seed (S3).

    [comb x y] stands for [alpha * x + beta * y] with fixed scalars.  The general
    version carries a compatibility relation [ok] on pairs of adjoint values (think
    "equal dimensions"), under which the three operations of the engine commute with
    [comb]; the unconditional version is the instance [ok := fun _ _ => True]. *)

From Coq Require Import List Arith Bool Lia PeanoNat.
From Corgi Require Import Lib.OptionMonad Model.Engine Proofs.EngineDefs Proofs.EngineBase
     Proofs.AdjointSpec Proofs.ValueAlg Proofs.SweepBase.
Import ListNotations.

Section Map2o.
  Context {D : Type}.
  Variable comb : D -> D -> D.

  Definition comb_opt (a b : option D) : option D :=
    match a, b with
    | Some x, Some y => Some (comb x y)
    | _, _ => None
    end.

  Fixpoint map2o (l1 l2 : list (option D)) : list (option D) :=
    match l1, l2 with
    | a :: l1', b :: l2' => comb_opt a b :: map2o l1' l2'
    | _, _ => []
    end.

  Lemma comb_opt_none_r : forall a, comb_opt a None = None.
  Proof. intro a. destruct a; reflexivity. Qed.

  Lemma map2o_nil_r : forall l, map2o l [] = [].
  Proof. intro l. destruct l; reflexivity. Qed.

  Lemma map2o_hd : forall l1 l2, hd None (map2o l1 l2) = comb_opt (hd None l1) (hd None l2).
  Proof. intros [|a l1] [|b l2]; try reflexivity. simpl. symmetry. apply comb_opt_none_r. Qed.

  Lemma map2o_tl : forall l1 l2, tl (map2o l1 l2) = map2o (tl l1) (tl l2).
  Proof. intros [|a l1] [|b l2]; try reflexivity. simpl. symmetry. apply map2o_nil_r. Qed.

  Lemma map2o_nth : forall l1 l2 j,
      nth j (map2o l1 l2) None = comb_opt (nth j l1 None) (nth j l2 None).
  Proof.
    intro l1. induction l1 as [|a l1 IH]; intros l2 j.
    - simpl. destruct j; reflexivity.
    - destruct l2 as [|b l2].
      + simpl. destruct j; rewrite comb_opt_none_r; reflexivity.
      + destruct j as [|j]; [reflexivity | simpl; apply IH].
  Qed.

  Lemma map2o_length : forall l1 l2, length l1 = length l2 -> length (map2o l1 l2) = length l1.
  Proof.
    intro l1. induction l1 as [|a l1 IH]; intros l2 H.
    - reflexivity.
    - destruct l2 as [|b l2]; [discriminate H |]. simpl. f_equal. apply IH.
      simpl in H. lia.
  Qed.
End Map2o.

Section LinearOk.
  Context {P D : Type}.
  Variable E : eops P D.
  Variable comb : D -> D -> D.
  Variable ok : D -> D -> Prop.

  Local Notation map2o := (map2o comb).

  Hypothesis H_bop : forall p pays saved x y dx dy,
      ok x y ->
      eo_bop E p pays saved x = Some dx -> eo_bop E p pays saved y = Some dy ->
      eo_bop E p pays saved (comb x y) = Some (map2o dx dy) /\
      (forall i a b, nth_error dx i = Some (Some a) -> nth_error dy i = Some (Some b) -> ok a b).

  Hypothesis H_flat : forall x y p x' y',
      ok x y ->
      eo_flat E x p = Some x' -> eo_flat E y p = Some y' ->
      eo_flat E (comb x y) p = Some (comb x' y') /\ ok x' y'.

  Hypothesis H_add : forall x1 x2 y1 y2 x y,
      ok x1 y1 -> ok x2 y2 ->
      eo_add E x1 x2 = Some x -> eo_add E y1 y2 = Some y ->
      eo_add E (comb x1 y1) (comb x2 y2) = Some (comb x y) /\ ok x y.

  Definition lin3o (a b c : option D) : Prop :=
    match a, b with
    | Some x, Some y => ok x y /\ c = Some (comb x y)
    | None, None => c = None
    | _, _ => False
    end.

  Definition lin3 (ta tb tc : table) : Prop :=
    length ta = length tb /\ length tc = length ta /\
    forall j, lin3o (nth j ta None) (nth j tb None) (nth j tc None).

  Lemma lin3_map2o : forall ta tb tc, lin3 ta tb tc -> tc = map2o ta tb.
  Proof.
    intros ta tb tc (Hl1 & Hl2 & H).
    apply (nth_ext tc (map2o ta tb) None None).
    - rewrite map2o_length by exact Hl1. exact Hl2.
    - intros j _. rewrite map2o_nth. specialize (H j). unfold lin3o in H.
      destruct (nth j ta None) as [x|]; destruct (nth j tb None) as [y|]; simpl;
        try contradiction; [destruct H as [_ H]; exact H | exact H].
  Qed.

  Inductive lin_cs : list (nat * D) -> list (nat * D) -> list (nat * D) -> Prop :=
  | lin_cs_nil : lin_cs [] [] []
  | lin_cs_cons : forall i a b ca cb cc,
      ok a b -> lin_cs ca cb cc -> lin_cs ((i, a) :: ca) ((i, b) :: cb) ((i, comb a b) :: cc).

  Lemma cfold_step : forall g e es ds,
      cfold E g (e :: es) ds =
      (rest <- cfold E g es (tl ds) ;;
       match hd None ds with
       | None => Some rest
       | Some d =>
         c <- nth_error g (e_node e) ;; d' <- eo_flat E d (n_pay c) ;; Some ((e_node e, d') :: rest)
       end).
  Proof. intros g e es [|o ds]; [| reflexivity]. simpl tl. rewrite !cfold_nil_r. reflexivity. Qed.

  Lemma nth_tl : forall (ds : list (option D)) i, nth i (tl ds) None = nth (S i) ds None.
  Proof. intros [|o ds] i; [destruct i |]; reflexivity. Qed.

  Lemma nth_hd : forall ds : list (option D), nth 0 ds None = hd None ds.
  Proof. intros [|o ds]; reflexivity. Qed.

  Lemma cfold_lin : forall g es dsa dsb csa csb,
      (forall i, i < length es ->
                 ((exists d, nth i dsa None = Some d) <-> (exists d, nth i dsb None = Some d))) ->
      (forall i a b, nth i dsa None = Some a -> nth i dsb None = Some b -> ok a b) ->
      cfold E g es dsa = Some csa -> cfold E g es dsb = Some csb ->
      exists csc, cfold E g es (map2o dsa dsb) = Some csc /\ lin_cs csa csb csc.
  Proof.
    intros g es. induction es as [|e es IH]; intros dsa dsb csa csb Hshape Hok Ha Hb.
    - rewrite cfold_nil_l in Ha, Hb. injection Ha as Ha. injection Hb as Hb. subst csa csb.
      exists []. split; [apply cfold_nil_l | constructor].
    - rewrite cfold_step in Ha, Hb |- *. rewrite map2o_hd, map2o_tl.
      revert Ha. apply obind_elim. intros resta Hra Ha.
      revert Hb. apply obind_elim. intros restb Hrb Hb.
      destruct (IH (tl dsa) (tl dsb) resta restb) as (restc & Hrc & Hl); try assumption.
      { intros i Hi. rewrite !nth_tl. apply Hshape. simpl. lia. }
      { intros i a b. rewrite !nth_tl. apply Hok. }
      rewrite Hrc. simpl.
      pose proof (Hshape 0 (Nat.lt_0_succ _)) as H0. pose proof (Hok 0) as Hok0.
      rewrite !nth_hd in H0, Hok0.
      destruct (hd None dsa) as [a|]; destruct (hd None dsb) as [b|].
      + revert Ha. apply obind_elim. intros ch Hch Ha.
        revert Ha. apply obind_elim. intros a' Hfa Ha. injection Ha as Ha. subst csa.
        revert Hb. apply obind_elim. intros ch' Hch' Hb.
        rewrite Hch in Hch'. injection Hch' as Hch'. subst ch'.
        revert Hb. apply obind_elim. intros b' Hfb Hb. injection Hb as Hb. subst csb.
        pose proof (Hok0 a b eq_refl eq_refl) as Hab.
        destruct (H_flat a b (n_pay ch) a' b' Hab Hfa Hfb) as [Hfc Hab'].
        simpl. rewrite Hch. simpl. rewrite Hfc. simpl.
        eexists. split; [reflexivity | constructor; assumption].
      + destruct (proj1 H0 (ex_intro _ a eq_refl)) as (d & Hd). discriminate Hd.
      + destruct (proj2 H0 (ex_intro _ b eq_refl)) as (d & Hd). discriminate Hd.
      + injection Ha as Ha. injection Hb as Hb. subst csa csb. simpl.
        exists restc. split; [reflexivity | exact Hl].
  Qed.

  Lemma contribs_lin : forall g n da db csa csb,
      bop_contract E g -> ok da db ->
      contribs E g n da = Some csa -> contribs E g n db = Some csb ->
      exists csc, contribs E g n (comb da db) = Some csc /\ lin_cs csa csb csc.
  Proof.
    intros g n da db csa csb Hbc Hab Ha Hb.
    apply contribs_inv in Ha. destruct Ha as (nd & Hnd & Ha).
    apply contribs_inv in Hb. destruct Hb as (nd' & Hnd' & Hb).
    rewrite Hnd in Hnd'. injection Hnd' as Hnd'. subst nd'.
    rewrite contribs_unfold, Hnd. simpl.
    destruct Ha as [[Hop Hca] | [Hop (pays & dsa & Hpays & Hdsa & Hcfa)]].
    - destruct Hb as [[_ Hcb] | [Hop' _]]; [|rewrite Hop in Hop'; discriminate Hop'].
      subst csa csb. rewrite Hop. exists []. split; [reflexivity | constructor].
    - destruct Hb as [[Hop' _] | [_ (pays' & dsb & Hpays' & Hdsb & Hcfb)]];
        [rewrite Hop in Hop'; discriminate Hop' |].
      rewrite Hpays in Hpays'. injection Hpays' as Hpays'. subst pays'.
      rewrite Hop, Hpays. simpl.
      destruct (H_bop _ _ _ da db dsa dsb Hab Hdsa Hdsb) as [Hdsc Hokds].
      rewrite Hdsc. simpl.
      apply cfold_lin; try assumption.
      + intros i Hi.
        destruct (nth_error (n_children nd) i) as [e|] eqn:He;
          [|apply nth_error_None in He; lia].
        destruct (Hbc n nd pays da dsa Hnd Hdsa) as [_ Hia].
        destruct (Hbc n nd pays db dsb Hnd Hdsb) as [_ Hib].
        rewrite !nth_some_ex, <- (Hia i e He). apply (Hib i e He).
      + intros i a b Ha Hb. apply (Hokds i a b); apply nth_some; assumption.
  Qed.

  Lemma tab_add_lin : forall ta tb tc i a b ta' tb',
      lin3 ta tb tc -> ok a b ->
      tab_add E ta (i, a) = Some ta' -> tab_add E tb (i, b) = Some tb' ->
      exists tc', tab_add E tc (i, comb a b) = Some tc' /\ lin3 ta' tb' tc'.
  Proof.
    intros ta tb tc i a b ta' tb' (Hl1 & Hl2 & H3) Hab Ha Hb.
    apply tab_add_inv in Ha. simpl in Ha. destruct Ha as (Hia & Hla & nwa & Hnwa & Hja).
    apply tab_add_inv in Hb. simpl in Hb. destruct Hb as (Hib & Hlb & nwb & Hnwb & Hjb).
    assert (Hnwc : oadd E (nth i tc None) (comb a b) = Some (comb nwa nwb) /\ ok nwa nwb).
    { pose proof (H3 i) as Hi. unfold lin3o in Hi.
      destruct (nth i ta None) as [x|]; destruct (nth i tb None) as [y|]; try contradiction.
      - destruct Hi as [Hxy Hc]. rewrite Hc. simpl in *.
        apply (H_add x a y b nwa nwb Hxy Hab Hnwa Hnwb).
      - rewrite Hi. simpl in *. injection Hnwa as Hnwa. injection Hnwb as Hnwb. subst nwa nwb.
        split; [reflexivity | exact Hab]. }
    destruct Hnwc as [Hnwc Hoknw].
    destruct (tab_add_intro E tc (i, comb a b) (comb nwa nwb)) as [tc' Hc]; simpl; [lia | exact Hnwc |].
    exists tc'. split; [exact Hc |].
    apply tab_add_inv in Hc. simpl in Hc. destruct Hc as (_ & Hlc & nwc & Hnwc' & Hjc).
    rewrite Hnwc in Hnwc'. injection Hnwc' as Hnwc'. subst nwc.
    split; [lia |]. split; [lia |].
    intro j. rewrite Hja, Hjb, Hjc. destruct (j =? i).
    - simpl. split; [exact Hoknw | reflexivity].
    - apply H3.
  Qed.

  Lemma tab_add_all_lin : forall csa csb csc,
      lin_cs csa csb csc ->
      forall ta tb tc ta' tb',
        lin3 ta tb tc ->
        tab_add_all E ta csa = Some ta' -> tab_add_all E tb csb = Some tb' ->
        exists tc', tab_add_all E tc csc = Some tc' /\ lin3 ta' tb' tc'.
  Proof.
    intros csa csb csc Hl. induction Hl as [|i a b ca cb cc Hab Hl IH]; intros ta tb tc ta' tb' H3 Ha Hb.
    - rewrite tab_add_all_nil in Ha, Hb. injection Ha as Ha. injection Hb as Hb. subst ta' tb'.
      exists tc. split; [reflexivity | exact H3].
    - rewrite tab_add_all_cons in Ha, Hb.
      revert Ha. apply obind_elim. intros ta1 Ha1 Ha.
      revert Hb. apply obind_elim. intros tb1 Hb1 Hb.
      destruct (tab_add_lin ta tb tc i a b ta1 tb1 H3 Hab Ha1 Hb1) as (tc1 & Hc1 & H31).
      destruct (IH ta1 tb1 tc1 ta' tb' H31 Ha Hb) as (tc' & Hc & H3').
      exists tc'. split; [|exact H3'].
      rewrite tab_add_all_cons, Hc1. exact Hc.
  Qed.

  Lemma sweep_lin : forall g ids ta tb tc ta' tb',
      bop_contract E g -> lin3 ta tb tc ->
      sweep E g ids ta = Some ta' -> sweep E g ids tb = Some tb' ->
      exists tc', sweep E g ids tc = Some tc' /\ lin3 ta' tb' tc'.
  Proof.
    intros g ids. induction ids as [|n rest IH]; intros ta tb tc ta' tb' Hbc H3 Ha Hb.
    - injection Ha as Ha. injection Hb as Hb. subst ta' tb'.
      exists tc. split; [reflexivity | exact H3].
    - pose proof H3 as (_ & _ & Hn). specialize (Hn n). unfold lin3o in Hn.
      rewrite sweep_cons.
      apply sweep_cons_inv in Ha. apply sweep_cons_inv in Hb.
      destruct Ha as [[Hda Ha] | (da & csa & ta1 & Hda & Hcsa & Hta1 & Ha)];
        destruct Hb as [[Hdb Hb] | (db & csb & tb1 & Hdb & Hcsb & Htb1 & Hb)];
        rewrite Hda, Hdb in Hn; try contradiction.
      + rewrite Hn. eapply IH; eassumption.
      + destruct Hn as [Hab Hc]. rewrite Hc.
        destruct (contribs_lin g n da db csa csb Hbc Hab Hcsa Hcsb) as (csc & Hcsc & Hl).
        rewrite Hcsc. simpl.
        destruct (tab_add_all_lin csa csb csc Hl ta tb tc ta1 tb1 H3 Hta1 Htb1) as (tc1 & Htc1 & H31).
        rewrite Htc1. simpl.
        eapply IH; eassumption.
  Qed.

  Lemma init_table_lin : forall n r s1 s2,
      ok s1 s2 ->
      lin3 (init_table n r s1) (init_table n r s2) (init_table n r (comb s1 s2)).
  Proof.
    intros n r s1 s2 Hs. split; [|split].
    - unfold init_table. rewrite !app_length, !repeat_length. reflexivity.
    - unfold init_table. rewrite !app_length, !repeat_length. reflexivity.
    - intro j. rewrite !init_table_nth. destruct (j =? r); simpl; [split; [exact Hs | reflexivity] | reflexivity].
  Qed.

  Theorem sweep_linear_ok : forall g r s1 s2 t1 t2,
      bop_contract E g -> ok s1 s2 ->
      adjoints E g r s1 = Some t1 -> adjoints E g r s2 = Some t2 ->
      adjoints E g r (comb s1 s2) = Some (map2o t1 t2) /\
      length t1 = length t2 /\
      (forall j, nth j t1 None = None <-> nth j t2 None = None) /\
      (forall j a b, nth j t1 None = Some a -> nth j t2 None = Some b -> ok a b).
  Proof.
    intros g r s1 s2 t1 t2 Hbc Hs H1 H2. unfold adjoints in *.
    destruct (sweep_lin g _ _ _ _ t1 t2 Hbc (init_table_lin (length g) r s1 s2 Hs) H1 H2)
      as (tc & Hc & H3).
    rewrite Hc. rewrite (lin3_map2o t1 t2 tc H3).
    destruct H3 as (Hl & _ & H3).
    split; [reflexivity |]. split; [exact Hl |]. split.
    - intro j. specialize (H3 j). unfold lin3o in H3.
      destruct (nth j t1 None); destruct (nth j t2 None); try contradiction;
        split; intro; try discriminate; reflexivity.
    - intros j a b Ha Hb. specialize (H3 j). unfold lin3o in H3.
      rewrite Ha, Hb in H3. tauto.
  Qed.
End LinearOk.

Section Linear.
  Context {P D : Type}.
  Variable E : eops P D.
  Variable comb : D -> D -> D.

  Local Notation map2o := (map2o comb).

  Hypothesis H_bop : forall p pays saved x y dx dy,
      eo_bop E p pays saved x = Some dx -> eo_bop E p pays saved y = Some dy ->
      eo_bop E p pays saved (comb x y) = Some (map2o dx dy).

  Hypothesis H_flat : forall x y p x' y',
      eo_flat E x p = Some x' -> eo_flat E y p = Some y' ->
      eo_flat E (comb x y) p = Some (comb x' y').

  Hypothesis H_add : forall x1 x2 y1 y2 x y,
      eo_add E x1 x2 = Some x -> eo_add E y1 y2 = Some y ->
      eo_add E (comb x1 y1) (comb x2 y2) = Some (comb x y).

  Theorem sweep_linear_gen : forall g r s1 s2 t1 t2,
      bop_contract E g ->
      adjoints E g r s1 = Some t1 -> adjoints E g r s2 = Some t2 ->
      adjoints E g r (comb s1 s2) = Some (map2o t1 t2) /\
      length t1 = length t2 /\
      (forall j, nth j t1 None = None <-> nth j t2 None = None).
  Proof.
    intros g r s1 s2 t1 t2 Hbc H1 H2.
    destruct (sweep_linear_ok E comb (fun _ _ => True)) with (g := g) (r := r) (s1 := s1) (s2 := s2)
                                                           (t1 := t1) (t2 := t2)
      as (Ha & Hb & Hc & _); try assumption.
    - intros p pays saved x y dx dy _ Hx Hy. split; [eapply H_bop; eassumption | intros; exact I].
    - intros x y p x' y' _ Hx Hy. split; [eapply H_flat; eassumption | exact I].
    - intros x1 x2 y1 y2 x y _ _ Hx Hy. split; [eapply H_add; eassumption | exact I].
    - exact I.
    - tauto.
  Qed.

  (** [wfg] and [r < length g] are not needed *)
  Theorem sweep_linear : forall g r s1 s2 t1 t2,
      wfg E g -> bop_contract E g -> r < length g ->
      adjoints E g r s1 = Some t1 -> adjoints E g r s2 = Some t2 ->
      adjoints E g r (comb s1 s2) = Some (map2o t1 t2) /\
      length t1 = length t2 /\
      (forall j, nth j t1 None = None <-> nth j t2 None = None).
  Proof. intros g r s1 s2 t1 t2 _ Hbc _ H1 H2. apply sweep_linear_gen; assumption. Qed.
End Linear.
