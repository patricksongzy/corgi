(** [Proofs/HistoryPre.v] with [mm_any] ([Proofs/CodeSupport3.v]) as the condition on matmul
    operands: rank at least 2, or one of the rank-1 forms (dot product of two untransposed
    vectors, vector x matrix, matrix x vector).  The invariant is [pre_ok_all]: every
    operation node satisfies [code_pre3]. *)

From Coq Require Import List Arith Bool Lia PeanoNat.
From Corgi Require Import Lib.OptionMonad Lib.Sums Model.Scalar Model.Arr Model.SlicedOp
     Model.Elementwise Model.Linalg Model.Image Model.Ops Model.Engine Model.Program
     Proofs.ArrFacts Proofs.BroadcastDims Proofs.EngineDefs Proofs.EngineBase Proofs.Propagate
     Proofs.EngineInv Proofs.SlicedOpSpec Proofs.FlattenSpec Proofs.MatmulSpec Proofs.ConvSpec
     Proofs.DualLift Proofs.LocalAdjoint Proofs.LocalAdjoint2 Proofs.OpsWf Proofs.HistoryInv
     Proofs.LocalAdjoint3 Proofs.FwdCode Proofs.CodeSupport2 Proofs.HistoryVC Proofs.C01Gen
     Proofs.CodeSupport3 Proofs.HistoryPre.
Import ListNotations.

Section HistoryPre3.
  Context {F : Type} (O : ScalarOps F).

  Local Notation pay := (@pay F).
  Local Notation gnode := (@gnode F).
  Local Notation state := (@state F).
  Local Notation instr := (@instr F).
  Local Notation opk := (@opk F).
  Local Notation E := (Program.E O).

  Definition pre_ok_all (g : list gnode) : Prop := pre_ok_gen code_pre3 g.

  Definition op_ok_all (s : state) (k : opk) (hs : list handle) : Prop :=
    match k, hs with
    | OSum n, [a] => forall x, h_arr s a = Some x -> n <= length (dims x)
    | OSoftmax, [a] => forall x, h_arr s a = Some x -> 1 <= length (dims x)
    | OMatmul ta tb, [a; b] =>
      forall x y, h_arr s a = Some x -> h_arr s b = Some y -> mm_any ta tb [x; y; zeros1 O]
    | OMatmul ta tb, [a; b; c] =>
      forall x y z, h_arr s a = Some x -> h_arr s b = Some y -> h_arr s c = Some z ->
                    mm_any ta tb [x; y; z]
    | OConv _ _, [a; b] => forall y, h_arr s b = Some y -> 4 <= length (dims y)
    | OCustom CMul, _ | OCustom CAff, _ => same_dims2 (cvals (st_nodes s) hs)
    | _, _ => True
    end.

  Definition act_ok (s1 : state) (a : Program.act) (h1 : handle) : Prop :=
    match a with
    | ASoftmax => forall x, h_arr s1 h1 = Some x -> 1 <= length (dims x)
    | _ => True
    end.

  (** the operand shapes one layer needs: the operands and the bias of a dense layer satisfy
      [mm_any], convolutional layers have filters of rank >= 4, a softmax activation
      acts on a non-scalar *)
  Definition layer_ok_all (s : state) (l : layer) (input : handle) : Prop :=
    match l_conv l with
    | None =>
      (forall x y z, h_arr s input = Some x -> h_arr s (l_w l) = Some y -> h_arr s (l_b l) = Some z ->
                     mm_any false true [x; y; z]) /\
      (forall s1 h1, op_matmul O s false true input (l_w l) (Some (l_b l)) = Some (s1, h1) ->
                     act_ok s1 (l_act l) h1)
    | Some (sr, sc) =>
      (forall y, h_arr s (l_w l) = Some y -> 4 <= length (dims y)) /\
      (forall s1 hc s2 h2, op_conv O s sr sc input (l_w l) = Some (s1, hc) ->
                           op_add O s1 hc (l_b l) = Some (s2, h2) -> act_ok s2 (l_act l) h2)
    end.

  Fixpoint layers_ok_all (s : state) (ls : list layer) (h : handle) : Prop :=
    match ls with
    | [] => True
    | l :: ls' => layer_ok_all s l h /\
                  forall s1 h1, layer_forward O s l h = Some (s1, h1) -> layers_ok_all s1 ls' h1
    end.

  Definition instr_ok_all (s0 : state) (i : instr) : Prop :=
    let s := with_tag s0 (length (st_pool s0)) in
    match i with
    | IOp k args => forall hs, mapM (var s) args = Some hs -> op_ok_all s k hs
    | IForward h => forall x, var s h = Some x -> layers_ok_all s (st_layers s) x
    | _ => True
    end.

  Lemma mm_pre_any : forall ta tb (cs : list (arr F)), mm_pre ta tb cs -> mm_any ta tb cs.
  Proof. intros ta tb cs H. left. exact H. Qed.

  Lemma fold_layers_pre : forall ls s h s1 out,
      store_good (st_nodes s) -> pre_ok_all (st_nodes s) -> hvalid (st_nodes s) h ->
      (forall l, In l ls -> lvalid (st_nodes s) l) -> layers_ok_all s ls h ->
      fold_left (fun (acc : option (state * handle)) (l : layer) =>
                   st <- acc ;; let '(s', h') := st in layer_forward O s' l h')
                ls (Some (s, h)) = Some (s1, out) ->
      pre_ok_all (st_nodes s1).
  Proof. exact (HistoryPre.fold_layers_pre O mm_any mm_pre_any). Qed.

  Lemma cost_apply_pre : forall s c output target r,
      store_good (st_nodes s) -> pre_ok_all (st_nodes s) ->
      hvalid (st_nodes s) output -> hvalid (st_nodes s) target ->
      cost_apply O s c output target = Some r -> pre_ok_all (st_nodes (fst r)).
  Proof. exact (HistoryPre.cost_apply_pre O mm_any). Qed.

  Definition good_all (s : state) : Prop := good2 O s /\ pre_ok_all (st_nodes s).

  Theorem good_all_init : good_all (init_state O).
  Proof.
    split; [apply good2_init |]. intros id nd code H. destruct id; discriminate H.
  Qed.

  Theorem step_good_all : forall s0 i s' o,
      good_all s0 -> seed_ok s0 i -> instr_ok_all s0 i -> step O s0 i = Some (s', o) -> good_all s'.
  Proof.
    intros s0 i s' o [Hg2 Hp] Hseed Hok H. split.
    - eapply step_good2; eassumption.
    - destruct Hg2 as [Hgd _]. exact (step_pre O mm_any mm_pre_any s0 i s' o Hgd Hseed Hp Hok H).
  Qed.

  (** [s] is reached from [s0] by a prefix of [p] all of whose instructions satisfy their
      side conditions (well-shaped explicit seeds, [instr_ok_all]) *)
  Inductive reaches_ok_all (s0 : state) : list instr -> state -> Prop :=
  | reaches_ok_all_nil : forall p, reaches_ok_all s0 p s0
  | reaches_ok_all_step : forall i p s1 o s,
      seed_ok s0 i -> instr_ok_all s0 i -> step O s0 i = Some (s1, o) -> reaches_ok_all s1 p s ->
      reaches_ok_all s0 (i :: p) s.

  Theorem reaches_ok_good_all : forall s0 p s, good_all s0 -> reaches_ok_all s0 p s -> good_all s.
  Proof.
    intros s0 p s Hgd H. induction H as [s0 p | s0 i p s1 o s Hseed Hok Hstep Hre IH].
    - exact Hgd.
    - apply IH. eapply step_good_all; eassumption.
  Qed.

  Definition reachable_ok_all (p : list instr) (s : state) : Prop := reaches_ok_all (init_state O) p s.

  Theorem run_good_all : forall p s, reachable_ok_all p s -> good_all s.
  Proof. intros p s H. eapply reaches_ok_good_all; [apply good_all_init | exact H]. Qed.
End HistoryPre3.

Print Assumptions step_good_all.
Print Assumptions run_good_all.
