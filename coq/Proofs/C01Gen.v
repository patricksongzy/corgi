(** [backward_exact] for any side-condition predicate on closures: whatever predicate
    [cpre code d cs] is used, if every closure has its local identity under [cpre], and a
    matmul without additive term is the matmul with [zeros1] under [cpre], then the
    end-to-end identity holds on stores whose operation nodes satisfy [cpre].  ([Proofs/C01Full.v] is the instance [cpre := code_pre2].) *)

From Coq Require Import List Arith Bool Lia PeanoNat.
From Corgi Require Import Lib.OptionMonad Lib.Sums Model.Scalar Model.Arr Model.SlicedOp
     Model.Elementwise Model.Linalg Model.Ops Model.Engine Model.Program
     Proofs.ArrFacts Proofs.EngineDefs Proofs.EngineBase Proofs.Propagate Proofs.AdjointSpec
     Proofs.SweepBase Proofs.SweepAdjoint Proofs.SweepAdjointG Proofs.EngineValue
     Proofs.FlattenSpec Proofs.DualLift Proofs.LocalAdjoint Proofs.OpsWf
     Proofs.HistoryInv Proofs.ValueConcrete Proofs.FwdCode Proofs.CodeSupport
     Proofs.HistoryVC Proofs.C01Concrete.
Import ListNotations.

Section C01Gen.
  Context {F : Type} (O : ScalarOps F) (R : is_cring O).

  Local Notation pay := (@pay F).
  Local Notation gnode := (@gnode F).
  Local Notation E := (Program.E O).
  Local Notation E' := (ValueConcrete.E' O).
  Local Notation D2 := (dual_ops O).

  Variable cpre : bop_code F -> list nat -> list (arr F) -> Prop.

  Definition pre_ok_gen (g : list gnode) : Prop :=
    forall id nd code,
      nth_error g id = Some nd -> p_bop (n_pay nd) = Some code ->
      cpre code (p_dims (n_pay nd)) (cvals g (n_children nd)).

  Definition code_supported_gen (code : bop_code F) (d : list nat) : Prop :=
    forall (cs ts : list (arr F)) (flags : list bool) (delta : arr F)
           (RD : arr (@dual F)) (ds : list (option (arr F))),
      length cs = arity code -> Forall wf cs -> Forall2 tangent_for cs ts ->
      cpre code d cs ->
      fwd_of_code D2 (inj2 O) code d (lift_children O 0 flags cs ts) = Some RD ->
      code_fits code cs (primal RD) ->
      wf delta -> dims delta = dims RD ->
      run_bop O code cs flags delta = Some ds ->
      exists xs, child_terms O 0 flags cs ts ds xs /\
                 dot O (vals delta) (vals (tangent RD)) = vsum O xs.

  Definition code_liftable_gen (code : bop_code F) (d : list nat) : Prop :=
    forall (cs ts : list (arr F)) (flags : list bool) (v : arr F),
      length cs = arity code -> Forall wf cs -> Forall2 tangent_for cs ts ->
      cpre code d cs ->
      fwd_of_code O (fun s => s) code d cs = Some v ->
      exists RD, fwd_of_code D2 (inj2 O) code d (lift_children O 0 flags cs ts) = Some RD /\
                 primal RD = v.

  Definition nobias_strict_gen : Prop :=
    forall code d (cs : list (arr F)) v,
      Forall wf cs -> cpre code d cs -> matmul_nobias O code cs v ->
      fwd_of_code O (fun s => s) code d cs = Some v.

  Section Graph.
    Variable g : list gnode.
    Variable lt : nat -> arr F.
    Hypothesis Hg : store_good g.
    Hypothesis Hvc : value_consistent O g.
    Hypothesis Hpre : pre_ok_gen g.
    Hypothesis Hsupp : forall code d, code_supported_gen code d.
    Hypothesis Hnb : nobias_strict_gen.
    Hypothesis Hlt : leaf_tangents_ok g lt.

    Lemma gen_exact_nodes : exact_nodes O g.
    Proof.
      intros n nd code Hnd Hb.
      destruct (op_node_facts O g n nd code Hg Hvc Hnd Hb) as (Hlen & Hwf & Hfit & Hfwd).
      pose proof (Hpre n nd code Hnd Hb) as Hp.
      assert (Hstrict : fwd_of_code O (fun s => s) code (p_dims (n_pay nd)) (cvals g (n_children nd))
                        = Some (pay_arr (n_pay nd)))
        by (destruct Hfwd as [Hs | Hn]; [exact Hs | exact (Hnb _ _ _ _ Hwf Hp Hn)]).
      split; [exact Hfit |]. split.
      - intros ts flags Hts. exact (fwd_liftable O code _ _ ts flags _ Hwf Hts Hstrict).
      - intros ts flags delta RD ds Hts HRD Hprim. rewrite <- Hprim in Hfit.
        exact (Hsupp code _ _ ts flags delta RD ds Hlen Hwf Hts Hp HRD Hfit).
    Qed.

    Theorem backward_exact_gen : forall r keep seed s0 ndr g' log,
        grads_empty g -> r < length g -> nth_error g r = Some ndr ->
        seed_of E g r seed = Some s0 ->
        (forall sd, seed = Some sd -> wf sd /\ dims sd = p_dims (n_pay ndr)) ->
        run_backward E g r keep seed = Some (g', log) ->
        dot O (vals s0) (vals (tan O g lt r)) = leaf_pairing O g g' lt r.
    Proof. exact (backward_exact_nodes O R g lt Hg gen_exact_nodes Hlt). Qed.
  End Graph.
End C01Gen.

Print Assumptions backward_exact_gen.
