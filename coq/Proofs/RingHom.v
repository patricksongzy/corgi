(** Value homomorphism: for two scalar instances [O1], [O2] and a map
    [phi : F1 -> F2] preserving the RING operations ([f0 f1 fadd fmul fsub fneg
    fofnat]; nothing is assumed about division, exp, ln, pow or comparisons),
    every ring-only operation of the model commutes with [phi] applied to all
    values, and panics on exactly the same inputs.

    This is the relational development of Proofs/ShapeParametric.v at the relation
    [hs x y := y = phi x] on scalars: [phi] respects the ring operations
    ([ring_hom_rel]), lists related by [Forall2 hs] are those of [hl l1 l2 := l2 = map phi l1],
    arrays related by [arel hs] those of [ha a1 a2 := a2 = map_arr_phi a1], and the
    equational forms [op O2 (map_arr_phi a) .. = option_map map_arr_phi (op O1 a ..)]
    are read off ([commutes]). *)

From Coq Require Import List Arith Bool Lia.
From Corgi Require Import Lib.OptionMonad Lib.IdxDefs Model.Scalar Model.Arr Model.SlicedOp
     Model.Elementwise Model.Linalg Model.Image Model.Ops Proofs.ShapeParametric.
Import ListNotations.

Section RingHom.
  Context {F1 F2 : Type} (O1 : ScalarOps F1) (O2 : ScalarOps F2) (phi : F1 -> F2).

  Record ring_hom : Prop := {
    rh_0 : phi (f0 O1) = f0 O2;
    rh_1 : phi (f1 O1) = f1 O2;
    rh_add : forall x y, phi (fadd O1 x y) = fadd O2 (phi x) (phi y);
    rh_mul : forall x y, phi (fmul O1 x y) = fmul O2 (phi x) (phi y);
    rh_sub : forall x y, phi (fsub O1 x y) = fsub O2 (phi x) (phi y);
    rh_neg : forall x, phi (fneg O1 x) = fneg O2 (phi x);
    rh_ofnat : forall n, phi (fofnat O1 n) = fofnat O2 n
  }.

  Hypothesis RH : ring_hom.

  Definition map_arr_phi (a : arr F1) : arr F2 := {| dims := dims a; vals := map phi (vals a) |}.

  Definition hs (x : F1) (y : F2) : Prop := y = phi x.
  Definition hl (l1 : list F1) (l2 : list F2) : Prop := l2 = map phi l1.
  Definition ha (a1 : arr F1) (a2 : arr F2) : Prop := a2 = map_arr_phi a1.

  (** ** The relations against the equational forms *)

  Lemma orel_hl_eq : forall x y, orel hl x y <-> y = option_map (map phi) x.
  Proof.
    intros [a|] [b|]; simpl; unfold hl; split; intros H; try congruence; try contradiction;
      try discriminate; try exact I.
  Qed.

  Lemma F2_hs_hl : forall l1 l2, Forall2 hs l1 l2 -> hl l1 l2.
  Proof. intros l1 l2 H. unfold hl. induction H; simpl; [reflexivity|]. rewrite H, IHForall2. reflexivity. Qed.

  Lemma hl_F2_hs : forall l1 l2, hl l1 l2 -> Forall2 hs l1 l2.
  Proof. intros l1 l2 ->. induction l1; simpl; constructor; [reflexivity|assumption]. Qed.

  Lemma F2_ha_eq : forall l1 l2, Forall2 ha l1 l2 -> l2 = map map_arr_phi l1.
  Proof. intros l1 l2 H. induction H; simpl; [reflexivity|]. rewrite H, IHForall2. reflexivity. Qed.

  Lemma firstn_hl : forall n l1 l2, hl l1 l2 -> hl (firstn n l1) (firstn n l2).
  Proof. intros n l1 l2 ->. unfold hl. apply firstn_map. Qed.

  Lemma skipn_hl : forall n l1 l2, hl l1 l2 -> hl (skipn n l1) (skipn n l2).
  Proof. intros n l1 l2 ->. unfold hl. apply skipn_map. Qed.

  (** ** The instance *)

  Lemma ring_hom_rel : ring_rel hs O1 O2.
  Proof.
    constructor; unfold rel1, rel2, hs; intros; subst; symmetry;
      [apply rh_0|apply rh_1|apply rh_add|apply rh_mul|apply rh_sub|apply rh_neg]; exact RH.
  Qed.

  Lemma arel_phi : forall a, arel hs a (map_arr_phi a).
  Proof. intros a. split; [reflexivity|apply hl_F2_hs; reflexivity]. Qed.

  Lemma F2_arel_phi : forall l, Forall2 (arel hs) l (map map_arr_phi l).
  Proof. induction l; simpl; constructor; [apply arel_phi|assumption]. Qed.

  Lemma arel_ha : forall a1 a2, arel hs a1 a2 -> ha a1 a2.
  Proof.
    intros [d1 v1] [d2 v2] [Hd Hv]. apply F2_hs_hl in Hv. cbn [dims vals] in *.
    unfold ha, map_arr_phi. cbn [dims vals]. rewrite Hd, Hv. reflexivity.
  Qed.

  Lemma commutes : forall x y, orel (arel hs) x y -> y = option_map map_arr_phi x.
  Proof.
    intros [a|] [b|] H; simpl in H; try contradiction; simpl; [|reflexivity].
    f_equal. apply arel_ha, H.
  Qed.

  Lemma commutes_slots : forall (x : option (list (option (arr F1)))) (y : option (list (option (arr F2)))),
      orel (Forall2 (orel (arel hs))) x y -> y = option_map (map (option_map map_arr_phi)) x.
  Proof.
    intros [l1|] [l2|] H; simpl in H; try contradiction; simpl; [|reflexivity].
    f_equal. induction H as [|o1 o2 l1 l2 Ho Hl IH]; simpl; [reflexivity|].
    rewrite IH. f_equal. apply commutes. exact Ho.
  Qed.

  (** the closure commutes with [phi] *)
  Definition sop_hom (op1 : @sop F1) (op2 : @sop F2) : Prop :=
    forall cur1 cur2 sl1 sl2,
      hl cur1 cur2 -> Forall2 hl sl1 sl2 -> orel hl (op1 cur1 sl1) (op2 cur2 sl2).

  Lemma sop_hom_relF : forall op1 op2, sop_hom op1 op2 -> sop_relF hs op1 op2.
  Proof.
    intros op1 op2 H cur1 cur2 sl1 sl2 Hcur Hsl.
    eapply orel_mono; [exact hl_F2_hs|]. apply H; [exact (F2_hs_hl _ _ Hcur)|].
    eapply F2_mono; [exact F2_hs_hl|exact Hsl].
  Qed.

  (** ** Derivative closures (ring-only constructors) *)

  Inductive code_hom : bop_code F1 -> bop_code F2 -> Prop :=
  | CH_Add : code_hom BAdd BAdd
  | CH_Mul : code_hom BMul BMul
  | CH_Neg : code_hom BNeg BNeg
  | CH_Scale : forall s, code_hom (BScale s) (BScale (phi s))
  | CH_Exp : forall c, code_hom (BExp c) (BExp (map phi c))
  | CH_Sum : forall k target, code_hom (BSum k target) (BSum k target)
  | CH_Reshape : code_hom BReshape BReshape
  | CH_Matmul : forall ta tb, code_hom (BMatmul ta tb) (BMatmul ta tb)
  | CH_Unroll : forall depth rows cols sr sc fr fc,
      code_hom (BUnroll depth rows cols sr sc fr fc) (BUnroll depth rows cols sr sc fr fc)
  | CH_Expand : forall fcount stride, code_hom (BExpand fcount stride) (BExpand fcount stride)
  | CH_Sigmoid : forall c, code_hom (BSigmoid c) (BSigmoid (map phi c))
  | CH_Custom : forall c, code_hom (BCustom c) (BCustom c).

  Lemma code_hom_relF : forall c1 c2, code_hom c1 c2 -> code_relF hs O1 O2 c1 c2.
  Proof. intros c1 c2 H. destruct H; constructor; try reflexivity; apply hl_F2_hs; reflexivity. Qed.

  (** ** Equational forms *)

  Corollary mk_commutes : forall d v, mk d (map phi v) = option_map map_arr_phi (mk d v).
  Proof. intros. apply commutes, mk_relF; [reflexivity|apply hl_F2_hs; reflexivity]. Qed.

  Corollary zeros_commutes : forall d, zeros O2 d = option_map map_arr_phi (zeros O1 d).
  Proof. intros. apply commutes, zeros_relF, ring_hom_rel. Qed.

  Corollary from_flat_commutes : forall v, from_flat (map phi v) = option_map map_arr_phi (from_flat v).
  Proof. intros. apply commutes, from_flat_relF, hl_F2_hs. reflexivity. Qed.

  Corollary from_arrays_commutes : forall l,
      from_arrays (map map_arr_phi l) = option_map map_arr_phi (from_arrays l).
  Proof. intros. apply commutes, from_arrays_relF, F2_arel_phi. Qed.

  Corollary sliced_op_commutes : forall l op1 op2 in_dims out_dims k flatten,
      sop_hom op1 op2 ->
      sliced_op O2 (map map_arr_phi l) op2 in_dims out_dims k flatten
      = option_map map_arr_phi (sliced_op O1 l op1 in_dims out_dims k flatten).
  Proof.
    intros. apply commutes, sliced_op_relF; [exact ring_hom_rel|apply sop_hom_relF; assumption|apply F2_arel_phi].
  Qed.

  Corollary a_add_commutes : forall a b,
      a_add O2 (map_arr_phi a) (map_arr_phi b) = option_map map_arr_phi (a_add O1 a b).
  Proof. intros. apply commutes, a_add_relF; [exact ring_hom_rel| |]; apply arel_phi. Qed.

  Corollary a_sub_commutes : forall a b,
      a_sub O2 (map_arr_phi a) (map_arr_phi b) = option_map map_arr_phi (a_sub O1 a b).
  Proof. intros. apply commutes, a_sub_relF; [exact ring_hom_rel| |]; apply arel_phi. Qed.

  Corollary a_mul_commutes : forall a b,
      a_mul O2 (map_arr_phi a) (map_arr_phi b) = option_map map_arr_phi (a_mul O1 a b).
  Proof. intros. apply commutes, a_mul_relF; [exact ring_hom_rel| |]; apply arel_phi. Qed.

  Corollary a_neg_commutes : forall a,
      a_neg O2 (map_arr_phi a) = option_map map_arr_phi (a_neg O1 a).
  Proof. intros. apply commutes, a_neg_relF; [exact ring_hom_rel|apply arel_phi]. Qed.

  Corollary a_scale_commutes : forall c a,
      a_scale O2 (phi c) (map_arr_phi a) = option_map map_arr_phi (a_scale O1 c a).
  Proof. intros. apply commutes, a_scale_relF; [exact ring_hom_rel|reflexivity|apply arel_phi]. Qed.

  Corollary a_axpy_commutes : forall c x y,
      a_axpy O2 (phi c) (map_arr_phi x) (map_arr_phi y) = option_map map_arr_phi (a_axpy O1 c x y).
  Proof. intros. apply commutes, a_axpy_relF; [exact ring_hom_rel|reflexivity| |]; apply arel_phi. Qed.

  Corollary a_sum_commutes : forall k a,
      a_sum O2 k (map_arr_phi a) = option_map map_arr_phi (a_sum O1 k a).
  Proof. intros. apply commutes, a_sum_relF; [exact ring_hom_rel|apply arel_phi]. Qed.

  Corollary a_sum_all_commutes : forall a, a_sum_all O2 (map_arr_phi a) = phi (a_sum_all O1 a).
  Proof. intros. apply (vsum_relF hs O1 O2 ring_hom_rel), hl_F2_hs. reflexivity. Qed.

  Corollary a_reshape_commutes : forall d a,
      a_reshape d (map_arr_phi a) = option_map map_arr_phi (a_reshape d a).
  Proof. intros. apply commutes, a_reshape_relF, arel_phi. Qed.

  Corollary flatten_to_commutes : forall a target,
      flatten_to O2 (map_arr_phi a) target = option_map map_arr_phi (flatten_to O1 a target).
  Proof. intros. apply commutes, flatten_to_relF; [exact ring_hom_rel|apply arel_phi]. Qed.

  Corollary a_matmul_commutes : forall a ta b tb c,
      a_matmul O2 (map_arr_phi a) ta (map_arr_phi b) tb (option_map map_arr_phi c)
      = option_map map_arr_phi (a_matmul O1 a ta b tb c).
  Proof.
    intros. apply commutes, a_matmul_relF; [exact ring_hom_rel|apply arel_phi|apply arel_phi|].
    destruct c; [apply arel_phi|exact I].
  Qed.

  Corollary unroll_blocks_commutes : forall a sr sc fr fc,
      unroll_blocks O2 (map_arr_phi a) sr sc fr fc
      = option_map map_arr_phi (unroll_blocks O1 a sr sc fr fc).
  Proof. intros. apply commutes, unroll_blocks_relF; [exact ring_hom_rel|apply arel_phi]. Qed.

  Corollary roll_blocks_commutes : forall summed a depth rows cols sr sc fr fc,
      roll_blocks O2 summed (map_arr_phi a) depth rows cols sr sc fr fc
      = option_map map_arr_phi (roll_blocks O1 summed a depth rows cols sr sc fr fc).
  Proof. intros. apply commutes, roll_blocks_relF; [exact ring_hom_rel|apply arel_phi]. Qed.

  Corollary expand_conv_commutes : forall a rcount ccount,
      expand_conv O2 (map_arr_phi a) rcount ccount
      = option_map map_arr_phi (expand_conv O1 a rcount ccount).
  Proof. intros. apply commutes, expand_conv_relF; [exact ring_hom_rel|apply arel_phi]. Qed.

  Corollary conv_commutes : forall image filters sr sc,
      conv O2 (map_arr_phi image) (map_arr_phi filters) sr sc
      = option_map map_arr_phi (conv O1 image filters sr sc).
  Proof. intros. apply commutes, conv_relF; [exact ring_hom_rel| |]; apply arel_phi. Qed.

  Corollary custom_forward_commutes : forall c l,
      custom_forward O2 c (map map_arr_phi l) = option_map map_arr_phi (custom_forward O1 c l).
  Proof. intros. apply commutes, custom_forward_relF; [exact ring_hom_rel|apply F2_arel_phi]. Qed.

  Corollary run_bop_commutes : forall code1 code2 cs t x,
      code_hom code1 code2 ->
      run_bop O2 code2 (map map_arr_phi cs) t (map_arr_phi x)
      = option_map (map (option_map map_arr_phi)) (run_bop O1 code1 cs t x).
  Proof.
    intros. apply commutes_slots, run_bop_relF;
      [exact ring_hom_rel|apply code_hom_relF; assumption|apply F2_arel_phi|apply arel_phi].
  Qed.
End RingHom.

(** ** Non-vacuity: the identity on the integers, and reduction to the one-point ring *)

From Coq Require Import ZArith.

Lemma ring_hom_id : forall {F} (O : ScalarOps F), ring_hom O O (fun x => x).
Proof. intros F O. constructor; reflexivity. Qed.

Lemma ring_hom_unit : forall {F} (O : ScalarOps F), ring_hom O unit_ops (fun _ => tt).
Proof. intros F O. constructor; reflexivity. Qed.

(** parity, Z -> GF(2): a non-injective map that preserves the ring operations (and
    nothing else: not [Z.div], not the comparisons) *)
Definition bool_ops : ScalarOps bool := {|
  f0 := false; f1 := true;
  fadd := xorb; fmul := andb; fsub := xorb; fdiv := fun x _ => x;
  fneg := fun x => x; fexp := fun x => x; fln := fun x => x; fpow := fun x _ => x;
  fgt0 := fun x => x; feqb := Bool.eqb; fofnat := Nat.odd
|}.

Lemma ring_hom_parity : ring_hom Z_ops bool_ops Z.odd.
Proof.
  constructor; simpl; try reflexivity.
  - intros x y. apply Z.odd_add.
  - intros x y. apply Z.odd_mul.
  - intros x y. apply Z.odd_sub.
  - intros x. apply Z.odd_opp.
  - intros n. induction n as [|n IH]; [reflexivity|].
    rewrite Nat2Z.inj_succ, Z.odd_succ, Nat.odd_succ, <- Z.negb_odd, IH.
    rewrite <- Nat.negb_odd. reflexivity.
Qed.

Example parity_matmul :
  let a := {| dims := [2; 2]; vals := [1; 2; 3; 4]%Z |} in
  let b := {| dims := [2; 2]; vals := [5; 6; 7; 8]%Z |} in
  a_matmul bool_ops (map_arr_phi Z.odd a) false (map_arr_phi Z.odd b) false None
  = option_map (map_arr_phi Z.odd) (a_matmul Z_ops a false b false None)
  /\ a_matmul Z_ops a false b false None = Some {| dims := [2; 2]; vals := [19; 22; 43; 50]%Z |}.
Proof. split; reflexivity. Qed.

Print Assumptions run_bop_commutes.
Print Assumptions a_matmul_commutes.
Print Assumptions conv_commutes.
Print Assumptions ring_hom_parity.
