(** A GUARDED variant of the adjoint identity of [Proofs/SweepAdjoint.v]: the additivity of
    the pairing and the local transpose identity are only required for ACCEPTABLE adjoint
    values ([okd p d]: "d is an acceptable adjoint for a node of payload p", think
    "well-formed array of the node's dimensions"), and the sweep is shown to keep every
    table entry acceptable.  This is the form the concrete arrays can satisfy.  It is
    [adjoint_identity_okn] for "node [m] exists and the value is acceptable for its payload". *)

From Coq Require Import List Arith Bool Lia PeanoNat.
From Corgi Require Import Lib.OptionMonad Model.Engine Proofs.EngineDefs Proofs.EngineBase
     Proofs.AdjointSpec Proofs.SweepBase Proofs.SweepAdjoint.
Import ListNotations.

Section AdjointIdentityG.
  Context {P D : Type}.
  Variable E : eops P D.
  Variable g : store P D.

  Variable T : Type.
  Variable K : Type.
  Variable k0 : K.
  Variable kadd : K -> K -> K.
  Hypothesis kadd_assoc : forall a b c, kadd a (kadd b c) = kadd (kadd a b) c.
  Hypothesis kadd_comm : forall a b, kadd a b = kadd b a.
  Hypothesis kadd_0_l : forall a, kadd k0 a = a.

  Variable pair : D -> T -> K.
  Variable tan : nat -> T.

  Variable okd : P -> D -> Prop.

  Local Notation ksum := (ksum kadd k0).
  Local Notation pairc := (pairc T K pair tan).

  (** acceptable values are closed under the accumulation and the deliveries of the sweep *)
  Hypothesis G_add : forall p x y z, okd p x -> okd p y -> eo_add E x y = Some z -> okd p z.
  Hypothesis G_contribs : forall n nd delta cs c,
      nth_error g n = Some nd -> okd (n_pay nd) delta -> contribs E g n delta = Some cs ->
      In c cs -> exists ndc, nth_error g (fst c) = Some ndc /\ okd (n_pay ndc) (snd c).

  (** the pairing is additive on acceptable values *)
  Hypothesis H_pair_add : forall p x y z t,
      okd p x -> okd p y -> eo_add E x y = Some z -> pair z t = kadd (pair x t) (pair y t).

  (** the local transpose identity, for an acceptable received adjoint *)
  Hypothesis H_local : forall n nd delta cs,
      nth_error g n = Some nd -> hasop E nd = true -> okd (n_pay nd) delta ->
      contribs E g n delta = Some cs ->
      pair delta (tan n) = ksum (map pairc cs).

  Definition tok (tab : table) : Prop :=
    forall m nd d, nth_error g m = Some nd -> nth m tab None = Some d -> okd (n_pay nd) d.

  Theorem adjoint_identity_g : forall r s tab ndr,
      wfg E g -> nth_error g r = Some ndr -> okd (n_pay ndr) s ->
      adjoints E g r s = Some tab ->
      tok tab /\
      pair s (tan r) =
      ksum (map (fun m => match nth m tab None with
                          | Some d => pair d (tan m)
                          | None => k0
                          end)
                (filter (fun m => negb (isop E g m)) (seq 0 (S r)))).
  Proof.
    intros r s tab ndr Hwf Hndr Hs H.
    set (okn := fun m d => exists nd, nth_error g m = Some nd /\ okd (n_pay nd) d).
    destruct (adjoint_identity_okn E g T K k0 kadd kadd_assoc kadd_comm kadd_0_l pair tan okn)
      with (r := r) (s := s) (tab := tab) as (Ht & Hid); try assumption.
    - intros n x y z (nd & Hnd & Hx) (nd' & Hnd' & Hy) Hz. exists nd. split; [exact Hnd |].
      rewrite Hnd in Hnd'. injection Hnd' as Hnd'. subst nd'. exact (G_add _ x y z Hx Hy Hz).
    - intros n delta cs c (nd & Hnd & Hd) Hcs Hc. exact (G_contribs n nd delta cs c Hnd Hd Hcs Hc).
    - intros n x y z t (nd & Hnd & Hx) (nd' & Hnd' & Hy) Hz.
      rewrite Hnd in Hnd'. injection Hnd' as Hnd'. subst nd'. exact (H_pair_add _ x y z t Hx Hy Hz).
    - intros n nd delta cs Hnd Hop (nd' & Hnd' & Hd) Hcs.
      rewrite Hnd in Hnd'. injection Hnd' as Hnd'. subst nd'.
      exact (H_local n nd delta cs Hnd Hop Hd Hcs).
    - exists ndr. split; assumption.
    - split; [| exact Hid]. intros m nd d Hnd Hd. destruct (Ht m d Hd) as (nd' & Hnd' & Hok).
      rewrite Hnd in Hnd'. injection Hnd' as Hnd'. subst nd'. exact Hok.
  Qed.
End AdjointIdentityG.

Print Assumptions adjoint_identity_g.
