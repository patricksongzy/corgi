(** Support for every built-in closure INCLUDING the rank-1 forms of matmul: the side
    condition of [BMatmul] is the disjunction of the rank >= 2 form ([mm_pre]), the dot
    product of two untransposed vectors ([dot_pre]), vector x matrix ([vecl_pre]) and
    matrix x vector ([vecr_pre]). *)

From Coq Require Import List Arith Bool.
From Corgi Require Import Lib.OptionMonad Lib.Sums Model.Scalar Model.Arr Model.Elementwise Model.Linalg
     Model.Ops Proofs.ArrFacts Proofs.FlattenSpec Proofs.MatmulSpec Proofs.DualLift Proofs.LocalAdjoint
     Proofs.LocalAdjoint2 Proofs.LocalAdjoint3 Proofs.OpsWf Proofs.FwdCode Proofs.CodeSupport
     Proofs.CodeSupport2 Proofs.C01Gen.
Import ListNotations.

Section CodeSupport3.
  Context {F : Type} (O : ScalarOps F).
  Local Notation D2 := (dual_ops O).

  Definition mm_any (ta tb : bool) (cs : list (arr F)) : Prop :=
    mm_pre ta tb cs \/ (ta = false /\ tb = false /\ dot_pre cs) \/
    vecl_pre ta tb cs \/ vecr_pre ta tb cs.

  Definition code_pre3 (code : bop_code F) (d : list nat) (cs : list (arr F)) : Prop :=
    match code with
    | BMatmul ta tb => mm_any ta tb cs
    | _ => code_pre2 code d cs
    end.

  Lemma code_pre2_pre3 : forall code d cs, code_pre2 code d cs -> code_pre3 code d cs.
  Proof. intros code d cs H. destruct code; try exact H. left. exact H. Qed.

  (** * A matmul without additive term is the matmul with [zeros1] *)

  Theorem nobias_strict3 : nobias_strict_gen O code_pre3.
  Proof.
    intros code d cs v Hwf Hpre Hnb.
    destruct code; try contradiction.
    destruct cs as [|a [|b [|c [|? ?]]]]; try contradiction.
    cbn [matmul_nobias] in Hnb. destruct Hnb as [Hc Hv]. subst c.
    inversion Hwf as [|? ? Hwa Hwf1]; subst. inversion Hwf1 as [|? ? Hwb _]; subst.
    cbn [fwd_of_code]. rewrite <- Hv. symmetry.
    cbn [code_pre3] in Hpre. destruct Hpre as [Hmm | [(-> & -> & Hd) | [Hvl | Hvr]]].
    - destruct Hmm as (la & ar & ac & lb & br & bc & Ea & Eb & _). cbn [nth] in Ea, Eb.
      apply (matmul_none_zeros1 O a ta b tb la ar ac lb br bc); assumption.
    - destruct Hd as (n & Ea & Eb & _). cbn [nth] in Ea, Eb.
      apply (dot_none_zeros1 O a b n); assumption.
    - destruct Hvl as (n & lb & br & bc & Ea & Eb & _). cbn [nth] in Ea, Eb.
      apply (vecl_none_zeros1 O a ta b tb n lb br bc); assumption.
    - destruct Hvr as (n & la & ar & ac & Ea & Eb & _). cbn [nth] in Ea, Eb.
      apply (vecr_none_zeros1 O a ta b tb n la ar ac); assumption.
  Qed.

  Theorem all_liftable3 : forall code d, code_liftable_gen O code_pre3 code d.
  Proof.
    intros code d cs ts flags v _ Hwf Hts _ Hv. exact (fwd_liftable O code d cs ts flags v Hwf Hts Hv).
  Qed.

  Section Ring.
    Hypothesis R : is_cring O.

    Lemma matmul_supported3 : forall ta tb d, code_supported_gen O code_pre3 (BMatmul ta tb) d.
    Proof.
      intros ta tb d cs ts flags delta RD ds Hlen Hwf Hts Hpre Hfwd Hfit Hwd Hdd Hrun.
      cbn [arity] in Hlen. cbn [code_pre3] in Hpre.
      destruct Hpre as [Hmm | [(-> & -> & Hd) | [Hvl | Hvr]]].
      - exact (matmul_local O R ta tb cs ts flags delta RD ds Hlen Hmm Hwf Hts Hfwd Hwd Hdd Hrun).
      - exact (dot_local O R cs ts flags delta RD ds Hlen Hd Hwf Hts Hfwd Hwd Hdd Hrun).
      - exact (vecl_local O R ta tb cs ts flags delta RD ds Hlen Hvl Hwf Hts Hfwd Hwd Hdd Hrun).
      - exact (vecr_local O R ta tb cs ts flags delta RD ds Hlen Hvr Hwf Hts Hfwd Hwd Hdd Hrun).
    Qed.

    Lemma mask_vals_row : forall fl (t : arr F) n, vals (mask O fl (as_row t n)) = vals (mask O fl t).
    Proof. intros [|] t n; reflexivity. Qed.

    Section Scalars.
      Hypothesis Hsig_fst : forall x x', fst (sigmoid_fn D2 (x, x')) = sigmoid_fn O x.
      Hypothesis Hsig : forall x x',
          snd (sigmoid_fn D2 (x, x'))
          = fmul O (fmul O (sigmoid_fn O x) (fsub O (f1 O) (sigmoid_fn O x))) x'.
      Hypothesis Hdiv : forall a b, fdiv O a b = fmul O a (fdiv O (f1 O) b).
      Hypothesis Hinv_mul : forall a b,
          fdiv O (f1 O) (fmul O a b) = fmul O (fdiv O (f1 O) a) (fdiv O (f1 O) b).
      Hypothesis Hpow2 : forall x, fpow O x (two O) = fmul O x x.

      Theorem all_supported3 : forall code d, code_supported_gen O code_pre3 code d.
      Proof.
        intros code d.
        destruct code as [ | | | |s| |e| |cached|k target| |ta tb|depth rows cols sr sc fr fc
                          |fcount stride| |cached|cu];
          try exact (proj1 (all_code_ok2 O R Hsig_fst Hsig Hdiv Hinv_mul Hpow2 _ d)).
        apply matmul_supported3.
      Qed.

    End Scalars.
  End Ring.
End CodeSupport3.

Print Assumptions nobias_strict3.
Print Assumptions all_supported3.
Print Assumptions all_liftable3.
