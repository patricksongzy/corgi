(** The engine computes exactly the adjoints of the declarative sweep
    ([Proofs/AdjointSpec.v]), under a shape-indexed commutative-monoid hypothesis
    on [eo_add]. *)

From Coq Require Import List Arith Bool Lia PeanoNat Permutation.
From Corgi Require Import Lib.OptionMonad Model.Engine Proofs.EngineDefs Proofs.EngineBase
     Proofs.Propagate Proofs.EngineInv Proofs.AdjointSpec Proofs.ValueAlg Proofs.SweepBase Proofs.SweepChar
     Proofs.EngineSeg.
Import ListNotations.

(** the gradient slot [o] became [o'] by accumulating [delta] (existing value on the left) *)
Definition stored {P D} (E : eops P D) (o : option D) (delta : D) (o' : option D) : Prop :=
  match o with
  | Some x => exists z, eo_add E x delta = Some z /\ o' = Some z
  | None => o' = Some delta
  end.

Lemma gstore_stored : forall {P D} (E : eops P D) o delta o',
    gstore E o delta o' -> stored E o delta o'.
Proof.
  intros P D E o delta o' (ng & Hng & Ho'). unfold stored. destruct o as [x|]; simpl in Hng.
  - exists ng. split; assumption.
  - congruence.
Qed.

Section Facts.
  Context {P D : Type}.
  Variable E : eops P D.

  (** [FT] lists the nodes that fired, each with the adjoint it fired with and the keep
      flag of the call; [H] the contributions delivered, in the engine's order. *)
  Inductive pass_facts (g : store P D) (r : nat) (keep : bool) (s0 : D) (g' : store P D)
            (log : @trace D) : Prop :=
  | pass_facts_intro : forall FT' H (FT := (r, s0, keep) :: FT'),
      NoDup (map fnode FT) ->
      (forall m, In m (map fnode FT) <-> reach g r m) ->
      (forall f, In f FT -> fnode f <= r /\ contribs E g (fnode f) (fdel f) <> None) ->
      Permutation H (flat_map (cso E g) FT) ->
      (forall m, accum E (init r s0 m) (vals m H) = Some (dvl FT m)) ->
      LogIn log FT ->
      (* the gradient slot of a node: untouched unless the node fired as a leaf or
         through a handle that keeps gradients *)
      (forall id nd nd', nth_error g id = Some nd -> nth_error g' id = Some nd' ->
         match lk id FT with
         | None => n_grad nd' = n_grad nd
         | Some (d, k) =>
           if (match n_children nd with [] => true | _ => false end) || k
           then stored E (n_grad nd) d (n_grad nd') else n_grad nd' = n_grad nd
         end) ->
      (* the keep flag of a node other than the root is that of a tracked entry of the
         sub-graph pointing to it *)
      (forall id d k, id <> r -> lk id FT = Some (d, k) ->
         exists p ndp e, reach g r p /\ nth_error g p = Some ndp /\ In e (n_children ndp) /\
                         e_tracked e = true /\ e_node e = id /\ k = e_keep e) ->
      pass_facts g r keep s0 g' log.

  Lemma engine_facts : forall (g : store P D) r keep seed s0 g' log,
      wfg E g -> clean g -> bop_contract E g -> r < length g ->
      seed_of E g r seed = Some s0 ->
      run_backward E g r keep seed = Some (g', log) ->
      pass_facts g r keep s0 g' log.
  Proof.
    intros g r keep seed s0 g' log Hwf Hclean Hbc Hr Hseed Hrun.
    destruct (pass_spec E g r keep seed g' log Hwf Hclean Hbc Hr Hrun) as (Hclean' & _).
    destruct (nth_error g r) as [nd|] eqn:Hnd; [| apply nth_error_None in Hnd; lia].
    rewrite (run_backward_root E g r keep seed nd Hclean Hnd) in Hrun.
    destruct (root_state E g r Hwf Hclean Hr)
      as (g1 & Hprop & Hnc & Hreach & (HS1 & Hcr & _) & Hdl1).
    rewrite Hprop in Hrun. cbn [obind] in Hrun.
    assert (Hds : match seed with Some s => s | None => eo_ones E (n_pay nd) end = s0).
    { unfold seed_of in Hseed. destruct seed as [s|]; [congruence |].
      rewrite Hnd in Hseed. simpl in Hseed. congruence. }
    rewrite Hds in Hrun.
    destruct (body_val E g r Hwf Hbc Hr (backward E r) r (backward_rec_val E g r Hwf Hbc Hr r)
                       g1 r keep s0 [] g' log (le_n r) HS1 (reach_root g r) Hcr (Hdl1 r) Hrun)
      as [FT' H lnew [Sa Sb Sc Sd Se Sf Sg Sh] HOr HPerm Hlog HLi].
    change ([(r, s0, keep)] ++ FT') with ((r, s0, keep) :: FT') in *.
    simpl in Hlog. subst lnew.
    assert (Hnodes : forall m, In m (map fnode ((r, s0, keep) :: FT')) <-> reach g r m).
    { intro m. split.
      - intro Hin. apply in_map_iff in Hin. destruct Hin as (f & Hf & Hin).
        destruct (Sd f Hin) as (_ & _ & Hre & _). rewrite <- Hf. exact Hre.
      - intro Hre. destruct (Nat.eq_dec m r) as [Heq|Hne]; [subst m; left; reflexivity |].
        apply Sf; [| apply clean_cnt; exact Hclean'].
        unfold upd1. apply Nat.eqb_neq in Hne. rewrite Hne.
        apply Hreach in Hre. destruct Hre as [Hre|Hre]; [exact Hre |].
        apply Nat.eqb_neq in Hne. contradiction. }
    apply (pass_facts_intro g r keep s0 g' log FT' H); [exact Se | exact Hnodes | | exact HPerm | | exact HLi | |].
    { intros f Hf. split; [| apply (Sd f Hf)].
      apply (reach_le E g r Hwf). apply Hnodes. apply in_map. exact Hf. }
    { intro m. specialize (Sg m).
      assert (Hi : updd (dlt g1) r s0 m = init r s0 m).
      { unfold updd, init. destruct (m =? r); [reflexivity | apply Hdl1]. }
      rewrite Hi in Sg. rewrite Sg. f_equal. unfold pend, dvl.
      destruct (lk m ((r, s0, keep) :: FT')) as [[d k]|];
        [reflexivity | apply clean_dlt; exact Hclean']. }
    { intros id x x' Hx Hx'. specialize (Sh id). unfold grule in Sh.
      rewrite (nc_grd g1 g id Hnc), (grd_nth g id x Hx), (grd_nth g' id x' Hx') in Sh.
      assert (Hleaf : leafb g id = match n_children x with [] => true | _ => false end)
        by (unfold leafb; rewrite Hx; reflexivity).
      rewrite Hleaf in Sh.
      destruct (lk id ((r, s0, keep) :: FT')) as [[d k]|]; [| exact Sh].
      destruct ((match n_children x with [] => true | _ => false end) || k);
        [apply gstore_stored; exact Sh | exact Sh]. }
    intros id d k Hne Hlk. apply lk_in in Hlk. destruct Hlk as [Hlk|Hlk].
    - injection Hlk as H1 _ _. congruence.
    - destruct (HOr _ Hlk) as (e & (p & ndp & Hp & Hndp & Hin & Ht) & He & Hk).
      exists p, ndp, e. exact (conj Hp (conj Hndp (conj Hin (conj Ht (conj He Hk))))).
  Qed.
End Facts.

Section Value.
  Context {P D : Type}.
  Variable E : eops P D.
  Variable S : Type.
  Variable sh : D -> S.
  Variable psh : P -> S.
  Hypothesis add_ok : forall x y, sh x = sh y -> exists z, eo_add E x y = Some z /\ sh z = sh x.
  Hypothesis add_comm : forall x y, sh x = sh y -> eo_add E x y = eo_add E y x.
  Hypothesis add_assoc : forall x y z xy yz, sh x = sh y -> sh y = sh z ->
      eo_add E x y = Some xy -> eo_add E y z = Some yz -> eo_add E xy z = eo_add E x yz.
  Hypothesis flat_sh : forall d p d', eo_flat E d p = Some d' -> sh d' = psh p.

  Theorem pass_value : forall (g : store P D) r keep seed s0 ndr g' log,
      wfg E g -> clean g -> bop_contract E g -> r < length g ->
      nth_error g r = Some ndr ->
      seed_of E g r seed = Some s0 -> sh s0 = psh (n_pay ndr) ->
      (forall id nd x, nth_error g id = Some nd -> n_grad nd = Some x -> sh x = psh (n_pay nd)) ->
      run_backward E g r keep seed = Some (g', log) ->
      exists tab, adjoints E g r s0 = Some tab /\ length tab = length g /\
        (* (0) the root's adjoint is the seed *)
        nth_error tab r = Some (Some s0) /\
        (* (1) every closure received exactly its adjoint *)
        (forall id delta, In (id, delta) log -> nth_error tab id = Some (Some delta)) /\
        (* (2) the table is non-empty exactly on the differentiated sub-graph *)
        (forall id, id < length g -> (nth id tab None <> None <-> reach g r id)) /\
        (* (3) every adjoint has its node's shape *)
        (forall id nd delta, nth_error g id = Some nd ->
             nth_error tab id = Some (Some delta) -> sh delta = psh (n_pay nd)) /\
        (* (4) a gradient slot is untouched or the adjoint was added to it *)
        (forall id nd nd', nth_error g id = Some nd -> nth_error g' id = Some nd' ->
             n_grad nd' = n_grad nd \/
             exists delta, nth_error tab id = Some (Some delta) /\
                           stored E (n_grad nd) delta (n_grad nd')) /\
        (* (5a) leaves of the sub-graph always store *)
        (forall id nd nd' delta, nth_error g id = Some nd -> nth_error g' id = Some nd' ->
             nth_error tab id = Some (Some delta) -> n_children nd = [] ->
             stored E (n_grad nd) delta (n_grad nd')) /\
        (* (5b) the root stores when [keep] or when it is a leaf, and only then *)
        (forall ndr', nth_error g' r = Some ndr' ->
             (keep = true \/ n_children ndr = [] -> stored E (n_grad ndr) s0 (n_grad ndr')) /\
             (keep = false -> n_children ndr <> [] -> n_grad ndr' = n_grad ndr)) /\
        (* (5c) an interior node other than the root stores when every tracked entry pointing
           to it from the sub-graph has [e_keep = true] ... *)
        (forall id nd nd' delta, nth_error g id = Some nd -> nth_error g' id = Some nd' ->
             id <> r -> nth_error tab id = Some (Some delta) ->
             (forall p ndp e, reach g r p -> nth_error g p = Some ndp -> In e (n_children ndp) ->
                              e_tracked e = true -> e_node e = id -> e_keep e = true) ->
             stored E (n_grad nd) delta (n_grad nd')) /\
        (* (5d) ... and does not store when every one has [e_keep = false] *)
        (forall id nd nd', nth_error g id = Some nd -> nth_error g' id = Some nd' ->
             id <> r -> n_children nd <> [] ->
             (forall p ndp e, reach g r p -> nth_error g p = Some ndp -> In e (n_children ndp) ->
                              e_tracked e = true -> e_node e = id -> e_keep e = false) ->
             n_grad nd' = n_grad nd) /\
        (* (6) the gradient-shape invariant is preserved *)
        (forall id nd' x, nth_error g' id = Some nd' -> n_grad nd' = Some x ->
             sh x = psh (n_pay nd')).
  Proof.
    intros g r keep seed s0 ndr g' log Hwf Hclean Hbc Hr Hndr Hseed Hs0 Hgsh Hrun.
    destruct (pass_spec E g r keep seed g' log Hwf Hclean Hbc Hr Hrun)
      as (_ & Hlen' & Hskel & _).
    destruct (engine_facts E g r keep seed s0 g' log Hwf Hclean Hbc Hr Hseed Hrun)
      as [FT' H FT HA1 Hnodes HA2 HA3 HA4 HLi Hrule Horig].
    assert (HA6 : exists x, nth_error g r = Some x /\ sh s0 = psh (n_pay x))
      by (exists ndr; split; assumption).
    destruct (sweep_char E S sh psh add_ok add_comm add_assoc flat_sh g r s0 Hwf Hr FT H
                         HA1 HA2 HA3 HA4 HA6) as (tab & Htab & Hlen & Hnth).
    pose proof (dvl_shape E S sh psh add_ok flat_sh g r s0 Hwf Hr FT H HA2 HA3 HA4 HA6) as Hshape.
    exists tab. split; [exact Htab |]. split; [exact Hlen |].
    assert (Hlkr : lk r FT = Some (s0, keep)).
    { unfold FT. simpl. unfold fnode. simpl. rewrite Nat.eqb_refl. reflexivity. }
    (* reading the table *)
    assert (Hread : forall id delta, id < length g ->
               (nth_error tab id = Some (Some delta) <-> exists k, lk id FT = Some (delta, k))).
    { intros id delta Hid. rewrite <- nth_some, (Hnth id Hid). unfold dvl. split.
      - intro Hd. destruct (lk id FT) as [[d k]|]; simpl in Hd; [| discriminate Hd].
        exists k. congruence.
      - intros (k & Hk). rewrite Hk. reflexivity. }
    assert (Hlt : forall id x, nth_error g id = Some x -> id < length g)
      by (intros id x Hx; eapply nth_lt; exact Hx).
    split; [apply (Hread r s0 Hr); exists keep; exact Hlkr |].
    split.
    { intros id delta Hin. destruct (HLi id delta Hin) as (k & Hk).
      assert (Hre : reach g r id).
      { apply Hnodes. change id with (fnode (id, delta, k)). apply in_map. exact Hk. }
      apply Hread; [apply (reach_lt E g r Hwf); assumption |].
      exists k. apply lk_nodup; assumption. }
    split.
    { intros id Hid. rewrite (Hnth id Hid), <- Hnodes. unfold dvl. split.
      - intro Hne. destruct (lk id FT) as [[d k]|] eqn:Hlk; [| exfalso; apply Hne; reflexivity].
        eapply lk_fnode_in. exact Hlk.
      - intro Hin. apply in_fnode_lk in Hin. destruct Hin as (d & k & Hlk).
        rewrite Hlk. discriminate. }
    split.
    { intros id nd delta Hnd Ht. apply (Hshape id nd delta Hnd).
      rewrite <- (Hnth id (Hlt id nd Hnd)). apply nth_some. exact Ht. }
    split.
    { intros id nd nd' Hnd Hnd'. pose proof (Hrule id nd nd' Hnd Hnd') as Hru.
      destruct (lk id FT) as [[d k]|] eqn:Hlk; [| left; exact Hru].
      destruct ((match n_children nd with [] => true | _ => false end) || k);
        [| left; exact Hru].
      right. exists d. split; [| exact Hru].
      apply (Hread id d (Hlt id nd Hnd)). exists k. exact Hlk. }
    split.
    { intros id nd nd' delta Hnd Hnd' Ht Hleaf.
      apply (Hread id delta (Hlt id nd Hnd)) in Ht. destruct Ht as (k & Hlk).
      pose proof (Hrule id nd nd' Hnd Hnd') as Hru. rewrite Hlk, Hleaf in Hru. exact Hru. }
    split.
    { intros ndr' Hndr'. pose proof (Hrule r ndr ndr' Hndr Hndr') as Hru. rewrite Hlkr in Hru.
      split.
      - intros [Hk|Hl]; [subst keep; rewrite orb_true_r in Hru; exact Hru |].
        rewrite Hl in Hru. exact Hru.
      - intros Hk Hne. subst keep. destruct (n_children ndr); [congruence | exact Hru]. }
    split.
    { intros id nd nd' delta Hnd Hnd' Hne Ht Hall.
      apply (Hread id delta (Hlt id nd Hnd)) in Ht. destruct Ht as (k & Hlk).
      pose proof (Hrule id nd nd' Hnd Hnd') as Hru. rewrite Hlk in Hru.
      destruct (Horig id delta k Hne Hlk) as (p & ndp & e & Hp & Hndp & Hin & Ht & He & Hk).
      rewrite (Hall p ndp e Hp Hndp Hin Ht He) in Hk. subst k.
      rewrite orb_true_r in Hru. exact Hru. }
    split.
    { intros id nd nd' Hnd Hnd' Hne Hint Hall.
      pose proof (Hrule id nd nd' Hnd Hnd') as Hru.
      destruct (lk id FT) as [[d k]|] eqn:Hlk; [| exact Hru].
      destruct (Horig id d k Hne Hlk) as (p & ndp & e & Hp & Hndp & Hin & Ht & He & Hk).
      rewrite (Hall p ndp e Hp Hndp Hin Ht He) in Hk. subst k.
      destruct (n_children nd); [congruence | exact Hru]. }
    intros id nd' x Hnd' Hx.
    assert (Hid : id < length g) by (rewrite <- Hlen'; eapply nth_lt; exact Hnd').
    destruct (nth_error g id) as [nd|] eqn:Hnd; [| apply nth_error_None in Hnd; lia].
    destruct (Hskel id nd nd' Hnd Hnd') as (Hpay & _). rewrite Hpay.
    pose proof (Hrule id nd nd' Hnd Hnd') as Hru.
    assert (Hun : n_grad nd' = n_grad nd -> sh x = psh (n_pay nd)).
    { intro Heq. apply (Hgsh id nd x Hnd). congruence. }
    destruct (lk id FT) as [[d k]|] eqn:Hlk; [| apply Hun; exact Hru].
    destruct ((match n_children nd with [] => true | _ => false end) || k);
      [| apply Hun; exact Hru].
    assert (Hd : sh d = psh (n_pay nd)).
    { apply (Hshape id nd d Hnd). unfold dvl. rewrite Hlk. reflexivity. }
    unfold stored in Hru. destruct (n_grad nd) as [y|] eqn:Hy.
    - destruct Hru as (z & Hz & Hnz).
      pose proof (Hgsh id nd y Hnd Hy) as Hsy.
      destruct (add_ok y d) as (z' & Hz' & Hsz'); [congruence |]. congruence.
    - congruence.
  Qed.

  Lemma default_seed_shape :
    (forall p, sh (eo_ones E p) = psh p) ->
    forall (g : store P D) r s0 ndr,
      nth_error g r = Some ndr -> seed_of E g r None = Some s0 -> sh s0 = psh (n_pay ndr).
  Proof.
    intros Hones g r s0 ndr Hndr Hseed. unfold seed_of in Hseed. rewrite Hndr in Hseed.
    simpl in Hseed. injection Hseed as Hseed. subst s0. apply Hones.
  Qed.
End Value.

Print Assumptions engine_facts.
Print Assumptions pass_value.
