(** C07  Reductions, reshape and point-wise functions compute their definitions

    [vsum O l] is the left fold of [fadd] from [f0] (Rust's [iter().sum()]); [block g j l] is the j-th block of
    length g of the row-major values.  No ring assumptions: the statements are the literal functions.  The facts
    "every softmax row is positive and sums to one" are about real numbers and live in Props/C07real.v.

    Statements only: every theorem below is closed by [exact <lemma>]; the lemmas are proved in
    the files imported here.  Generated with tools/gen_props.py from the lemmas' own types. *)

From Coq Require Import List Arith Bool ZArith.
From Corgi Require Import Lib.OptionMonad Lib.Sums Model.Scalar Model.Arr Model.SlicedOp Model.Elementwise
     Model.Linalg Model.Image Proofs.ArrFacts Proofs.BroadcastDims Proofs.SpecDefs Proofs.SlicedOpSpec
     Proofs.EwSpec Proofs.ReduceSpec.
Import ListNotations.

(** sum(0) is the identity *)
Theorem C07_sum_zero :
  forall (F : Type) (O0 : ScalarOps F) (a : arr F), a_sum O0 0 a = Some a.
Proof. exact @a_sum_zero. Qed.

(** sum(k): last k dimensions collapsed into one unit dimension holding their sums *)
Theorem C07_sum :
  forall (F : Type) (O0 : ScalarOps F) (k : nat) (a : arr F),
         wf a ->
         1 <= k <= length (dims a) ->
         let lead := firstn (length (dims a) - k) (dims a) in
         let g := prod (lastn k (dims a)) in
         exists c : arr F,
           a_sum O0 k a = Some c /\
           wf c /\
           dims c = lead ++ [1] /\
           (forall J : list nat,
            in_range J lead -> get c (J ++ [0]) = Some (vsum O0 (block g (rowmajor lead J) (vals a)))).
Proof. exact @a_sum_spec. Qed.

(** ... and the summed block is the sub-array at the leading index *)
Theorem C07_sum_block :
  forall (F : Type) (k : nat) (a : arr F) (J : list nat),
         wf a ->
         k <= length (dims a) ->
         in_range J (firstn (length (dims a) - k) (dims a)) ->
         map Some
           (block (prod (lastn k (dims a))) (rowmajor (firstn (length (dims a) - k) (dims a)) J) (vals a)) =
         map (fun K : list nat => get a (J ++ K)) (all_indices (lastn k (dims a))).
Proof. exact @a_sum_block_indices. Qed.

(** reshape keeps the row-major values and succeeds exactly for valid dimensions of the same element count *)
Theorem C07_reshape :
  forall (F : Type) (d : list nat) (a c : arr F),
         a_reshape d a = Some c <->
         Forall (fun x : nat => 1 <= x) d /\ prod d = length (vals a) /\ c = {| dims := d; vals := vals a |}.
Proof. exact @a_reshape_spec. Qed.

(** negation (multiplication by -1) *)
Theorem C07_neg :
  forall (F : Type) (O : ScalarOps F) (a : arr F),
         wf a ->
         a_neg O a = Some {| dims := dims a; vals := map (fun x : F => fmul O x (fneg O (f1 O))) (vals a) |}.
Proof. exact @a_neg_spec. Qed.

(** scaling *)
Theorem C07_scale :
  forall (F : Type) (O : ScalarOps F) (s : F) (a : arr F),
         wf a -> a_scale O s a = Some {| dims := dims a; vals := map (fun x : F => fmul O x s) (vals a) |}.
Proof. exact @a_scale_spec. Qed.

(** powf *)
Theorem C07_powf :
  forall (F : Type) (O : ScalarOps F) (e : F) (a : arr F),
         wf a -> a_powf O e a = Some {| dims := dims a; vals := map (fun x : F => fpow O x e) (vals a) |}.
Proof. exact @a_powf_spec. Qed.

(** ln *)
Theorem C07_ln :
  forall (F : Type) (O : ScalarOps F) (a : arr F),
         wf a -> a_ln O a = Some {| dims := dims a; vals := map (fln O) (vals a) |}.
Proof. exact @a_ln_spec. Qed.

(** exp *)
Theorem C07_exp :
  forall (F : Type) (O : ScalarOps F) (a : arr F),
         wf a -> a_exp O a = Some {| dims := dims a; vals := map (fexp O) (vals a) |}.
Proof. exact @a_exp_spec. Qed.

(** reciprocal *)
Theorem C07_reciprocal :
  forall (F : Type) (O : ScalarOps F) (a : arr F),
         wf a ->
         a_reciprocal O a = Some {| dims := dims a; vals := map (fun x : F => fdiv O (f1 O) x) (vals a) |}.
Proof. exact @a_reciprocal_spec. Qed.

(** relu *)
Theorem C07_relu :
  forall (F : Type) (O : ScalarOps F) (a : arr F),
         wf a ->
         a_relu O a =
         Some {| dims := dims a; vals := map (fun x : F => if fgt0 O x then x else f0 O) (vals a) |}.
Proof. exact @a_relu_spec. Qed.

(** sigmoid = 1 / (1 + exp (-x)) *)
Theorem C07_sigmoid :
  forall (F : Type) (O : ScalarOps F) (a : arr F),
         wf a ->
         a_sigmoid O a =
         Some
           {|
             dims := dims a;
             vals := map (fun x : F => fdiv O (f1 O) (fadd O (f1 O) (fexp O (fneg O x)))) (vals a)
           |}.
Proof. exact @a_sigmoid_spec. Qed.

(** softmax divides exponentials by their sum over the last dimension *)
Theorem C07_softmax :
  forall (F : Type) (O : ScalarOps F) (a : arr F) (lead : list nat) (n : nat),
         wf a ->
         dims a = lead ++ [n] ->
         exists c : arr F,
           a_softmax O a = Some c /\
           wf c /\
           dims c = dims a /\
           (forall (J : list nat) (i : nat),
            in_range J lead ->
            i < n ->
            exists x : F,
              get a (J ++ [i]) = Some x /\
              get c (J ++ [i]) =
              Some (fdiv O (fexp O x) (vsum O (map (fexp O) (block n (rowmajor lead J) (vals a)))))).
Proof. exact @a_softmax_spec. Qed.

(** [sum_all] is the sum of all values by definition. *)
Theorem C07_sum_all : forall (F : Type) (O : ScalarOps F) (a : arr F), a_sum_all O a = vsum O (vals a).
Proof. reflexivity. Qed.

Example C07_example :
  let a := {| dims := [2; 2; 2]; vals := [1; 2; 3; 4; 5; 6; 7; 8]%Z |} in
  wf a /\ option_map (fun r => (dims r, vals r)) (a_sum Z_ops 2 a) = Some ([2; 1], [10; 26]%Z)
  /\ option_map (@vals Z) (a_reshape [4; 2] a) = Some [1; 2; 3; 4; 5; 6; 7; 8]%Z
  /\ a_reshape [3; 2] a = None.
Proof. cbv zeta. split; [repeat constructor | repeat split; vm_compute; reflexivity]. Qed.
Print Assumptions C07_sum_all.

Print Assumptions C07_sum_zero.
Print Assumptions C07_sum.
Print Assumptions C07_sum_block.
Print Assumptions C07_reshape.
Print Assumptions C07_neg.
Print Assumptions C07_scale.
Print Assumptions C07_powf.
Print Assumptions C07_ln.
Print Assumptions C07_exp.
Print Assumptions C07_reciprocal.
Print Assumptions C07_relu.
Print Assumptions C07_sigmoid.
Print Assumptions C07_softmax.
