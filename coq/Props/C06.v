(** C06  Convolution equals the direct sliding-window definition

    [conv O image filters sr sc] models [image.conv(&filters, (sr, sc))] = unroll_blocks ; reshape of the
    filters ; matmul ; expand_conv.  [out_count i f s = (i - f) / s + 1].  No ring assumption is needed for
    [C06_value]: the code's summation order is already (k, m, n) row-major; [C06_value_triple] re-brackets it as the
    textbook triple sum under [is_cring O].

    Statements only: every theorem below is closed by [exact <lemma>]; the lemmas are proved in
    the files imported here.  Generated with tools/gen_props.py from the lemmas' own types. *)

From Coq Require Import List Arith Bool ZArith.
From Corgi Require Import Lib.OptionMonad Lib.Sums Model.Scalar Model.Arr Model.SlicedOp Model.Elementwise
     Model.Linalg Model.Image Proofs.ArrFacts Proofs.BroadcastDims Proofs.SpecDefs Proofs.SlicedOpSpec
     Proofs.EwSpec Proofs.ReduceSpec.
Import ListNotations.
From Corgi Require Import Proofs.MatmulSpec Proofs.ConvSpec.

(** dimensions [batch ++ [count; rc; cc]] and element (f, y, x) of every image of the batch *)
Theorem C06_value :
  forall (F : Type) (O0 : ScalarOps F) (image filters : arr F) (batch : list nat)
           (depth rows cols count fr fc sr sc : nat),
         wf image ->
         wf filters ->
         dims image = batch ++ [depth; rows; cols] ->
         dims filters = [count; depth; fr; fc] ->
         1 <= sr ->
         1 <= sc ->
         fr <= rows ->
         fc <= cols ->
         let rc := out_count rows fr sr in
         let cc := out_count cols fc sc in
         exists r : arr F,
           conv O0 image filters sr sc = Some r /\
           wf r /\
           dims r = batch ++ [count; rc; cc] /\
           (forall (B : list nat) (f y x : nat),
            in_range B batch ->
            f < count ->
            y < rc ->
            x < cc ->
            (forall q : nat,
             q < depth * fr * fc ->
             in_range (B ++ [q / (fr * fc); y * sr + (q / fc) mod fr; x * sc + q mod fc]) (dims image) /\
             in_range [f; q / (fr * fc); (q / fc) mod fr; q mod fc] (dims filters)) /\
            get r (B ++ [f; y; x]) =
            Some
              (fadd O0 (f0 O0)
                 (vsum O0
                    (map
                       (fun q : nat =>
                        let k := q / (fr * fc) in
                        let m := (q / fc) mod fr in
                        let n := q mod fc in
                        fmul O0 (getd O0 image (B ++ [k; y * sr + m; x * sc + n]))
                          (getd O0 filters [f; k; m; n])) (seq 0 (depth * fr * fc)))))).
Proof. exact @conv_spec. Qed.

(** the same as the triple sum over depth and filter positions *)
Theorem C06_value_triple :
  forall (F : Type) (O0 : ScalarOps F),
         is_cring O0 ->
         forall (image filters : arr F) (batch : list nat) (depth rows cols count fr fc sr sc : nat),
         wf image ->
         wf filters ->
         dims image = batch ++ [depth; rows; cols] ->
         dims filters = [count; depth; fr; fc] ->
         1 <= sr ->
         1 <= sc ->
         fr <= rows ->
         fc <= cols ->
         let rc := out_count rows fr sr in
         let cc := out_count cols fc sc in
         exists r : arr F,
           conv O0 image filters sr sc = Some r /\
           wf r /\
           dims r = batch ++ [count; rc; cc] /\
           (forall (B : list nat) (f y x : nat),
            in_range B batch ->
            f < count ->
            y < rc ->
            x < cc ->
            (forall k m n : nat,
             k < depth ->
             m < fr ->
             n < fc ->
             in_range (B ++ [k; y * sr + m; x * sc + n]) (dims image) /\ in_range [f; k; m; n] (dims filters)) /\
            get r (B ++ [f; y; x]) =
            Some
              (vsum O0
                 (map
                    (fun k : nat =>
                     vsum O0
                       (map
                          (fun m : nat =>
                           vsum O0
                             (map
                                (fun n : nat =>
                                 fmul O0 (getd O0 image (B ++ [k; y * sr + m; x * sc + n]))
                                   (getd O0 filters [f; k; m; n])) (seq 0 fc))) (seq 0 fr))) 
                    (seq 0 depth)))).
Proof. exact @conv_spec_triple. Qed.

(** im2col: row (y, x), column (k, m, n) holds image[k, y*sr+m, x*sc+n], per image *)
Theorem C06_unroll :
  forall (F : Type) (O0 : ScalarOps F) (image : arr F) (batch : list nat)
           (depth rows cols sr sc fr fc : nat),
         wf image ->
         dims image = batch ++ [depth; rows; cols] ->
         1 <= sr ->
         1 <= sc ->
         1 <= fr ->
         1 <= fc ->
         fr <= rows ->
         fc <= cols ->
         let rc := out_count rows fr sr in
         let cc := out_count cols fc sc in
         exists u : arr F,
           unroll_blocks O0 image sr sc fr fc = Some u /\
           wf u /\
           dims u = batch ++ [rc * cc; depth * (fr * fc)] /\
           (forall (B : list nat) (y x k m n : nat),
            in_range B batch ->
            y < rc ->
            x < cc ->
            k < depth ->
            m < fr ->
            n < fc ->
            in_range (B ++ [y * cc + x; (k * fr + m) * fc + n]) (dims u) /\
            in_range (B ++ [k; y * sr + m; x * sc + n]) (dims image) /\
            get u (B ++ [y * cc + x; (k * fr + m) * fc + n]) = get image (B ++ [k; y * sr + m; x * sc + n])).
Proof. exact @unroll_blocks_spec. Qed.

(** the per-image transposition [windows, count] -> [count, rc, cc] *)
Theorem C06_expand :
  forall (F : Type) (O0 : ScalarOps F) (a : arr F) (batch : list nat) (rc cc count : nat),
         wf a ->
         dims a = batch ++ [rc * cc; count] ->
         1 <= rc ->
         1 <= cc ->
         exists e : arr F,
           expand_conv O0 a rc cc = Some e /\
           wf e /\
           dims e = batch ++ [count; rc; cc] /\
           (forall (B : list nat) (f y x : nat),
            in_range B batch ->
            f < count ->
            y < rc ->
            x < cc ->
            in_range (B ++ [f; y; x]) (dims e) /\
            in_range (B ++ [y * cc + x; f]) (dims a) /\ get e (B ++ [f; y; x]) = get a (B ++ [y * cc + x; f])).
Proof. exact @expand_conv_spec. Qed.

(** fewer than 3 dimensions are refused *)
Theorem C06_refuses_rank :
  forall (F : Type) (O0 : ScalarOps F) (image filters : arr F) (sr sc : nat),
         length (dims image) < 3 \/ length (dims filters) < 3 -> conv O0 image filters sr sc = None.
Proof. exact @conv_refuses_rank. Qed.

(** a filter larger than the image or a zero stride panics *)
Theorem C06_refuses_geometry :
  forall (F : Type) (O0 : ScalarOps F) (image filters : arr F) (sr sc : nat) 
           (batch : list nat) (depth rows cols : nat) (fl : list nat) (fd fr fc : nat),
         dims image = batch ++ [depth; rows; cols] ->
         dims filters = fl ++ [fd; fr; fc] ->
         rows < fr \/ cols < fc \/ sr = 0 \/ sc = 0 -> conv O0 image filters sr sc = None.
Proof. exact @conv_refuses_geometry. Qed.

Example C06_example :
  let image := {| dims := [2; 1; 2; 3]; vals := [1; 2; 3; 4; 5; 6; 1; 0; 1; 0; 1; 0]%Z |} in
  let filters := {| dims := [1; 1; 2; 2]; vals := [1; 0; 0; 1]%Z |} in
  wf image /\ wf filters /\
  option_map (fun r => (dims r, vals r)) (conv Z_ops image filters 1 1)
  = Some ([2; 1; 1; 2], [6; 8; 2; 0]%Z).
Proof. cbv zeta. split; [| split]; [repeat constructor .. | vm_compute; reflexivity]. Qed.

Print Assumptions C06_value.
Print Assumptions C06_value_triple.
Print Assumptions C06_unroll.
Print Assumptions C06_expand.
Print Assumptions C06_refuses_rank.
Print Assumptions C06_refuses_geometry.
