(** C05  Matrix multiplication computes the batched, optionally transposed product

    [a_matmul O a ta b tb c] is the model of [Array::matmul((a, ta), (b, tb), c)].  For operands of rank >= 2
    with last two dimensions [ar; ac] and [br; bc]: rows = mm_rows ta ar ac, cols = mm_cols tb br bc, the inner
    dimensions mm_inner_a / mm_inner_b must agree, and the leading dimensions la, lb must be broadcast compatible.
    [matmul_post] says: the result exists, is well formed, has dimensions [bmax la lb ++ [rows; cols]], every read is
    in range, and element (J, i, j) is  cterm i j + sum_k A[bclamp la J, i, k]^ta * B[bclamp lb J, k, j]^tb  (literally
    [fadd (cterm) (vsum ...)], the order the code adds in; no ring assumption).  [bias_shape] lists the additive-term forms
    of the property: absent, [cols], [rows; cols], [1; cols], [1].

    Statements only: every theorem below is closed by [exact <lemma>]; the lemmas are proved in
    the files imported here.  Generated with tools/gen_props.py from the lemmas' own types. *)

From Coq Require Import List Arith Bool ZArith.
From Corgi Require Import Lib.OptionMonad Lib.Sums Model.Scalar Model.Arr Model.SlicedOp Model.Elementwise
     Model.Linalg Model.Image Proofs.ArrFacts Proofs.BroadcastDims Proofs.SpecDefs Proofs.SlicedOpSpec
     Proofs.EwSpec Proofs.ReduceSpec.
Import ListNotations.
From Corgi Require Import Proofs.MatmulSpec.

(** shape and value for every (rows, inner, cols), flag pair, leading broadcast and additive-term form *)
Theorem C05_value :
  forall (F : Type) (O : ScalarOps F) (a : arr F) (ta : bool) (b : arr F) (tb : bool)
           (c : option (arr F)) (la : list nat) (ar ac : nat) (lb : list nat) (br bc : nat),
         wf a ->
         wf b ->
         dims a = la ++ [ar; ac] ->
         dims b = lb ++ [br; bc] ->
         mm_inner_a ta ar ac = mm_inner_b tb br bc ->
         bcompat la lb ->
         bias_shape (mm_rows ta ar ac) (mm_cols tb br bc) c ->
         matmul_post O a ta b tb c la lb (mm_rows ta ar ac) (mm_cols tb br bc) (mm_inner_a ta ar ac)
           (cterm O c).
Proof. exact @matmul_spec. Qed.

(** mismatching inner dimension (or incompatible leading dimensions) is refused *)
Theorem C05_refuses :
  forall (F : Type) (O : ScalarOps F) (a : arr F) (ta : bool) (b : arr F) (tb : bool)
           (c : option (arr F)) (la : list nat) (ar ac : nat) (lb : list nat) (br bc : nat),
         dims a = la ++ [ar; ac] ->
         dims b = lb ++ [br; bc] ->
         mm_inner_a ta ar ac <> mm_inner_b tb br bc \/ ~ bcompat la lb -> a_matmul O a ta b tb c = None.
Proof. exact @matmul_refuses. Qed.

(** a rank-1 left operand behaves as the one-row matrix [1; n] *)
Theorem C05_vector_left :
  forall (F : Type) (O0 : ScalarOps F) (a : arr F) (ta : bool) (b : arr F) (tb : bool)
           (c : option (arr F)) (n : nat) (lb : list nat) (br bc : nat),
         wf a ->
         wf b ->
         dims a = [n] ->
         dims b = lb ++ [br; bc] ->
         a_matmul O0 a ta b tb c = a_matmul O0 {| dims := [1; n]; vals := vals a |} ta b tb c.
Proof. exact @matmul_vec_l. Qed.

(** ... and the result dimensions *)
Theorem C05_vector_left_dims :
  forall (F : Type) (O0 : ScalarOps F) (a : arr F) (ta : bool) (b : arr F) (tb : bool)
           (c : option (arr F)) (n : nat) (lb : list nat) (br bc : nat) (r : arr F),
         dims a = [n] ->
         dims b = lb ++ [br; bc] ->
         a_matmul O0 a ta b tb c = Some r -> dims r = lb ++ [if ta then n else 1; mm_cols tb br bc].
Proof. exact @matmul_vec_l_dims. Qed.

(** a rank-1 right operand behaves as the one-row matrix [1; n] *)
Theorem C05_vector_right :
  forall (F : Type) (O0 : ScalarOps F) (a : arr F) (ta : bool) (b : arr F) (tb : bool)
           (c : option (arr F)) (n : nat) (la : list nat) (ar ac : nat),
         wf a ->
         wf b ->
         dims a = la ++ [ar; ac] ->
         dims b = [n] -> a_matmul O0 a ta b tb c = a_matmul O0 a ta {| dims := [1; n]; vals := vals b |} tb c.
Proof. exact @matmul_vec_r. Qed.

(** ... and the result dimensions *)
Theorem C05_vector_right_dims :
  forall (F : Type) (O0 : ScalarOps F) (a : arr F) (ta : bool) (b : arr F) (tb : bool)
           (c : option (arr F)) (n : nat) (la : list nat) (ar ac : nat) (r : arr F),
         dims a = la ++ [ar; ac] ->
         dims b = [n] ->
         a_matmul O0 a ta b tb c = Some r -> dims r = la ++ [mm_rows ta ar ac; if tb then 1 else n].
Proof. exact @matmul_vec_r_dims. Qed.

(** two untransposed rank-1 operands of equal length give their dot product *)
Theorem C05_dot :
  forall (F : Type) (O0 : ScalarOps F) (a b : arr F) (n : nat),
         wf a ->
         wf b ->
         dims a = [n] ->
         dims b = [n] ->
         a_matmul O0 a false b false None =
         Some
           {|
             dims := [1];
             vals :=
               [fadd O0 (f0 O0)
                  (vsum O0 (map (fun k : nat => fmul O0 (getd O0 a [k]) (getd O0 b [k])) (seq 0 n)))]
           |} /\
         (forall k : nat, k < n -> get a [k] = Some (getd O0 a [k]) /\ get b [k] = Some (getd O0 b [k])).
Proof. exact @matmul_dot. Qed.

(** vectors of different lengths are refused *)
Theorem C05_dot_refuses :
  forall (F : Type) (O : ScalarOps F) (a b : arr F) (c : option (arr F)) (n m : nat),
         dims a = [n] -> dims b = [m] -> n <> m -> a_matmul O a false b false c = None.
Proof. exact @matmul_dot_refuses. Qed.

(** Non-vacuity: a batched, transposed product with a row bias, computed by the model. *)
Example C05_example :
  let a := {| dims := [2; 2; 3]; vals := [1; 2; 3; 4; 5; 6; 1; 0; 0; 0; 1; 0]%Z |} in
  let b := {| dims := [2; 3]; vals := [1; 1; 1; 0; 1; 2]%Z |} in
  let c := {| dims := [2]; vals := [100; 200]%Z |} in
  wf a /\ wf b /\ wf c /\
  option_map (fun r => (dims r, vals r)) (a_matmul Z_ops a false b true (Some c))
  = Some ([2; 2; 2], [106; 208; 115; 217; 101; 200; 101; 201]%Z).
Proof.
  cbv zeta. split; [| split; [| split]]; [repeat constructor .. | vm_compute; reflexivity].
Qed.

Print Assumptions C05_value.
Print Assumptions C05_refuses.
Print Assumptions C05_vector_left.
Print Assumptions C05_vector_left_dims.
Print Assumptions C05_vector_right.
Print Assumptions C05_vector_right_dims.
Print Assumptions C05_dot.
Print Assumptions C05_dot_refuses.
